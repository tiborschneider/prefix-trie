(** The cover list, shortest- and longest-prefix match as its first and last element, children, and
    the iterators. *)
From Coq Require Import List NArith ZArith Bool Arith Lia Sorted.
From PT Require Import Bits BitsThm Laws Machine MachineThm Trie TrieWf Lookup.
Import ListNotations.

Section IT.
Variables (pfx V : Type).
Notation tree := (tree pfx V).

Lemma nodes_of_is_node (ts : list tree) : Forall (fun t => is_node t = true) (nodes_of ts).
Proof. unfold nodes_of. apply Forall_forall. intros t H. apply filter_In in H. tauto. Qed.

Lemma flat_map_nodes_of {A} (f : tree -> list A) (ts : list tree) :
  f Leaf = [] -> flat_map f (nodes_of ts) = flat_map f ts.
Proof.
  intros Hf. induction ts as [|t ts IH]; [reflexivity|]. unfold nodes_of in *. cbn [filter].
  destruct t as [|i p v l r]; cbn [is_node flat_map].
  - rewrite Hf. exact IH.
  - rewrite IH. reflexivity.
Qed.

Lemma msize_nodes_of (ts : list tree) : msize tree tsize (nodes_of ts) = msize tree tsize ts.
Proof.
  induction ts as [|t ts IH]; [reflexivity|]. unfold nodes_of in *. cbn [filter].
  destruct t as [|i p v l r]; cbn [is_node].
  - rewrite msize_cons. cbn [tsize]. exact IH.
  - rewrite !msize_cons, IH. reflexivity.
Qed.

Theorem iter_run_spec (st : list tree) :
  Forall (fun t => is_node t = true) st ->
  iter_run pfx V st = Some (flat_map entries_id st).
Proof.
  intros Hst. unfold iter_run.
  apply (run_spec tree (N * pfx * V) (iter_expand pfx V) tsize (fun t => is_node t = true) entries_id).
  - intros e o cs He Hex. destruct e as [|i p v l r]; [discriminate|].
    unfold iter_expand in Hex. apply pair_equal_spec in Hex. destruct Hex as [<- <-]. rewrite msize_nodes_of. unfold msize. cbn. lia.
  - intros e o cs He Hex. destruct e as [|i p v l r]; [discriminate|].
    unfold iter_expand in Hex. apply pair_equal_spec in Hex. destruct Hex as [<- <-]. split; [apply nodes_of_is_node|].
    assert (Hrev : rev (nodes_of [r; l]) = nodes_of [l; r]).
    { unfold nodes_of. destruct l, r; reflexivity. }
    rewrite Hrev, flat_map_nodes_of by reflexivity. cbn [flat_map entries_id]. rewrite app_nil_r.
    destruct v; reflexivity.
  - exact Hst.
  - unfold msize. lia.
Qed.

Lemma tsize_nodes_of1 (t : tree) : list_sum (map tsize (nodes_of [t])) = tsize t.
Proof. destruct t; cbn; lia. Qed.

Lemma flat_entries_id_nodes_of1 (t : tree) : flat_map entries_id (nodes_of [t]) = entries_id t.
Proof. rewrite flat_map_nodes_of by reflexivity. cbn. apply app_nil_r. Qed.

Theorem iter_items_spec (t : tree) : iter_items pfx V t = entries_id t.
Proof.
  unfold iter_items. rewrite iter_run_spec by apply nodes_of_is_node.
  apply flat_entries_id_nodes_of1.
Qed.

Lemma iter_mut_expand_eq t : iter_mut_expand pfx V t = iter_expand pfx V t.
Proof. reflexivity. Qed.
Lemma into_iter_expand_eq t : into_iter_expand pfx V t = iter_expand pfx V t.
Proof. reflexivity. Qed.

Lemma run_ext {E I} (f g : E -> option I * list E) : (forall e, f e = g e) ->
  forall n st, run E I f n st = run E I g n st.
Proof.
  intros H. induction n as [|n IH]; intros st; destruct st as [|e rest]; cbn; try reflexivity.
  rewrite H. destruct (g e) as [o cs]. rewrite IH. reflexivity.
Qed.

(** [IterMut] and [IntoIter] are separate copies of the loop of [Iter]: the expansions agree, hence the runs *)
Theorem iter_mut_items_spec (t : tree) : iter_mut_items pfx V t = entries_id t.
Proof.
  rewrite <- iter_items_spec. unfold iter_mut_items, iter_items, iter_run.
  rewrite (run_ext _ _ iter_mut_expand_eq), tsize_nodes_of1. reflexivity.
Qed.

Theorem into_iter_items_spec (t : tree) : into_iter_items pfx V t = entries_id t.
Proof.
  rewrite <- iter_items_spec. unfold into_iter_items, iter_items, iter_run.
  rewrite (run_ext _ _ into_iter_expand_eq), tsize_nodes_of1. reflexivity.
Qed.

(** an item without its slot number ([Lookup.drop_slot] under the name the iterator statements use) *)
Definition drop_id (x : N * pfx * V) : pfx * V := let '(_, p, v) := x in (p, v).
Lemma entries_id_entries (t : tree) : map drop_id (entries_id t) = entries t.
Proof.
  induction t as [|i p v l IHl r IHr]; [reflexivity|]. cbn [entries_id entries].
  rewrite !map_app, IHl, IHr. destruct v; reflexivity.
Qed.

Lemma length_entries_id (t : tree) : length (entries t) = length (entries_id t).
Proof. rewrite <- entries_id_entries. apply map_length. Qed.

Lemma iter_fused fuel : next tree (N * pfx * V) (iter_expand pfx V) fuel [] = Some (None, []).
Proof. destruct fuel; reflexivity. Qed.

End IT.

Section LK2.
Variables (pfx V : Type).
Variables (peq contains : pfx -> pfx -> bool) (is_bit_set : pfx -> N -> bool)
          (plen : pfx -> N) (lcp : pfx -> pfx -> pfx) (pzero : pfx)
          (mcmp : pfx -> pfx -> comparison).
Variable bits : pfx -> list bool.
Variable ok : pfx -> Prop.
Hypothesis LAWS : prefix_laws pfx peq contains is_bit_set plen lcp pzero mcmp bits ok.

Notation tree := (tree pfx V).
Notation to_right := (to_right pfx is_bit_set plen).
Notation wf_under := (wf_under pfx V bits ok).
Notation key := (key pfx V bits).
Notation root_covers := (root_covers pfx V bits).
Notation cover_walk := (cover_walk pfx V peq contains is_bit_set plen).
Notation cover_loop := (cover_loop pfx V peq contains is_bit_set plen).
Notation cover_next := (cover_next pfx V peq contains is_bit_set plen).
Notation cover_drain := (cover_drain pfx V peq contains is_bit_set plen).
Notation spm_walk := (spm_walk pfx V peq contains is_bit_set plen).
Notation get_spm := (get_spm pfx V peq contains is_bit_set plen).
Notation lpm_walk := (lpm_walk pfx V peq contains is_bit_set plen).
Notation children_start := (children_start pfx V peq contains is_bit_set plen).

Notation step := (step pfx V peq contains is_bit_set plen).
Notation own := (own pfx V).
Notation step_ind := (step_ind pfx V peq contains is_bit_set plen).
Local Notation step_enter := (step_enter pfx V peq contains is_bit_set plen lcp pzero mcmp bits ok LAWS).
Local Notation contains_false := (contains_false pfx peq contains is_bit_set plen lcp pzero mcmp bits ok LAWS).
Local Notation step_cover := (step_cover pfx V peq contains is_bit_set plen lcp pzero mcmp bits ok LAWS).

(** the part of the cover strictly below the root *)
Definition cover_rest (t : tree) (q : pfx) : list (pfx * V) :=
  match t with
  | Leaf => []
  | Node _ p _ l r =>
    if peq p q then [] else
    match (if to_right p q then r else l) with
    | Node ci cp cv cl cr => if contains cp q then cover_walk (Node ci cp cv cl cr) q else []
    | Leaf => []
    end
  end.

Lemma cover_rest_step t q :
  cover_rest t q = match step t q with Some c => cover_walk c q | None => [] end.
Proof.
  destruct t as [|i p v l r]; [reflexivity|]. cbn [cover_rest TrieWf.step]. unfold child_of.
  destruct (peq p q); [reflexivity|].
  destruct (if to_right p q then r else l) as [|ci cp cv cl cr]; [reflexivity|].
  destruct (contains cp q); reflexivity.
Qed.

Lemma cover_walk_unfold t q :
  cover_walk t q = match t with Leaf => [] | Node _ p v _ _ => own p v ++ cover_rest t q end.
Proof.
  destruct t as [|i p v l r]; [reflexivity|]. rewrite cover_rest_step.
  transitivity (match step (Node i p v l r) q with
                | Some c => own p v ++ cover_walk c q | None => own p v end).
  - apply (descend_step pfx V peq contains is_bit_set plen i p v l r q _ (fun c => _ ++ cover_walk c q)).
  - destruct (step _ q); [reflexivity | symmetry; apply app_nil_r].
Qed.

Theorem cover_walk_spec t : forall b q,
  wf_under b t -> ok q -> root_covers t q ->
  forall e, In e (cover_walk t q) <-> In e (entries t) /\ prefix_of (key e) (bits q).
Proof.
  intros b q. revert b. induction t as [t IH] using (step_ind q). intros b Hwf Hq Hrc e.
  destruct t as [|i p v l r]; [cbn; tauto|].
  rewrite cover_walk_unfold, cover_rest_step, in_app_iff. split.
  - intros [H|H].
    + split; [rewrite entries_node, in_app_iff; left; exact H|].
      apply in_own in H. destruct H as [_ H]. unfold TrieWf.key. rewrite H. exact Hrc.
    + destruct (step _ q) as [c|] eqn:S; [|contradiction].
      destruct (step_enter Hwf Hq S) as (Hc & Hrcc & Hsub).
      apply (IH c eq_refl _ Hc Hq Hrcc) in H. destruct H as [H1 H2]. split; [apply Hsub, H1 | exact H2].
  - intros [Hin Hcv].
    destruct (step_cover Hwf Hq Hrc Hin Hcv) as [H|(c & S & H)]; [left; exact H|right].
    rewrite S. destruct (step_enter Hwf Hq S) as (Hc & Hrcc & _).
    apply (IH c S _ Hc Hq Hrcc). split; assumption.
Qed.

Corollary cover_walk_spec_root t q e :
  wf_root pfx V bits ok t -> ok q ->
  (In e (cover_walk t q) <-> In e (entries t) /\ prefix_of (key e) (bits q)).
Proof.
  intros Hwf Hq.
  exact (cover_walk_spec t [] q (wf_root_under _ _ _ _ t Hwf) Hq (wf_root_covers _ _ _ _ t q Hwf) e).
Qed.

(** order: strictly increasing prefix length *)
Definition len_lt (e1 e2 : pfx * V) : Prop := length (key e1) < length (key e2).

Lemma len_lt_plen e1 e2 :
  ok (fst e1) -> ok (fst e2) -> (len_lt e1 e2 <-> (plen (fst e1) < plen (fst e2))%N).
Proof.
  intros H1 H2. unfold len_lt, TrieWf.key.
  rewrite !(plen_bits _ _ _ _ _ _ _ _ _ _ LAWS) by assumption. lia.
Qed.

Lemma cover_walk_under t : forall q e, In e (cover_walk t q) -> In e (entries t).
Proof.
  intros q. induction t as [t IH] using (step_ind q). intros e H.
  destruct t as [|i p v l r]; [contradiction|].
  rewrite cover_walk_unfold, cover_rest_step, in_app_iff in H. destruct H as [H|H].
  - rewrite entries_node, in_app_iff. left. exact H.
  - destruct (step _ q) as [c|] eqn:S; [|contradiction].
    exact (step_incl pfx V peq contains is_bit_set plen S _ (IH c eq_refl _ H)).
Qed.

Theorem cover_walk_sorted t : forall b q, wf_under b t -> StronglySorted len_lt (cover_walk t q).
Proof.
  intros b q. revert b. induction t as [t IH] using (step_ind q). intros b Hwf.
  destruct t as [|i p v l r]; [constructor|]. rewrite cover_walk_unfold, cover_rest_step.
  destruct (step _ q) as [c|] eqn:S; [|rewrite app_nil_r; destruct v; repeat constructor].
  pose proof (step_wf pfx V peq contains is_bit_set plen bits ok _ _ _ _ _ _ _ _ Hwf S) as Hc. specialize (IH c eq_refl _ Hc).
  destruct v as [x|]; [|exact IH]. constructor; [exact IH|]. apply Forall_forall. intros e He.
  (* what the child's cover holds lies below the node *)
  apply cover_walk_under in He. exact (below_longer _ _ _ (entries_under _ _ _ _ _ _ _ Hc He)).
Qed.

Lemma cover_loop_unfold i p v l r q :
  cover_loop (Node i p v l r) q =
  match step (Node i p v l r) q with
  | Some c => match pv c with Some x => (Some x, c) | None => cover_loop c q end
  | None => (None, Node i p v l r)
  end.
Proof.
  cbn [Trie.cover_loop TrieWf.step]. unfold child_of. destruct (peq p q); [reflexivity|].
  destruct (if to_right p q then r else l) as [|ci cp cv cl cr]; [reflexivity|].
  destruct (contains cp q); [destruct cv|]; reflexivity.
Qed.

Lemma cover_loop_spec t : forall q,
  match cover_loop t q with
  | (Some x, t') => exists xs, cover_rest t q = x :: xs /\ cover_rest t' q = xs
  | (None, t') => cover_rest t q = [] /\ cover_rest t' q = []
  end.
Proof.
  intros q. induction t as [t IH] using (step_ind q). destruct t as [|i p v l r]; [cbn; auto|].
  rewrite cover_loop_unfold, (cover_rest_step (Node i p v l r)).
  destruct (step _ q) as [c|] eqn:S; [|rewrite cover_rest_step, S; auto].
  specialize (IH c eq_refl). rewrite cover_walk_unfold.
  destruct c as [|ci cp [x|] cl cr]; cbn [pv]; [exact IH| |exact IH].
  exists (cover_rest (Node ci cp (Some x) cl cr) q). split; reflexivity.
Qed.

(** what remains to be yielded in a given iterator state *)
Definition cover_pending (T : tree) (st : cstate pfx V) (q : pfx) : list (pfx * V) :=
  match st with CStart => cover_walk T q | CAt t => cover_rest t q end.

Theorem cover_next_spec T st q :
  match cover_next T st q with
  | (Some x, st') => exists xs, cover_pending T st q = x :: xs /\ cover_pending T st' q = xs
  | (None, st') => cover_pending T st q = [] /\ cover_pending T st' q = []
  end.
Proof.
  destruct st as [|t]; cbn [Trie.cover_next cover_pending].
  - destruct T as [|i p v l r]; [cbn; auto|]. rewrite cover_walk_unfold.
    destruct v as [x|]; cbn [pv own app].
    + exists (cover_rest (Node i p (Some x) l r) q). split; reflexivity.
    + pose proof (cover_loop_spec (Node i p None l r) q) as H.
      destruct (cover_loop (Node i p None l r) q) as [[x|] t']; exact H.
  - pose proof (cover_loop_spec t q) as H. destruct (cover_loop t q) as [[x|] t']; exact H.
Qed.

(** so fuel beyond the length of what is pending changes nothing: [cover_drain_pending] *)
Theorem cover_drain_firstn T q : forall fuel st,
  cover_drain fuel T st q = firstn fuel (cover_pending T st q).
Proof.
  induction fuel as [|fuel IH]; intros st; [reflexivity|]. cbn [Trie.cover_drain].
  pose proof (cover_next_spec T st q) as H. destruct (cover_next T st q) as [[x|] st'].
  - destruct H as [xs [-> <-]]. cbn [firstn]. rewrite IH. reflexivity.
  - destruct H as [-> _]. reflexivity.
Qed.

Corollary cover_drain_pending T q fuel st :
  length (cover_pending T st q) < fuel -> cover_drain fuel T st q = cover_pending T st q.
Proof. intros H. rewrite cover_drain_firstn. apply firstn_all2. lia. Qed.

Theorem cover_fused T st q :
  cover_pending T st q = [] ->
  fst (cover_next T st q) = None /\ cover_pending T (snd (cover_next T st q)) q = [].
Proof.
  intros Hp. pose proof (cover_next_spec T st q) as H.
  destruct (cover_next T st q) as [[x|] st']; cbn.
  - destruct H as [xs [E _]]. rewrite Hp in E. discriminate.
  - destruct H as [_ E]. auto.
Qed.

Lemma spm_walk_eq t : forall q,
  match t with Leaf => True | Node _ _ v _ _ => v = None end ->
  spm_walk t q = hd_error (cover_walk t q).
Proof.
  induction t as [|i0 p0 v0 l IHl r IHr]; intros q Hv; [reflexivity|]. subst v0.
  cbn [Trie.spm_walk Trie.cover_walk app].
  destruct (peq p0 q); [reflexivity|].
  destruct (to_right p0 q).
  - destruct r as [|ci cp cv cl cr]; [reflexivity|]. destruct (contains cp q); [|reflexivity].
    destruct cv as [x|].
    + rewrite cover_walk_unfold. reflexivity.
    + apply IHr. reflexivity.
  - destruct l as [|ci cp cv cl cr]; [reflexivity|]. destruct (contains cp q); [|reflexivity].
    destruct cv as [x|].
    + rewrite cover_walk_unfold. reflexivity.
    + apply IHl. reflexivity.
Qed.

Theorem get_spm_spec t q : get_spm t q = hd_error (cover_walk t q).
Proof.
  unfold Trie.get_spm. destruct t as [|i p v l r]; [reflexivity|].
  destruct v as [x|]; cbn [pv].
  - rewrite cover_walk_unfold. reflexivity.
  - apply spm_walk_eq. reflexivity.
Qed.

Lemma lpm_walk_cover t : forall q best,
  lpm_walk t q best = match rev (cover_walk t q) with x :: _ => Some x | [] => best end.
Proof.
  intros q. induction t as [t IH] using (step_ind q). intros best.
  destruct t as [|i p v l r]; [reflexivity|].
  rewrite (lpm_walk_unfold pfx V peq contains is_bit_set plen), cover_walk_unfold, cover_rest_step,
    rev_app_distr.
  destruct (step _ q) as [c|] eqn:S; [|destruct v; reflexivity].
  rewrite (IH c eq_refl). destruct (rev (cover_walk c q)); [destruct v|]; reflexivity.
Qed.

Theorem get_lpm_last t q :
  Trie.get_lpm pfx V peq contains is_bit_set plen t q = hd_error (rev (cover_walk t q)).
Proof.
  unfold Trie.get_lpm. rewrite lpm_walk_cover. destruct (rev (cover_walk t q)); reflexivity.
Qed.

Lemma len_sorted_rev (l r : list (pfx * V)) e :
  StronglySorted len_lt l -> rev l = e :: r ->
  In e l /\ forall e', In e' l -> length (key e') <= length (key e).
Proof.
  intros Hs R. assert (El : l = rev r ++ [e]) by (rewrite <- (rev_involutive l), R; reflexivity). subst l.
  destruct (sorted_mid _ _ e [] Hs) as [Hb _]. split; [apply in_or_app; right; left; reflexivity|].
  intros e' He'. apply in_app_or in He'. destruct He' as [He'|[<-|[]]]; [|apply le_n].
  apply Nat.lt_le_incl, Hb, He'.
Qed.

(** the walk against the entry list, through the cover list: its last element is the most specific
    covering entry, and the inherited match is returned only when it is empty *)
Lemma lpm_walk_spec t b q best :
  wf_under b t -> ok q -> root_covers t q ->
  lpm_result pfx V bits t q best (lpm_walk t q best).
Proof.
  intros Hwf Hq Hrc. rewrite lpm_walk_cover. pose proof (cover_walk_spec t b q Hwf Hq Hrc) as Hmem.
  destruct (rev (cover_walk t q)) as [|x r] eqn:R.
  - right. split; [|reflexivity]. intros e He Hc. apply (f_equal (@rev _)) in R. rewrite rev_involutive in R.
    pose proof (proj2 (Hmem e) (conj He Hc)) as H. rewrite R in H. exact H.
  - left. exists x. split; [reflexivity|].
    destruct (len_sorted_rev _ _ _ (cover_walk_sorted t b q Hwf) R) as [Hin Hmax].
    apply Hmem in Hin. split; [apply Hin|]. split; [apply Hin|].
    intros e' He' Hc'. apply Hmax, Hmem. split; assumption.
Qed.

Theorem get_lpm_spec b t q :
  wf_under b t -> ok q -> root_covers t q ->
  match Trie.get_lpm pfx V peq contains is_bit_set plen t q with
  | Some e => is_lpm pfx V bits (entries t) q e
  | None => no_cover pfx V bits (entries t) q
  end.
Proof.
  intros Hwf Hq Hrc. unfold Trie.get_lpm.
  destruct (lpm_walk_spec t b q None Hwf Hq Hrc) as [[e [-> H]]|[Hnc ->]]; assumption.
Qed.

Corollary get_lpm_spec_root t q :
  wf_root pfx V bits ok t -> ok q ->
  match Trie.get_lpm pfx V peq contains is_bit_set plen t q with
  | Some e => is_lpm pfx V bits (entries t) q e
  | None => no_cover pfx V bits (entries t) q
  end.
Proof.
  intros Hwf Hq. exact (get_lpm_spec [] t q (wf_root_under _ _ _ _ t Hwf) Hq (wf_root_covers _ _ _ _ t q Hwf)).
Qed.

(** [cs] is the initial stack of [children t q]: at most one node, some well-formed subtree (under
    any bound: only the order of its entries is used, by [IterExtra.children_filter] and the views),
    holding exactly the entries of [t] that [q] covers *)
Definition children_ok (cs : list tree) (t : tree) (q : pfx) : Prop :=
  (forall c, In c cs -> is_node c = true /\ exists bc, wf_under bc c) /\
  length cs <= 1 /\
  forall e, In e (flat_map entries cs) <-> In e (entries t) /\ prefix_of (bits q) (key e).

Lemma children_none t q :
  (forall e, In e (entries t) -> ~ prefix_of (bits q) (key e)) -> children_ok [] t q.
Proof.
  intros H. split; [intros c []|]. split; [apply Nat.le_0_l|]. intros e. split; [intros []|].
  intros [Hin Hcv]. exact (H e Hin Hcv).
Qed.

Lemma children_one c bc t q :
  is_node c = true -> wf_under bc c ->
  (forall e, In e (entries c) <-> In e (entries t) /\ prefix_of (bits q) (key e)) ->
  children_ok [c] t q.
Proof.
  intros Hn Hwf H. split; [intros c' [<-|[]]; eauto|]. split; [apply le_n|].
  intros e. cbn [flat_map]. rewrite app_nil_r. apply H.
Qed.

Lemma children_ok_ext cs c t q :
  (forall e, In e (entries t) /\ prefix_of (bits q) (key e) <->
             In e (entries c) /\ prefix_of (bits q) (key e)) ->
  children_ok cs c q -> children_ok cs t q.
Proof.
  intros H (A & B & C). split; [exact A|]. split; [exact B|]. intros e. rewrite C. symmetry. apply H.
Qed.

(** one step of the loop, with the child on the query's side named as in [descent_ind] *)
Lemma children_start_node i p v l r q :
  children_start (Node i p v l r) q =
  if peq p q then [Node i p v l r] else
  match child_of pfx V l r (to_right p q) with
  | Leaf => []
  | Node _ cp _ _ _ =>
    if contains cp q then children_start (child_of pfx V l r (to_right p q)) q
    else if contains q cp then [child_of pfx V l r (to_right p q)] else []
  end.
Proof. reflexivity. Qed.

Theorem children_start_spec t : forall b q,
  wf_under b t -> ok q -> root_covers t q ->
  (forall c, In c (children_start t q) -> is_node c = true /\ exists bc, wf_under bc c) /\
  length (children_start t q) <= 1 /\
  forall e, In e (flat_map entries (children_start t q)) <-> In e (entries t) /\ prefix_of (bits q) (key e).
Proof.
  intros b q. revert b.
  change (forall b, wf_under b t -> ok q -> root_covers t q -> children_ok (children_start t q) t q).
  induction t as [|i p v l r E|i p v l r E Hc|i p v l r ci cp cv cl cr E Ec C IH]
    using (descent_ind pfx V peq contains is_bit_set plen q); intros b Hwf Hq Hrc.
  - apply children_none. intros e [].
  - cbn [Trie.children_start]. rewrite E. eapply children_one; [reflexivity | exact Hwf|].
    intros e. split; [|tauto]. intros Hin. split; [exact Hin|].
    assert (Hk : bits p = bits q) by (eapply peq_true; [exact LAWS | apply Hwf | exact Hq | exact E]).
    rewrite <- Hk.
    exact (entries_under _ _ _ _ _ _ _ (wf_self _ _ _ _ _ _ _ _ _ _ Hwf) Hin).
  - cbn [Trie.children_start]. rewrite E.
    eapply children_ok_ext; [intros e; eapply covered_below; eassumption|].
    pose proof (wf_child _ _ _ _ _ _ _ _ _ _ (to_right p q) Hwf) as Hwc. unfold child_of in *.
    destruct (if to_right p q then r else l) as [|ci cp cv cl cr]; [apply children_none; intros e []|].
    rewrite Hc. pose proof (fun e => entries_under _ _ _ _ _ _ e (wf_self _ _ _ _ _ _ _ _ _ _ Hwc)) as Hu.
    destruct (contains q cp) eqn:C2.
    + eapply children_one; [reflexivity | exact Hwc|]. intros e. split; [|tauto]. intros Hin.
      split; [exact Hin|]. eapply prefix_of_trans; [|exact (Hu e Hin)].
      eapply contains_true; eauto. apply Hwc.
    + apply children_none. intros e Hin Hcv.
      destruct (prefix_of_comparable _ _ _ Hcv (Hu e Hin)) as [H|H].
      * exact (contains_false q cp Hq (proj1 Hwc) C2 H).
      * exact (contains_false cp q (proj1 Hwc) Hq Hc H).
  - cbn [Trie.children_start]. rewrite E.
    eapply children_ok_ext; [intros e; eapply covered_below; eassumption|].
    pose proof (wf_child _ _ _ _ _ _ _ _ _ _ (to_right p q) Hwf) as Hwc. unfold child_of in *.
    rewrite Ec in *. rewrite C. apply (IH _ Hwc Hq). eapply root_covers_child; eauto. apply Hwc.
Qed.

End LK2.
