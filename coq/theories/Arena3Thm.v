(** The read-only observers of [Arena3.v] refine the tree model: on an arena that represents a
    tree ([ArenaThm.rep]) every observer returns [Ok] of the result of the tree-model function
    ([Trie.v], [Views.v], [SetOps.v]) -- never [Panic], never [OutOfFuel] within the stated fuel.
    As in [ArenaThm.v] the simulation theorems need no law about prefixes: the arena code and the
    tree code ask the same questions in the same order.  Only the corollaries about reachable arena
    states (sections [Reach], [Reach2]) assume [PEQ_LEN] and [ZERO_LEN], the two hypotheses of the
    history section of [Arena2Thm.v] that they go through. *)
From Coq Require Import List ZArith Bool Lia.
From PT Require Import Machine MachineThm Trie Views SetOps Slots Lookup2 UnionThm Arena ArenaThm Arena2 Arena2Thm Arena3.
From PT Require MutTrav InterDiffThm.
Import ListNotations.

(** the arena machine [rrun] against the tree machine [run]: stack entries related by [Rel], items
    equal *)
Section RunSim.
Variables (EA ET I : Type).
Variable expa : EA -> res (option I * list EA).
Variable expt : ET -> option I * list ET.
Variable Rel : EA -> ET -> Prop.
Hypothesis local : forall ea et, Rel ea et ->
  exists cs, expa ea = Ok (fst (expt et), cs) /\ Forall2 Rel cs (snd (expt et)).

Lemma Forall2_rev {A B} (R : A -> B -> Prop) l1 l2 : Forall2 R l1 l2 -> Forall2 R (rev l1) (rev l2).
Proof.
  induction 1 as [|x y l1 l2 Hxy HF IH]; [constructor|]. cbn [rev].
  apply Forall2_app; [exact IH|]. constructor; [exact Hxy|constructor].
Qed.

Theorem rrun_sim_rel : forall n sa st, Forall2 Rel sa st ->
  rrun EA I expa n sa = lift_run (run ET I expt n st).
Proof.
  induction n as [|n IH]; intros sa st F; destruct F as [|ea et sa st Hr F]; cbn [rrun run]; try reflexivity.
  destruct (local ea et Hr) as (cs & E & Fc). rewrite E. cbn [rbind fst snd].
  destruct (expt et) as [o cst] eqn:X. cbn [fst snd] in *.
  rewrite (IH (rev cs ++ sa) (rev cst ++ st)).
  - destruct (run ET I expt n (rev cst ++ st)); reflexivity.
  - apply Forall2_app; [apply Forall2_rev; exact Fc|exact F].
Qed.
End RunSim.

Lemma Forall_map_F2 {A B} (f : A -> B) (P : A -> Prop) (Q : B -> A -> Prop) l :
  (forall x, P x -> Q (f x) x) -> Forall P l -> Forall2 Q (map f l) l.
Proof. intros HQ F. induction F; cbn [map]; constructor; auto. Qed.

(** the instance used below (through [rrun_compose]): the arena entry is a function [f] of the tree
    entry, under an invariant [P] of the tree entries *)
Section RunSimF.
Variables (EA ET I : Type).
Variable expa : EA -> res (option I * list EA).
Variable expt : ET -> option I * list ET.
Variable f : ET -> EA.
Variable P : ET -> Prop.
Hypothesis sim : forall et, P et -> expa (f et) = Ok (fst (expt et), map f (snd (expt et))).
Hypothesis inv : forall et, P et -> Forall P (snd (expt et)).

Theorem rrun_sim : forall n st, Forall P st ->
  rrun EA I expa n (map f st) = lift_run (run ET I expt n st).
Proof.
  intros n st F.
  apply (rrun_sim_rel EA ET I expa expt (fun ea et => ea = f et /\ P et)).
  - intros ea et [-> Hp]. eexists. split; [exact (sim et Hp)|].
    apply (Forall_map_F2 f P); [auto|exact (inv et Hp)].
  - apply (Forall_map_F2 f P); auto.
Qed.
End RunSimF.

Lemma rrun_run (E I : Type) (ex : E -> option I * list E) n st :
  rrun E I (fun e => Ok (ex e)) n st = lift_run (run E I ex n st).
Proof.
  rewrite <- (map_id st) at 1.
  apply (rrun_sim E E I (fun e => Ok (ex e)) ex (fun e => e) (fun _ => True)).
  - intros et _. rewrite map_id. destruct (ex et); reflexivity.
  - intros et _. apply Forall_forall. intros; exact Logic.I.
  - apply Forall_forall. intros; exact Logic.I.
Qed.

(** a tree-level run that stops is matched by the arena machine at any larger fuel *)
Lemma rrun_compose {EA ET I : Type} (expa : EA -> res (option I * list EA)) (expt : ET -> option I * list ET)
      (f : ET -> EA) (P : ET -> Prop) xs n fuel :
  (forall e, P e -> expa (f e) = Ok (fst (expt e), map f (snd (expt e)))) ->
  (forall e, P e -> Forall P (snd (expt e))) ->
  Forall P xs -> (exists out, run ET I expt n (rev xs) = Some out) -> (n <= fuel)%nat ->
  exists out, run ET I expt n (rev xs) = Some out /\ rrun EA I expa fuel (map f (rev xs)) = Ok out.
Proof.
  intros Hs Hi F [out T] Hf. exists out. split; [exact T|].
  rewrite (rrun_sim EA ET I expa expt f P Hs Hi fuel _ (Forall_rev F)).
  rewrite (MachineThm.run_fuel_mono _ _ _ _ _ _ _ T Hf). reflexivity.
Qed.

Lemma rmap_sim {X A B} (P : X -> Prop) (fa : A -> res B) (g : X -> A) (h : X -> B) xs :
  (forall x, P x -> fa (g x) = Ok (h x)) -> Forall P xs -> rmap fa (map g xs) = Ok (map h xs).
Proof.
  intros Hf F. induction F as [|x xs Hx F IH]; [reflexivity|].
  cbn [map rmap]. rewrite (Hf x Hx). cbn [rbind]. rewrite IH. reflexivity.
Qed.

Definition opt_rel {A B} (R : A -> B -> Prop) (o1 : option A) (o2 : option B) : Prop :=
  match o1, o2 with
  | Some a, Some b => R a b
  | None, None => True
  | _, _ => False
  end.

Lemma pv_anode {pfx T : Type} pzero (t : Trie.tree pfx T) ol orr :
  Arena.prefix_value pfx T (mkanode (Trie.tpfx pfx T pzero t) (tval t) ol orr) = pv t.
Proof. destruct t as [|i p [x|] l r]; reflexivity. Qed.

Section A3T.
Variables (pfx V : Type).
Variables (peq contains : pfx -> pfx -> bool) (is_bit_set : pfx -> N -> bool)
          (plen : pfx -> N) (lcp : pfx -> pfx -> pfx) (pzero : pfx).

Notation tree := (Trie.tree pfx V).
Notation anode := (Arena.anode pfx V).
Notation to_right := (Trie.to_right pfx is_bit_set plen).
Notation minv := (Slots.minv pfx V).
Notation rep := (ArenaThm.rep pfx V).
Notation Rep := (ArenaThm.Rep pfx V).
Notation slot := (ArenaThm.slot pfx V).
Notation link := (ArenaThm.link pfx V).
Notation height := (ArenaThm.height pfx V).
Notation rd := (Arena.rd pfx V).
Notation get_child := (Arena.get_child pfx V).
Notation a_direction := (Arena.a_direction pfx V peq contains is_bit_set plen).
Notation vloc := (Arena3.vloc pfx).
Notation view := (Views.view pfx V).
Notation vmut := (Views.vmut pfx).
Notation tpfx := (Trie.tpfx pfx V pzero).

Notation get_key_value := (Trie.get_key_value pfx V peq contains is_bit_set plen).
Notation contains_key := (Trie.contains_key pfx V peq contains is_bit_set plen).
Notation lpmp_walk := (Trie.lpmp_walk pfx V peq contains is_bit_set plen).
Notation get_lpm_prefix := (Trie.get_lpm_prefix pfx V peq contains is_bit_set plen).
Notation lpmm_walk := (Trie.lpmm_walk pfx V peq contains is_bit_set plen).
Notation get_lpm_mut := (Trie.get_lpm_mut pfx V peq contains is_bit_set plen).
Notation spm_walk := (Trie.spm_walk pfx V peq contains is_bit_set plen).
Notation get_spm := (Trie.get_spm pfx V peq contains is_bit_set plen).
Notation get_spm_prefix := (Trie.get_spm_prefix pfx V peq contains is_bit_set plen).
Notation children_start := (Trie.children_start pfx V peq contains is_bit_set plen).
Notation cover_loop := (Trie.cover_loop pfx V peq contains is_bit_set plen).
Notation cover_next := (Trie.cover_next pfx V peq contains is_bit_set plen).
Notation cover_drain := (Trie.cover_drain pfx V peq contains is_bit_set plen).

Notation a_gkv_loop := (Arena3.a_gkv_loop pfx V peq contains is_bit_set plen).
Notation a_get_key_value := (Arena3.a_get_key_value pfx V peq contains is_bit_set plen).
Notation a_ck_loop := (Arena3.a_ck_loop pfx V peq contains is_bit_set plen).
Notation a_contains_key := (Arena3.a_contains_key pfx V peq contains is_bit_set plen).
Notation a_lpmp_loop := (Arena3.a_lpmp_loop pfx V peq contains is_bit_set plen).
Notation a_get_lpm_prefix := (Arena3.a_get_lpm_prefix pfx V peq contains is_bit_set plen).
Notation a_lpmm_loop := (Arena3.a_lpmm_loop pfx V peq contains is_bit_set plen).
Notation a_get_lpm_mut := (Arena3.a_get_lpm_mut pfx V peq contains is_bit_set plen).
Notation a_spm_loop := (Arena3.a_spm_loop pfx V peq contains is_bit_set plen).
Notation a_get_spm := (Arena3.a_get_spm pfx V peq contains is_bit_set plen).
Notation a_get_spm_prefix := (Arena3.a_get_spm_prefix pfx V peq contains is_bit_set plen).
Notation a_cs_loop := (Arena3.a_cs_loop pfx V peq contains is_bit_set plen).
Notation a_children_start := (Arena3.a_children_start pfx V peq contains is_bit_set plen).
Notation a_children := (Arena3.a_children pfx V peq contains is_bit_set plen).
Notation a_cover_loop := (Arena3.a_cover_loop pfx V peq contains is_bit_set plen).
Notation a_cover_next := (Arena3.a_cover_next pfx V peq contains is_bit_set plen).
Notation a_cover_drain := (Arena3.a_cover_drain pfx V peq contains is_bit_set plen).
Notation a_cover := (Arena3.a_cover pfx V peq contains is_bit_set plen).


Notation rep_is_node := (ArenaThm.rep_some_inv pfx V _ _ _).

Lemma rep_tid {tb i t} : rep tb (Some i) t -> tid t = i.
Proof. intros H. destruct (rep_is_node H) as (p & v & l & r & ->). reflexivity. Qed.

Lemma rep_rd {tb i t} : rep tb (Some i) t ->
  rd tb i = Ok (mkanode (tpfx t) (tval t) (link (tleft t)) (link (tright t))).
Proof.
  intros H. destruct (rep_is_node H) as (p & v & l & r & ->).
  apply ArenaThm.rd_ok. exact (proj1 (proj2 (ArenaThm.rep_node_inv pfx V _ _ _ _ _ _ _ H))).
Qed.

Lemma rep_get_child {tb i p v l r} rt : rep tb (Some i) (Node i p v l r) ->
  get_child tb i rt = Ok (link (if rt then r else l)).
Proof. intros H. unfold Arena.get_child. rewrite (rep_rd H). destruct rt; reflexivity. Qed.

Lemma rep_kids {tb o t} : rep tb o t ->
  rep tb (link (tleft t)) (tleft t) /\ rep tb (link (tright t)) (tright t).
Proof.
  destruct t as [|i p v l r]; intros H; [split; constructor|].
  exact (proj2 (proj2 (ArenaThm.rep_node_inv pfx V _ _ _ _ _ _ _ H))).
Qed.

Lemma rep_link_node tb (t : tree) : is_node t = true -> rep tb (link t) t -> rep tb (Some (tid t)) t.
Proof. destruct t; [discriminate|]. intros _ H. exact H. Qed.

Lemma Rep_tsize am m : Rep am m -> minv m -> (tsize (root m) <= length (tbl am))%nat.
Proof.
  intros R M. rewrite (ArenaThm.tsize_ids pfx V peq contains is_bit_set plen lcp).
  pose proof (ArenaThm.minv_size pfx V peq contains is_bit_set plen lcp pzero _ _ M) as S2.
  destruct R as (_ & _ & Ln & _). lia.
Qed.

Notation rep_descent_ind := (ArenaThm.rep_descent_ind pfx V peq contains is_bit_set plen).

(** * A represented tree is no taller than the table, whatever else the table holds: the slots
    along a path of the tree are pairwise distinct (a slot represents one tree only) *)

Lemma rep_fun tb o (t : tree) : rep tb o t -> forall t', rep tb o t' -> t = t'.
Proof.
  induction 1 as [|i p v l r ol orr Hs Hl IHl Hr IHr]; intros t' H'.
  - inversion H'. reflexivity.
  - inversion H' as [|i' p' v' l' r' ol' orr' Hs' Hl' Hr']; subst.
    rewrite Hs in Hs'. injection Hs' as <- <- <- <-.
    rewrite (IHl l' Hl'), (IHr r' Hr'). reflexivity.
Qed.

Fixpoint tall_path (t : tree) : list N :=
  match t with
  | Leaf => []
  | Node i _ _ l r => i :: (if (height r <=? height l)%nat then tall_path l else tall_path r)
  end.

Lemma tall_path_len : forall t, length (tall_path t) = height t.
Proof.
  induction t as [|i p v l IHl r IHr]; [reflexivity|]. cbn [tall_path length ArenaThm.height].
  destruct (Nat.leb_spec (height r) (height l)); [rewrite IHl|rewrite IHr]; lia.
Qed.

Lemma tall_in tb : forall (t : tree) o, rep tb o t -> forall j, In j (tall_path t) ->
  exists t', rep tb (Some j) t' /\ (tsize t' <= tsize t)%nat.
Proof.
  induction t as [|i p v l IHl r IHr]; intros o H j Hj; [destruct Hj|].
  destruct (ArenaThm.rep_node_inv pfx V _ _ _ _ _ _ _ H) as (-> & _ & Rl & Rr).
  cbn [tall_path In] in Hj. destruct Hj as [<-|Hj]; [exists (Node i p v l r); split; [exact H|lia]|].
  cbn [tsize]. destruct (height r <=? height l)%nat.
  - destruct (IHl _ Rl j Hj) as (t' & R' & S'). exists t'. split; [exact R'|lia].
  - destruct (IHr _ Rr j Hj) as (t' & R' & S'). exists t'. split; [exact R'|lia].
Qed.

Lemma tall_nodup tb : forall (t : tree) o, rep tb o t -> NoDup (tall_path t).
Proof.
  induction t as [|i p v l IHl r IHr]; intros o H; [constructor|].
  destruct (ArenaThm.rep_node_inv pfx V _ _ _ _ _ _ _ H) as (-> & _ & Rl & Rr).
  cbn [tall_path]. constructor.
  - intros Hi.
    assert (X : exists t', rep tb (Some i) t' /\ (tsize t' < tsize (Node i p v l r))%nat).
    { cbn [tsize]. destruct (height r <=? height l)%nat.
      - destruct (tall_in tb l _ Rl i Hi) as (t' & R' & S'). exists t'. split; [exact R'|lia].
      - destruct (tall_in tb r _ Rr i Hi) as (t' & R' & S'). exists t'. split; [exact R'|lia]. }
    destruct X as (t' & R' & S'). rewrite (rep_fun tb _ _ R' _ H) in S'. lia.
  - destruct (height r <=? height l)%nat; eauto.
Qed.

Theorem rep_height_le tb (t : tree) o : rep tb o t -> (height t <= length tb)%nat.
Proof.
  intros H. rewrite <- tall_path_len.
  assert (I : incl (tall_path t) (Slots.seqN (N.of_nat (length tb)))).
  { intros j Hj. destruct (tall_in tb t o H j Hj) as (t' & R' & _).
    destruct (rep_is_node R') as (p & v & l & r & ->).
    destruct (ArenaThm.rep_node_inv pfx V _ _ _ _ _ _ _ R') as (_ & Hs & _).
    unfold ArenaThm.slot in Hs. assert (X : nth_error tb (N.to_nat j) <> None) by congruence.
    apply nth_error_Some in X. unfold Slots.seqN. apply in_map_iff. exists (N.to_nat j).
    split; [lia|]. apply in_seq. lia. }
  pose proof (NoDup_incl_length (tall_nodup tb t o H) I) as Len.
  rewrite Slots.length_seqN in Len. lia.
Qed.

Lemma Rep_fuel {am m} : Rep am m -> (height (root m) <= S (length (tbl am)))%nat.
Proof. intros R. pose proof (rep_height_le _ _ _ (proj1 R)). lia. Qed.

Lemma gkv_loop_sim q : forall t fuel tb i,
  rep tb (Some i) t -> (height t <= fuel)%nat -> a_gkv_loop fuel tb i q = Ok (get_key_value t q).
Proof.
  apply (rep_descent_ind q (fun fuel tb i t => a_gkv_loop fuel tb i q = Ok (get_key_value t q))).
  intros f tb i p v l r H Hrd F IH Rc. cbn [Arena3.a_gkv_loop]. rewrite F. unfold Trie.get_key_value.
  cbn [rbind ArenaThm.dir_of Trie.get_node]. unfold ArenaThm.csel.
  destruct (peq p q); [rewrite Hrd; reflexivity|].
  destruct (if to_right p q then r else l) as [|ci cp cv cl cr]; [reflexivity|].
  destruct (contains cp q); [exact (IH ci Rc)|reflexivity].
Qed.

Theorem get_key_value_sim am m q : Rep am m -> a_get_key_value am q = Ok (get_key_value (root m) q).
Proof. intros R. exact (gkv_loop_sim q _ _ _ _ (proj1 R) (Rep_fuel R)). Qed.

Lemma ck_loop_sim q : forall t fuel tb i,
  rep tb (Some i) t -> (height t <= fuel)%nat -> a_ck_loop fuel tb i q = Ok (contains_key t q).
Proof.
  apply (rep_descent_ind q (fun fuel tb i t => a_ck_loop fuel tb i q = Ok (contains_key t q))).
  intros f tb i p v l r H Hrd F IH Rc. cbn [Arena3.a_ck_loop]. rewrite F. unfold Trie.contains_key.
  cbn [rbind ArenaThm.dir_of Trie.get_node]. unfold ArenaThm.csel.
  destruct (peq p q); [rewrite Hrd; destruct v; reflexivity|].
  destruct (if to_right p q then r else l) as [|ci cp cv cl cr]; [reflexivity|].
  destruct (contains cp q); [exact (IH ci Rc)|reflexivity].
Qed.

Theorem contains_key_sim am m q : Rep am m -> a_contains_key am q = Ok (contains_key (root m) q).
Proof. intros R. exact (ck_loop_sim q _ _ _ _ (proj1 R) (Rep_fuel R)). Qed.

Lemma lpmp_loop_sim q : forall t fuel tb i, rep tb (Some i) t -> (height t <= fuel)%nat ->
  forall best, a_lpmp_loop fuel tb i q best = Ok (lpmp_walk t q best).
Proof.
  apply (rep_descent_ind q (fun fuel tb i t => forall best, a_lpmp_loop fuel tb i q best = Ok (lpmp_walk t q best))).
  intros f tb i p v l r H Hrd F IH Rc best. cbn [Arena3.a_lpmp_loop]. rewrite Hrd. cbn [rbind]. rewrite F.
  cbn [rbind ArenaThm.dir_of Trie.lpmp_walk]. unfold ArenaThm.csel, Arena.prefix_value. cbn [nval npfx].
  replace (match option_map fst (match v with Some x => Some (p, x) | None => None end) with Some p0 => Some p0 | None => best end)
    with (match v with Some _ => Some p | None => best end) by (destruct v; reflexivity).
  destruct (peq p q); [reflexivity|].
  destruct (if to_right p q then r else l) as [|ci cp cv cl cr]; [reflexivity|].
  destruct (contains cp q); [exact (IH ci Rc _)|reflexivity].
Qed.

Theorem get_lpm_prefix_sim am m q : Rep am m -> a_get_lpm_prefix am q = Ok (get_lpm_prefix (root m) q).
Proof. intros R. exact (lpmp_loop_sim q _ _ _ _ (proj1 R) (Rep_fuel R) None). Qed.

(** the best INDEX of the arena loop against the best (slot, prefix, value) of the tree loop *)
Definition bm (tb : list anode) (ba : option N) (bt : option (N * pfx * V)) : Prop :=
  match ba, bt with
  | None, None => True
  | Some j, Some (j', p, x) => j = j' /\ exists ol orr, slot tb j = Some (mkanode p (Some x) ol orr)
  | _, _ => False
  end.

Lemma lpmm_loop_sim q : forall t fuel tb i, rep tb (Some i) t -> (height t <= fuel)%nat ->
  forall ba bt, bm tb ba bt -> exists ba', a_lpmm_loop fuel tb i q ba = Ok ba' /\ bm tb ba' (lpmm_walk t q bt).
Proof.
  apply (rep_descent_ind q (fun fuel tb i t => forall ba bt, bm tb ba bt ->
           exists ba', a_lpmm_loop fuel tb i q ba = Ok ba' /\ bm tb ba' (lpmm_walk t q bt))).
  intros f tb i p v l r H Hrd F IH Rc ba bt B. cbn [Arena3.a_lpmm_loop]. rewrite Hrd. cbn [rbind nval]. rewrite F.
  cbn [rbind ArenaThm.dir_of Trie.lpmm_walk]. unfold ArenaThm.csel.
  assert (B' : bm tb (if is_some v then Some i else ba) (match v with Some x => Some (i, p, x) | None => bt end)).
  { destruct v as [x|]; [|exact B]. split; [reflexivity|].
    destruct (ArenaThm.rep_node_inv pfx V _ _ _ _ _ _ _ H) as (_ & Hs & _). eauto. }
  revert B'. generalize (if is_some v then Some i else ba). generalize (match v with Some x => Some (i, p, x) | None => bt end).
  intros bt' ba' B'. destruct (peq p q); [eauto|].
  destruct (if to_right p q then r else l) as [|ci cp cv cl cr]; [eauto|].
  destruct (contains cp q); [exact (IH ci Rc _ _ B')|eauto].
Qed.

Theorem get_lpm_mut_sim am m q : Rep am m -> a_get_lpm_mut am q = Ok (get_lpm_mut (root m) q).
Proof.
  intros R. unfold Arena3.a_get_lpm_mut, Trie.get_lpm_mut.
  destruct (lpmm_loop_sim q (root m) (S (length (tbl am))) (tbl am) 0%N (proj1 R) (Rep_fuel R) None None Logic.I)
    as (ba & E & B).
  rewrite E. cbn [rbind]. destruct ba as [j|], (lpmm_walk (root m) q None) as [[[j' p] x]|]; cbn [bm] in B;
    try contradiction; [|reflexivity].
  destruct B as (<- & ol & orr & Hs). rewrite (ArenaThm.rd_ok pfx V _ _ _ Hs). reflexivity.
Qed.

Lemma spm_loop_sim q : forall t fuel tb i,
  rep tb (Some i) t -> (height t <= fuel)%nat -> a_spm_loop fuel tb i q = Ok (spm_walk t q).
Proof.
  apply (rep_descent_ind q (fun fuel tb i t => a_spm_loop fuel tb i q = Ok (spm_walk t q))).
  intros f tb i p v l r H Hrd F IH Rc. cbn [Arena3.a_spm_loop]. rewrite F.
  cbn [rbind ArenaThm.dir_of Trie.spm_walk]. unfold ArenaThm.csel.
  destruct (peq p q); [rewrite Hrd; reflexivity|].
  destruct (if to_right p q then r else l) as [|ci cp cv cl cr]; [reflexivity|].
  destruct (contains cp q); [|reflexivity].
  rewrite (rep_rd Rc). cbn [rbind]. unfold Arena.prefix_value. cbn [nval npfx tval Trie.tpfx].
  destruct cv as [x|]; [reflexivity|exact (IH ci Rc)].
Qed.

Theorem get_spm_sim am m q : Rep am m -> a_get_spm am q = Ok (get_spm (root m) q).
Proof.
  intros R. unfold Arena3.a_get_spm, Trie.get_spm.
  rewrite (rep_rd (proj1 R)). cbn [rbind]. rewrite (pv_anode pzero).
  destruct (pv (root m)); [reflexivity|]. exact (spm_loop_sim q _ _ _ _ (proj1 R) (Rep_fuel R)).
Qed.

Theorem get_spm_prefix_sim am m q : Rep am m -> a_get_spm_prefix am q = Ok (get_spm_prefix (root m) q).
Proof.
  intros R. unfold Arena3.a_get_spm_prefix, Trie.get_spm_prefix. rewrite (get_spm_sim am m q R). reflexivity.
Qed.

Lemma cs_loop_sim q : forall t fuel tb i,
  rep tb (Some i) t -> (height t <= fuel)%nat ->
  a_cs_loop fuel tb i (tpfx t) q = Ok (map tid (children_start t q)) /\
  Forall (fun c => rep tb (Some (tid c)) c) (children_start t q).
Proof.
  apply (rep_descent_ind q (fun fuel tb i t =>
           a_cs_loop fuel tb i (tpfx t) q = Ok (map tid (children_start t q)) /\
           Forall (fun c => rep tb (Some (tid c)) c) (children_start t q))).
  intros f tb i p v l r H Hrd _ IH Rc. cbn [Arena3.a_cs_loop Trie.tpfx Trie.children_start].
  destruct (peq p q); [split; [reflexivity|]; constructor; [exact H|constructor]|].
  rewrite (rep_get_child (to_right p q) H). cbn [rbind].
  destruct (if to_right p q then r else l) as [|ci cp cv cl cr]; cbn [ArenaThm.link]; [split; [reflexivity|constructor]|].
  rewrite (rep_rd Rc). cbn [rbind npfx Trie.tpfx].
  destruct (contains cp q); [exact (IH ci Rc)|].
  destruct (contains q cp); (split; [reflexivity|]); repeat constructor. exact Rc.
Qed.

Lemma cs_size q : forall t, (list_sum (map (@tsize pfx V) (children_start t q)) <= tsize t)%nat.
Proof.
  induction t as [|i0 p v l IHl r IHr]; [cbn; lia|].
  cbn [Trie.children_start]. destruct (peq p q); [cbn [map list_sum fold_right tsize]; lia|].
  destruct (to_right p q).
  - destruct r as [|ci cp cv cl cr]; [cbn; lia|].
    destruct (contains cp q); [cbn [tsize] in *; lia|].
    destruct (contains q cp); cbn [map list_sum fold_right tsize]; lia.
  - destruct l as [|ci cp cv cl cr]; [cbn; lia|].
    destruct (contains cp q); [cbn [tsize] in *; lia|].
    destruct (contains q cp); cbn [map list_sum fold_right tsize]; lia.
Qed.

(** [minv] is not used here ([Rep_fuel]); [children_sim] needs it, for [Rep_tsize]: [a_iter] burns
    one unit of fuel per node, not per level *)
Theorem children_start_sim am m q : Rep am m -> minv m ->
  a_children_start am q = Ok (map tid (children_start (root m) q)) /\
  Forall2 (fun i t => rep (tbl am) (Some i) t) (map tid (children_start (root m) q)) (children_start (root m) q).
Proof.
  intros R _. unfold Arena3.a_children_start, Arena3.a_children_start_fuel.
  rewrite (rep_rd (proj1 R)). cbn [rbind npfx].
  destruct (cs_loop_sim q (root m) (S (length (tbl am))) (tbl am) 0%N (proj1 R) (Rep_fuel R)) as (E & Fa).
  split; [exact E|]. clear E. induction Fa as [|c cs Hc Fa IHc]; cbn [map]; constructor; auto.
Qed.

Theorem children_sim am m q : Rep am m -> minv m ->
  a_children am q = Ok (flat_map (@entries pfx V) (children_start (root m) q)).
Proof.
  intros R M. unfold Arena3.a_children. destruct (children_start_sim am m q R M) as (E & F2).
  rewrite E. cbn [rbind].
  apply (ArenaThm.iter_sim pfx V peq contains is_bit_set plen lcp pzero); [exact F2|].
  pose proof (cs_size q (root m)) as S1. pose proof (Rep_tsize am m R M). lia.
Qed.

Lemma cover_loop_sim q : forall t fuel tb i,
  rep tb (Some i) t -> (height t <= fuel)%nat ->
  exists j, a_cover_loop fuel tb i q = Ok (fst (cover_loop t q), j) /\ rep tb (Some j) (snd (cover_loop t q)).
Proof.
  apply (rep_descent_ind q (fun fuel tb i t =>
           exists j, a_cover_loop fuel tb i q = Ok (fst (cover_loop t q), j) /\ rep tb (Some j) (snd (cover_loop t q)))).
  intros f tb i p v l r H Hrd F IH Rc. cbn [Arena3.a_cover_loop]. rewrite F.
  cbn [rbind ArenaThm.dir_of Trie.cover_loop]. unfold ArenaThm.csel.
  destruct (peq p q); [exists i; cbn [fst snd]; auto|].
  destruct (if to_right p q then r else l) as [|ci cp cv cl cr]; [exists i; cbn [fst snd]; auto|].
  destruct (contains cp q); [|exists i; cbn [fst snd]; auto].
  rewrite (rep_rd Rc). cbn [rbind nval npfx tval Trie.tpfx]. destruct cv as [x|]; [|exact (IH ci Rc)].
  exists ci. cbn [fst snd]. auto.
Qed.

(** the iterator state: [None] = not started; [Some i] = stopped at the node in slot [i] *)
Definition cst_rep (tb : list anode) (st : option N) (cst : cstate pfx V) : Prop :=
  match st, cst with
  | None, CStart => True
  | Some i, CAt t => rep tb (Some i) t
  | _, _ => False
  end.

(** fuel: a represented tree is no taller than the table ([rep_height_le]) *)
Theorem cover_next_sim tb T fuel st cst q :
  rep tb (Some 0%N) T -> (length tb <= fuel)%nat -> cst_rep tb st cst ->
  exists st', a_cover_next fuel tb st q = Ok (fst (cover_next T cst q), st') /\
              cst_rep tb st' (snd (cover_next T cst q)).
Proof.
  intros R0 HF C. unfold Arena3.a_cover_next, Trie.cover_next.
  assert (LP : forall i t, rep tb (Some i) t ->
            exists st', (r <- a_cover_loop fuel tb i q ;; Ok (fst r, Some (snd r)))
                        = Ok (fst (let '(o, t') := cover_loop t q in (o, CAt t')), st') /\
                        cst_rep tb st' (snd (let '(o, t') := cover_loop t q in (o, CAt t')))).
  { intros i t Rt. pose proof (rep_height_le _ _ _ Rt) as Ht.
    destruct (cover_loop_sim q t fuel tb i Rt ltac:(lia)) as (j & E & Rj).
    rewrite E. cbn [rbind fst snd]. destruct (cover_loop t q) as [o t']. exists (Some j). split; [reflexivity|exact Rj]. }
  destruct st as [i|], cst as [|t]; cbn [cst_rep] in C; try contradiction; [exact (LP i t C)|].
  rewrite (rep_rd R0). cbn [rbind nval npfx]. rewrite <- (pv_anode pzero T (link (tleft T)) (link (tright T))).
  unfold Arena.prefix_value. cbn [nval npfx]. destruct (tval T) as [x|]; [|exact (LP 0%N T R0)].
  exists (Some 0%N). cbn [fst snd]. split; [reflexivity|exact R0].
Qed.

Theorem cover_drain_sim tb T fuel q : rep tb (Some 0%N) T -> (length tb <= fuel)%nat ->
  forall n st cst, cst_rep tb st cst -> a_cover_drain n fuel tb st q = Ok (cover_drain n T cst q).
Proof.
  intros R0 HF. induction n as [|n IH]; intros st cst C; [reflexivity|].
  cbn [Arena3.a_cover_drain Trie.cover_drain].
  destruct (cover_next_sim tb T fuel st cst q R0 HF C) as (st' & E & C').
  rewrite E. cbn [rbind fst snd]. destruct (cover_next T cst q) as [[x|] cst']; cbn [fst snd] in *; [|reflexivity].
  rewrite (IH st' cst' C'). reflexivity.
Qed.

Theorem cover_sim am m q : Rep am m ->
  a_cover am q = Ok (cover_drain (S (length (tbl am))) (root m) CStart q).
Proof. intros R. exact (cover_drain_sim (tbl am) (root m) _ q (proj1 R) (le_S _ _ (le_n _)) _ None CStart Logic.I). Qed.

Notation cover_walk := (Trie.cover_walk pfx V peq contains is_bit_set plen).

Lemma cover_walk_len q : forall t, (length (cover_walk t q) <= height t)%nat.
Proof.
  induction t as [|i0 p v l IHl r IHr]; [cbn; lia|].
  cbn [Trie.cover_walk ArenaThm.height].
  assert (O1 : (length (match v with Some x => [(p, x)] | None => [] end) <= 1)%nat) by (destruct v; cbn; lia).
  destruct (peq p q); [lia|].
  destruct (to_right p q).
  - destruct r as [|ci cp cv cl cr]; [lia|]. destruct (contains cp q); [rewrite app_length|]; lia.
  - destruct l as [|ci cp cv cl cr]; [lia|]. destruct (contains cp q); [rewrite app_length|]; lia.
Qed.

Theorem cover_walk_sim am m q : Rep am m -> a_cover am q = Ok (cover_walk (root m) q).
Proof.
  intros R. rewrite (cover_sim am m q R). f_equal.
  pose proof (rep_height_le _ _ _ (proj1 R)) as HH.
  pose proof (cover_walk_len q (root m)) as HL.
  rewrite (Lookup2.cover_drain_pending pfx V peq contains is_bit_set plen (root m) q);
    [reflexivity | cbn [Lookup2.cover_pending]; lia].
Qed.

Notation find_walk := (Views.find_walk pfx V peq contains is_bit_set plen).
Notation v_find := (Views.v_find pfx V peq contains is_bit_set plen).
Notation find_exact_walk := (Views.find_exact_walk pfx V peq contains is_bit_set plen).
Notation v_find_exact := (Views.v_find_exact pfx V peq contains is_bit_set plen).
Notation find_lpm_walk := (Views.find_lpm_walk pfx V peq contains is_bit_set plen).
Notation v_find_lpm := (Views.v_find_lpm pfx V peq contains is_bit_set plen).
Notation v_left := (Views.v_left pfx V is_bit_set plen pzero).
Notation v_right := (Views.v_right pfx V is_bit_set plen pzero).
Notation v_prefix := (Views.v_prefix pfx V pzero).
Notation a_v_find_loop := (Arena3.a_v_find_loop pfx V peq contains is_bit_set plen lcp).
Notation a_v_find := (Arena3.a_v_find pfx V peq contains is_bit_set plen lcp).
Notation a_v_find_exact_fuel := (Arena3.a_v_find_exact_fuel pfx V peq contains is_bit_set plen).
Notation a_v_find_exact := (Arena3.a_v_find_exact pfx V peq contains is_bit_set plen).
Notation a_v_find_lpm_loop := (Arena3.a_v_find_lpm_loop pfx V peq contains is_bit_set plen).
Notation a_v_find_lpm_fuel := (Arena3.a_v_find_lpm_fuel pfx V peq contains is_bit_set plen).
Notation a_v_find_lpm := (Arena3.a_v_find_lpm pfx V peq contains is_bit_set plen).
Notation a_v_left := (Arena3.a_v_left pfx V is_bit_set plen).
Notation a_v_right := (Arena3.a_v_right pfx V is_bit_set plen).
Notation a_v_prefix := (Arena3.a_v_prefix pfx V).
Notation a_v_value := (Arena3.a_v_value pfx V).
Notation a_v_prefix_value := (Arena3.a_v_prefix_value pfx V).

(** [ViewLoc::Node(i)] represents the view at the subtree in slot [i]; [ViewLoc::Virtual(p, i)]
    the virtual view with prefix [p] above the subtree in slot [i] *)
Definition loc_rep (tb : list anode) (l : vloc) (v : view) : Prop :=
  match l, v with
  | LNode i, VNode t => rep tb (Some i) t
  | LVirt p i, VVirt p' t => p = p' /\ rep tb (Some i) t
  | _, _ => False
  end.

Lemma loc_rep_idx {tb l v} : loc_rep tb l v -> rep tb (Some (loc_idx l)) (v_tree v).
Proof. destruct l, v; cbn; tauto. Qed.

Lemma loc_rep_iff tb l v :
  loc_rep tb l v <-> l = loc_of v /\ rep tb (Some (tid (v_tree v))) (v_tree v).
Proof.
  destruct l as [i|p i], v as [t|p' t]; cbn [loc_rep loc_of v_tree]; split.
  - intros H. rewrite (rep_tid H). auto.
  - intros [[= ->] H]. exact H.
  - intros []. 
  - intros [[=] _].
  - intros [].
  - intros [[=] _].
  - intros [-> H]. rewrite (rep_tid H). auto.
  - intros [[= -> ->] H]. auto.
Qed.

Lemma find_loop_sim q : forall t fuel tb i,
  rep tb (Some i) t -> (height t <= fuel)%nat ->
  exists o, a_v_find_loop fuel tb i q = Ok o /\ opt_rel (loc_rep tb) o (find_walk t q).
Proof.
  apply (rep_descent_ind q (fun fuel tb i t =>
           exists o, a_v_find_loop fuel tb i q = Ok o /\ opt_rel (loc_rep tb) o (find_walk t q))).
  intros f tb i p v l r H Hrd _ IH Rc. cbn [Arena3.a_v_find_loop].
  rewrite (ArenaThm.direction_ins_sim pfx V peq contains is_bit_set plen lcp _ _ _ q H).
  cbn [rbind ArenaThm.dir_ins_of Views.find_walk]. unfold ArenaThm.csel.
  destruct (peq p q); [exists (Some (LNode i)); split; [reflexivity|exact H]|].
  pose proof (rep_get_child (to_right p q) H) as Hgc.
  destruct (if to_right p q then r else l) as [|ci cp cv cl cr]; [exists None; split; [reflexivity|exact Logic.I]|].
  destruct (contains cp q); [exact (IH ci Rc)|].
  destruct (contains q cp); [|exists None; split; [reflexivity|exact Logic.I]].
  rewrite Hgc. exists (Some (LVirt q ci)). split; [reflexivity|]. split; [reflexivity|exact Rc].
Qed.

Theorem v_find_ok tb l v q : loc_rep tb l v ->
  exists o, a_v_find tb l q = Ok o /\ opt_rel (loc_rep tb) o (v_find v q).
Proof.
  intros LR. pose proof (loc_rep_idx LR) as R0. pose proof (le_S _ _ (rep_height_le _ _ _ R0)) as Hf.
  unfold Arena3.a_v_find, Arena3.a_v_find_fuel, Views.v_find.
  rewrite (rep_rd R0). cbn [rbind npfx].
  destruct (rep_is_node R0) as (p & vv & ll & rr & ET). rewrite ET in R0, Hf |- *. cbn [Trie.tpfx].
  destruct (contains q p && negb (peq p q)).
  - exists (Some (LVirt q (loc_idx l))). split; [reflexivity|]. split; [reflexivity|exact R0].
  - apply find_loop_sim; assumption.
Qed.

Lemma find_exact_loop_sim q : forall t fuel tb i,
  rep tb (Some i) t -> (height t <= fuel)%nat ->
  exists o, a_v_find_exact_fuel fuel tb i q = Ok o /\ opt_rel (loc_rep tb) o (find_exact_walk t q).
Proof.
  apply (rep_descent_ind q (fun fuel tb i t =>
           exists o, a_v_find_exact_fuel fuel tb i q = Ok o /\ opt_rel (loc_rep tb) o (find_exact_walk t q))).
  intros f tb i p v l r H Hrd F IH Rc. cbn [Arena3.a_v_find_exact_fuel]. rewrite F.
  cbn [rbind ArenaThm.dir_of Views.find_exact_walk]. unfold ArenaThm.csel.
  destruct (peq p q).
  - rewrite Hrd. cbn [rbind nval]. eexists. split; [reflexivity|]. destruct v; [exact H|exact Logic.I].
  - destruct (if to_right p q then r else l) as [|ci cp cv cl cr]; [exists None; split; [reflexivity|exact Logic.I]|].
    destruct (contains cp q); [exact (IH ci Rc)|exists None; split; [reflexivity|exact Logic.I]].
Qed.

Theorem v_find_exact_ok tb l v q : loc_rep tb l v ->
  exists o, a_v_find_exact tb l q = Ok o /\ opt_rel (loc_rep tb) o (v_find_exact v q).
Proof.
  intros LR. exact (find_exact_loop_sim q _ _ _ _ (loc_rep_idx LR) (le_S _ _ (rep_height_le _ _ _ (loc_rep_idx LR)))).
Qed.

Lemma find_lpm_loop_sim q : forall t fuel tb i, rep tb (Some i) t -> (height t <= fuel)%nat ->
  forall ba bt, opt_rel (fun j v => loc_rep tb (LNode j) v) ba bt ->
  exists o, a_v_find_lpm_loop fuel tb i q ba = Ok o /\ opt_rel (loc_rep tb) o (find_lpm_walk t q bt).
Proof.
  apply (rep_descent_ind q (fun fuel tb i t => forall ba bt, opt_rel (fun j v => loc_rep tb (LNode j) v) ba bt ->
           exists o, a_v_find_lpm_loop fuel tb i q ba = Ok o /\ opt_rel (loc_rep tb) o (find_lpm_walk t q bt))).
  intros f tb i p v l r H Hrd F IH Rc ba bt B. cbn [Arena3.a_v_find_lpm_loop]. rewrite Hrd. cbn [rbind nval]. rewrite F.
  cbn [rbind ArenaThm.dir_of Views.find_lpm_walk]. unfold ArenaThm.csel.
  assert (B' : opt_rel (fun j v => loc_rep tb (LNode j) v) (if is_some v then Some i else ba)
                 (if is_some v then Some (VNode (Node i p v l r)) else bt)).
  { destruct v as [x|]; [exact H|exact B]. }
  revert B'. generalize (if is_some v then Some i else ba).
  generalize (if is_some v then Some (VNode (Node i p v l r)) else bt). intros bt' ba' B'.
  assert (Fin : exists o, Ok (option_map LNode ba') = Ok o /\ opt_rel (loc_rep tb) o bt').
  { eexists. split; [reflexivity|]. destruct ba', bt'; exact B'. }
  destruct (peq p q); [exact Fin|].
  destruct (if to_right p q then r else l) as [|ci cp cv cl cr]; [exact Fin|].
  destruct (contains cp q); [exact (IH ci Rc _ _ B')|exact Fin].
Qed.

Theorem v_find_lpm_ok tb l v q : loc_rep tb l v ->
  exists o, a_v_find_lpm tb l q = Ok o /\ opt_rel (loc_rep tb) o (v_find_lpm v q).
Proof.
  intros LR. pose proof (loc_rep_idx LR) as R0. pose proof (le_S _ _ (rep_height_le _ _ _ R0)) as Hf.
  unfold Arena3.a_v_find_lpm, Arena3.a_v_find_lpm_fuel, Views.v_find_lpm.
  rewrite (rep_rd R0). cbn [rbind npfx].
  destruct (rep_is_node R0) as (p & vv & ll & rr & ET). rewrite ET in R0, Hf |- *. cbn [Trie.tpfx].
  destruct (contains p q); cbn [negb].
  - apply find_lpm_loop_sim; [assumption|assumption|exact Logic.I].
  - exists None. split; [reflexivity|exact Logic.I].
Qed.

Lemma link_loc {tb} {c : tree} : rep tb (link c) c ->
  opt_rel (loc_rep tb) (option_map LNode (link c)) (match c with Leaf => None | Node i p v l r => Some (VNode (Node i p v l r)) end).
Proof. destruct c; [exact (fun _ => Logic.I)|exact (fun H => H)]. Qed.

Theorem v_left_sim tb l v : loc_rep tb l v ->
  exists o, a_v_left tb l = Ok o /\ opt_rel (loc_rep tb) o (v_left v).
Proof.
  intros LR. pose proof (loc_rep_idx LR) as R0. unfold Arena3.a_v_left, Views.v_left.
  destruct l as [i|pq i], v as [t|pq' t]; cbn [loc_rep] in LR; try contradiction;
    cbn [v_tree loc_idx] in R0; rewrite (rep_rd R0); cbn [rbind nleft npfx].
  - eexists. split; [reflexivity|]. exact (link_loc (proj1 (rep_kids R0))).
  - destruct LR as [<- _]. destruct (to_right pq (tpfx t)); eexists; (split; [reflexivity|]); [exact Logic.I|exact R0].
Qed.

Theorem v_right_sim tb l v : loc_rep tb l v ->
  exists o, a_v_right tb l = Ok o /\ opt_rel (loc_rep tb) o (v_right v).
Proof.
  intros LR. pose proof (loc_rep_idx LR) as R0. unfold Arena3.a_v_right, Views.v_right.
  destruct l as [i|pq i], v as [t|pq' t]; cbn [loc_rep] in LR; try contradiction;
    cbn [v_tree loc_idx] in R0; rewrite (rep_rd R0); cbn [rbind nright npfx].
  - eexists. split; [reflexivity|]. exact (link_loc (proj2 (rep_kids R0))).
  - destruct LR as [<- _]. destruct (to_right pq (tpfx t)); eexists; (split; [reflexivity|]); [exact R0|exact Logic.I].
Qed.

Theorem v_prefix_sim tb l v : loc_rep tb l v -> a_v_prefix tb l = Ok (v_prefix v).
Proof.
  intros LR. pose proof (loc_rep_idx LR) as R0.
  destruct l as [i|pq i], v as [t|pq' t]; cbn [loc_rep] in LR; try contradiction; cbn [v_tree loc_idx] in R0.
  - unfold Arena3.a_v_prefix. rewrite (rep_rd R0). reflexivity.
  - destruct LR as [<- _]. reflexivity.
Qed.

Theorem v_value_sim tb l v : loc_rep tb l v -> a_v_value tb l = Ok (v_value v).
Proof.
  intros LR. pose proof (loc_rep_idx LR) as R0.
  destruct l as [i|pq i], v as [t|pq' t]; cbn [loc_rep] in LR; try contradiction; [|reflexivity].
  cbn [v_tree loc_idx] in R0. unfold Arena3.a_v_value. rewrite (rep_rd R0). reflexivity.
Qed.

Theorem v_prefix_value_sim tb l v : loc_rep tb l v -> a_v_prefix_value tb l = Ok (v_prefix_value v).
Proof.
  intros LR. pose proof (loc_rep_idx LR) as R0.
  destruct l as [i|pq i], v as [t|pq' t]; cbn [loc_rep] in LR; try contradiction; [|reflexivity].
  cbn [v_tree loc_idx] in R0. unfold Arena3.a_v_prefix_value. rewrite (rep_rd R0). cbn [rbind].
  rewrite (pv_anode pzero). reflexivity.
Qed.

(** * The two copies of the view code coincide ([TrieView] / [TrieViewMut] duplicate it) *)

Notation vm_find := (Views.vm_find pfx V peq contains is_bit_set plen).
Notation vm_find_exact := (Views.vm_find_exact pfx V peq contains is_bit_set plen).
Notation vm_find_lpm := (Views.vm_find_lpm pfx V peq contains is_bit_set plen).
Notation vm_left := (Views.vm_left pfx V is_bit_set plen pzero).
Notation vm_right := (Views.vm_right pfx V is_bit_set plen pzero).
Notation vm_has_left := (Views.vm_has_left pfx V is_bit_set plen pzero).
Notation vm_has_right := (Views.vm_has_right pfx V is_bit_set plen pzero).
Notation vm_split := (Views.vm_split pfx V is_bit_set plen pzero).
Notation vm_prefix := (Views.vm_prefix pfx V pzero).
Notation mvirt := (Views.mvirt pfx).
Notation a_vm_find_loop := (Arena3.a_vm_find_loop pfx V peq contains is_bit_set plen lcp).
Notation a_vm_find := (Arena3.a_vm_find pfx V peq contains is_bit_set plen lcp).
Notation a_vm_find_exact_fuel := (Arena3.a_vm_find_exact_fuel pfx V peq contains is_bit_set plen).
Notation a_vm_find_exact := (Arena3.a_vm_find_exact pfx V peq contains is_bit_set plen).
Notation a_vm_find_lpm_loop := (Arena3.a_vm_find_lpm_loop pfx V peq contains is_bit_set plen).
Notation a_vm_find_lpm_fuel := (Arena3.a_vm_find_lpm_fuel pfx V peq contains is_bit_set plen).
Notation a_vm_find_lpm := (Arena3.a_vm_find_lpm pfx V peq contains is_bit_set plen).
Notation a_vm_left := (Arena3.a_vm_left pfx V is_bit_set plen).
Notation a_vm_right := (Arena3.a_vm_right pfx V is_bit_set plen).
Notation a_vm_has_left := (Arena3.a_vm_has_left pfx V is_bit_set plen).
Notation a_vm_has_right := (Arena3.a_vm_has_right pfx V is_bit_set plen).
Notation a_vm_split := (Arena3.a_vm_split pfx V is_bit_set plen).
Notation a_vm_prefix := (Arena3.a_vm_prefix pfx V).
Notation a_vm_value := (Arena3.a_vm_value pfx V).

Lemma vm_find_loop_eq q : forall fuel tb i, a_vm_find_loop fuel tb i q = a_v_find_loop fuel tb i q.
Proof.
  intros fuel tb i. reflexivity. (* the two fixpoints have the same body *)
Qed.
Lemma vm_find_exact_eq q : forall fuel tb i, a_vm_find_exact_fuel fuel tb i q = a_v_find_exact_fuel fuel tb i q.
Proof.
  induction fuel as [|f IH]; intros tb i; [reflexivity|].
  cbn [Arena3.a_vm_find_exact_fuel Arena3.a_v_find_exact_fuel].
  destruct (a_direction tb i q) as [d| |]; cbn [rbind]; try reflexivity. destruct d; auto.
  destruct (rd tb i); cbn [rbind]; try reflexivity. destruct (is_some _); reflexivity.
Qed.
Lemma vm_find_lpm_loop_eq q : forall fuel tb i b, a_vm_find_lpm_loop fuel tb i q b = a_v_find_lpm_loop fuel tb i q b.
Proof.
  induction fuel as [|f IH]; intros tb i b; [reflexivity|].
  cbn [Arena3.a_vm_find_lpm_loop Arena3.a_v_find_lpm_loop].
  destruct (rd tb i); cbn [rbind]; try reflexivity.
  destruct (a_direction tb i q) as [d| |]; cbn [rbind]; try reflexivity.
  destruct d; auto; destruct (if is_some _ then _ else _); reflexivity.
Qed.
Lemma vm_find_lpm_eq fuel tb l q : a_vm_find_lpm_fuel fuel tb l q = a_v_find_lpm_fuel fuel tb l q.
Proof.
  unfold Arena3.a_vm_find_lpm_fuel, Arena3.a_v_find_lpm_fuel.
  destruct (rd tb (loc_idx l)); cbn [rbind]; try reflexivity.
  destruct (negb _); [reflexivity|apply vm_find_lpm_loop_eq].
Qed.
Lemma a_vm_find_exact_eq tb l q : a_vm_find_exact tb l q = a_v_find_exact tb l q.
Proof. apply vm_find_exact_eq. Qed.
Lemma a_vm_find_lpm_eq tb l q : a_vm_find_lpm tb l q = a_v_find_lpm tb l q.
Proof. apply vm_find_lpm_eq. Qed.
Lemma a_vm_left_eq tb l : a_vm_left tb l = a_v_left tb l.
Proof.
  unfold Arena3.a_vm_left, Arena3.a_v_left, Arena3.a_vm_side_idx.
  destruct l as [i|p i]; (destruct (rd tb i); cbn [rbind]; [|reflexivity..]); [reflexivity|].
  destruct (to_right p _); reflexivity.
Qed.
Lemma a_vm_right_eq tb l : a_vm_right tb l = a_v_right tb l.
Proof.
  unfold Arena3.a_vm_right, Arena3.a_v_right, Arena3.a_vm_side_idx.
  destruct l as [i|p i]; (destruct (rd tb i); cbn [rbind]; [|reflexivity..]); [reflexivity|].
  destruct (to_right p _); reflexivity.
Qed.
Lemma a_vm_split_eq tb l :
  a_vm_split tb l = (ol <- a_vm_left tb l ;; orr <- a_vm_right tb l ;; Ok (ol, orr)).
Proof.
  unfold Arena3.a_vm_split, Arena3.a_vm_left, Arena3.a_vm_right, Arena3.a_vm_side_idx.
  destruct l as [i|p i]; (destruct (rd tb i); cbn [rbind]; [|reflexivity..]); [reflexivity|].
  destruct (to_right p _); reflexivity.
Qed.

Lemma rep_subtree tb : forall pa (t : tree) o, rep tb o t -> rep tb (link (subtree t pa)) (subtree t pa).
Proof.
  induction pa as [|b pa IH]; intros t o H.
  - destruct t; cbn [subtree]; rewrite <- (ArenaThm.rep_link pfx V _ _ _ H); exact H.
  - destruct t as [|i p v l r]; [cbn; constructor|].
    destruct (ArenaThm.rep_node_inv pfx V _ _ _ _ _ _ _ H) as (_ & _ & Rl & Rr).
    cbn [subtree]. destruct b; eapply IH; eassumption.
Qed.

Lemma tsize_subtree : forall pa (t : tree), (tsize (subtree t pa) <= tsize t)%nat.
Proof.
  induction pa as [|b pa IH]; intros t; [destruct t; cbn [subtree]; lia|].
  destruct t as [|i p v l r]; [cbn; lia|]. cbn [subtree tsize].
  destruct b; [specialize (IH r)|specialize (IH l)]; lia.
Qed.

(** the mutable view [m] of the map's tree [T] is at the arena location [l]: the path of [m]
    leads to the subtree represented at the slot of [l], and the virtual prefixes agree *)
Definition mloc_rep (tb : list anode) (T : tree) (l : vloc) (m : vmut) : Prop :=
  rep tb (Some (loc_idx l)) (vm_tree T m) /\
  match l, mvirt m with
  | LNode _, None => True
  | LVirt p _, Some p' => p = p'
  | _, _ => False
  end.

Lemma mloc_rep_intro tb T o l m : rep tb o T ->
  link (vm_tree T m) = Some (loc_idx l) ->
  match l, mvirt m with LNode _, None => True | LVirt p _, Some p' => p = p' | _, _ => False end ->
  mloc_rep tb T l m.
Proof.
  intros R E K. split; [|exact K]. rewrite <- E. unfold vm_tree. eapply rep_subtree; eassumption.
Qed.

Lemma mloc_rep_view tb T l m : mloc_rep tb T l m <-> loc_rep tb l (vm_view T m).
Proof.
  unfold mloc_rep, vm_view. destruct l as [i|p i], (mvirt m) as [p'|]; cbn [loc_rep loc_idx]; tauto.
Qed.

(** an observer of [TrieViewMut] inherits the simulation of its [TrieView] twin: the arena twins
    are equal (above), and the model twins commute with [vm_view] ([MutTrav.vm_find_sim] ...
    [MutTrav.vm_value_sim]) *)
Lemma mut_of_view tb T {xm xv} {ra : res (option vloc)} : option_map (vm_view T) xm = xv ->
  (exists o, ra = Ok o /\ opt_rel (loc_rep tb) o xv) -> exists o, ra = Ok o /\ opt_rel (mloc_rep tb T) o xm.
Proof. intros <- (o & E & W). exists o. split; [exact E|]. destruct o, xm; try exact W. apply mloc_rep_view, W. Qed.

(** ([MutTrav] has theorems of the same eight names [vm_*_sim]: those are the model halves used here,
    [option_map (vm_view T) (vm_find T m q) = v_find (vm_view T m) q] and so on; the ones below are
    about the arena code) *)
Theorem vm_find_sim tb T l m q : mloc_rep tb T l m ->
  exists o, a_vm_find tb l q = Ok o /\ opt_rel (mloc_rep tb T) o (vm_find T m q).
Proof.
  intros LR. apply (mut_of_view tb T (MutTrav.vm_find_sim pfx V peq contains is_bit_set plen T m q)).
  (* [a_vm_find] and [a_v_find] are convertible ([vm_find_loop_eq]): no rewriting as in the twins below *)
  apply v_find_ok, mloc_rep_view, LR.
Qed.

Theorem vm_find_exact_sim tb T l m q : mloc_rep tb T l m ->
  exists o, a_vm_find_exact tb l q = Ok o /\ opt_rel (mloc_rep tb T) o (vm_find_exact T m q).
Proof.
  intros LR. apply (mut_of_view tb T (MutTrav.vm_find_exact_sim pfx V peq contains is_bit_set plen T m q)).
  rewrite a_vm_find_exact_eq. apply v_find_exact_ok, mloc_rep_view, LR.
Qed.

Theorem vm_find_lpm_sim tb T l m q : mloc_rep tb T l m ->
  exists o, a_vm_find_lpm tb l q = Ok o /\ opt_rel (mloc_rep tb T) o (vm_find_lpm T m q).
Proof.
  intros LR. apply (mut_of_view tb T (MutTrav.vm_find_lpm_sim pfx V peq contains is_bit_set plen T m q)).
  rewrite a_vm_find_lpm_eq. apply v_find_lpm_ok, mloc_rep_view, LR.
Qed.

Theorem vm_left_sim tb T l m : mloc_rep tb T l m ->
  exists o, a_vm_left tb l = Ok o /\ opt_rel (mloc_rep tb T) o (vm_left T m).
Proof.
  intros LR. apply (mut_of_view tb T (MutTrav.vm_left_sim pfx V is_bit_set plen pzero T m)).
  rewrite a_vm_left_eq. apply v_left_sim, mloc_rep_view, LR.
Qed.

Theorem vm_right_sim tb T l m : mloc_rep tb T l m ->
  exists o, a_vm_right tb l = Ok o /\ opt_rel (mloc_rep tb T) o (vm_right T m).
Proof.
  intros LR. apply (mut_of_view tb T (MutTrav.vm_right_sim pfx V is_bit_set plen pzero T m)).
  rewrite a_vm_right_eq. apply v_right_sim, mloc_rep_view, LR.
Qed.

Theorem vm_has_left_sim tb T l m : mloc_rep tb T l m -> a_vm_has_left tb l = Ok (vm_has_left T m).
Proof.
  intros [R0 K]. unfold Arena3.a_vm_has_left, Views.vm_has_left.
  destruct l as [i|pq i], (mvirt m) as [p'|]; try contradiction; cbn [loc_idx] in R0;
    rewrite (rep_rd R0); cbn [rbind nleft npfx].
  - destruct (tleft (vm_tree T m)); reflexivity.
  - subst p'. reflexivity.
Qed.

Theorem vm_has_right_sim tb T l m : mloc_rep tb T l m -> a_vm_has_right tb l = Ok (vm_has_right T m).
Proof.
  intros [R0 K]. unfold Arena3.a_vm_has_right, Views.vm_has_right.
  destruct l as [i|pq i], (mvirt m) as [p'|]; try contradiction; cbn [loc_idx] in R0;
    rewrite (rep_rd R0); cbn [rbind nright npfx].
  - destruct (tright (vm_tree T m)); reflexivity.
  - subst p'. reflexivity.
Qed.

Theorem vm_split_sim tb T l m : mloc_rep tb T l m ->
  exists ol orr, a_vm_split tb l = Ok (ol, orr) /\
    opt_rel (mloc_rep tb T) ol (fst (vm_split T m)) /\ opt_rel (mloc_rep tb T) orr (snd (vm_split T m)).
Proof.
  intros LR. destruct (vm_left_sim tb T l m LR) as (ol & El & Wl). destruct (vm_right_sim tb T l m LR) as (orr & Er & Wr).
  exists ol, orr. rewrite a_vm_split_eq, El, Er, (MutTrav.vm_split_eq pfx V is_bit_set plen pzero). auto.
Qed.

Theorem vm_prefix_sim tb T l m : mloc_rep tb T l m -> a_vm_prefix tb l = Ok (vm_prefix T m).
Proof.
  intros LR. rewrite (MutTrav.vm_prefix_sim pfx V pzero). exact (v_prefix_sim tb l _ (proj1 (mloc_rep_view _ _ _ _) LR)).
Qed.

Theorem vm_value_sim tb T l m : mloc_rep tb T l m -> a_vm_value tb l = Ok (vm_value T m).
Proof.
  intros LR. rewrite (MutTrav.vm_value_sim pfx V). exact (v_value_sim tb l _ (proj1 (mloc_rep_view _ _ _ _) LR)).
Qed.

(** [view_at] / [view_mut_at] of a map: [find] from the root location *)
Theorem view_at_sim am m q : Rep am m ->
  exists o, a_v_find (tbl am) (LNode 0%N) q = Ok o /\
            opt_rel (loc_rep (tbl am)) o (Views.view_at pfx V peq contains is_bit_set plen (root m) q).
Proof. intros R. apply v_find_ok. exact (proj1 R). Qed.

Section Reach.
Hypothesis PEQ_LEN : forall p q, peq p q = true -> plen p = plen q.
Hypothesis ZERO_LEN : plen pzero = 0%N.
Notation reachable2 := (Arena2Thm.reachable2 pfx V peq contains is_bit_set plen lcp pzero).

Notation reach_Rep := (Arena2Thm.reachable2_Rep pfx V peq contains is_bit_set plen lcp pzero PEQ_LEN ZERO_LEN).

(** the states of a [Cover] iterator that was driven by [next] from its initial state *)
Inductive cover_reach (tb : list anode) (q : pfx) : option N -> Prop :=
| cr_start : cover_reach tb q None
| cr_next st o st' : cover_reach tb q st -> a_cover_next (S (length tb)) tb st q = Ok (o, st') ->
    cover_reach tb q st'.

Lemma Rep_total3 am m q : Rep am m -> minv m ->
  (exists o, a_get_key_value am q = Ok o) /\ (exists o, a_contains_key am q = Ok o) /\
  (exists o, a_get_lpm_prefix am q = Ok o) /\ (exists o, a_get_lpm_mut am q = Ok o) /\
  (exists o, a_get_spm am q = Ok o) /\ (exists o, a_get_spm_prefix am q = Ok o) /\
  (exists st, a_children_start am q = Ok st) /\ (exists es, a_children am q = Ok es) /\
  (exists es, a_cover am q = Ok es) /\
  (forall st, cover_reach (tbl am) q st -> exists r, a_cover_next (S (length (tbl am))) (tbl am) st q = Ok r).
Proof.
  intros R M.
  split; [rewrite (get_key_value_sim am m q R); eauto|].
  split; [rewrite (contains_key_sim am m q R); eauto|].
  split; [rewrite (get_lpm_prefix_sim am m q R); eauto|].
  split; [rewrite (get_lpm_mut_sim am m q R); eauto|].
  split; [rewrite (get_spm_sim am m q R); eauto|].
  split; [rewrite (get_spm_prefix_sim am m q R); eauto|].
  split; [rewrite (proj1 (children_start_sim am m q R M)); eauto|].
  split; [rewrite (children_sim am m q R M); eauto|].
  split; [rewrite (cover_sim am m q R); eauto|].
  pose proof (fun st cst => cover_next_sim (tbl am) (root m) (S (length (tbl am))) st cst q (proj1 R) (le_S _ _ (le_n _))) as NX.
  assert (INV : forall st, cover_reach (tbl am) q st -> exists cst, cst_rep (tbl am) st cst).
  { induction 1 as [|st o st' _ [cst C] E]; [exists CStart; exact Logic.I|].
    destruct (NX st cst C) as (st'' & E' & C'). rewrite E in E'. injection E' as _ <-. eauto. }
  intros st CR. destruct (INV st CR) as (cst & C). destruct (NX st cst C) as (st' & E & _). eauto.
Qed.

Corollary reachable_total3 am q : reachable2 am ->
  (exists o, a_get_key_value am q = Ok o) /\ (exists o, a_contains_key am q = Ok o) /\
  (exists o, a_get_lpm_prefix am q = Ok o) /\ (exists o, a_get_lpm_mut am q = Ok o) /\
  (exists o, a_get_spm am q = Ok o) /\ (exists o, a_get_spm_prefix am q = Ok o) /\
  (exists st, a_children_start am q = Ok st) /\ (exists es, a_children am q = Ok es) /\
  (exists es, a_cover am q = Ok es) /\
  (forall st, cover_reach (tbl am) q st -> exists r, a_cover_next (S (length (tbl am))) (tbl am) st q = Ok r).
Proof. intros H. destruct (reach_Rep am H) as (m & R & M & _). exact (Rep_total3 am m q R M). Qed.

(** a view location whose slot is linked from the root (what [find], [left], [right] ... hand
    out, starting from [view()] / [view_mut()] = [Node(0)]) *)
Definition live_loc (tb : list anode) (l : vloc) : Prop :=
  exists pa, Arena2.a_vm_walk pfx V tb 0%N pa = Ok (Some (loc_idx l)).

Lemma live_loc_rep am m l : Rep am m -> live_loc (tbl am) l ->
  exists pa, rep (tbl am) (Some (loc_idx l)) (subtree (root m) pa).
Proof.
  intros R [pa W]. exists pa. rewrite (Arena2Thm.vm_walk_sim pfx V pa _ _ _ (proj1 R)) in W. injection W as W.
  rewrite <- W. eapply rep_subtree. apply R.
Qed.

Lemma live_mloc am m l : Rep am m -> live_loc (tbl am) l -> exists mm, mloc_rep (tbl am) (root m) l mm.
Proof.
  intros R LL. destruct (live_loc_rep am m l R LL) as (pa & Rp).
  exists (Views.mkvmut pfx pa (match l with LNode _ => None | LVirt p _ => Some p end)).
  split; [exact Rp|]. destruct l; exact Logic.I || reflexivity.
Qed.

Lemma mloc_live am m l' m' : Rep am m -> mloc_rep (tbl am) (root m) l' m' -> live_loc (tbl am) l'.
Proof.
  intros R [Rm _]. exists (Views.mpath pfx m'). rewrite (Arena2Thm.vm_walk_sim pfx V _ _ _ _ (proj1 R)).
  unfold vm_tree in Rm. rewrite <- (ArenaThm.rep_link pfx V _ _ _ Rm). reflexivity.
Qed.

(** the location handed out, if any, is live again: navigation can go on from it *)
Definition olive (tb : list anode) (o : option vloc) : Prop :=
  match o with Some l' => live_loc tb l' | None => True end.

Lemma orel_olive am m {o om} : Rep am m -> opt_rel (mloc_rep (tbl am) (root m)) o om -> olive (tbl am) o.
Proof.
  intros R. destruct o as [l'|], om as [m'|]; cbn; try tauto. apply mloc_live. exact R.
Qed.

Lemma ok_olive am m {ra : res (option vloc)} {om} : Rep am m ->
  (exists o, ra = Ok o /\ opt_rel (mloc_rep (tbl am) (root m)) o om) -> exists o, ra = Ok o /\ olive (tbl am) o.
Proof. intros R (o & E & W). exists o. split; [exact E|exact (orel_olive am m R W)]. Qed.

Corollary reachable_views am l q : reachable2 am -> live_loc (tbl am) l ->
  (exists o, a_v_find (tbl am) l q = Ok o /\ olive (tbl am) o) /\
  (exists o, a_v_find_exact (tbl am) l q = Ok o /\ olive (tbl am) o) /\
  (exists o, a_v_find_lpm (tbl am) l q = Ok o /\ olive (tbl am) o) /\
  (exists o, a_v_left (tbl am) l = Ok o /\ olive (tbl am) o) /\
  (exists o, a_v_right (tbl am) l = Ok o /\ olive (tbl am) o) /\
  (exists p, a_v_prefix (tbl am) l = Ok p) /\ (exists v, a_v_value (tbl am) l = Ok v) /\
  (exists pv, a_v_prefix_value (tbl am) l = Ok pv) /\
  (exists o, a_vm_find (tbl am) l q = Ok o /\ olive (tbl am) o) /\
  (exists o, a_vm_find_exact (tbl am) l q = Ok o /\ olive (tbl am) o) /\
  (exists o, a_vm_find_lpm (tbl am) l q = Ok o /\ olive (tbl am) o) /\
  (exists o, a_vm_left (tbl am) l = Ok o /\ olive (tbl am) o) /\
  (exists o, a_vm_right (tbl am) l = Ok o /\ olive (tbl am) o) /\
  (exists b, a_vm_has_left (tbl am) l = Ok b) /\ (exists b, a_vm_has_right (tbl am) l = Ok b) /\
  (exists o1 o2, a_vm_split (tbl am) l = Ok (o1, o2) /\ olive (tbl am) o1 /\ olive (tbl am) o2) /\
  (exists p, a_vm_prefix (tbl am) l = Ok p) /\ (exists v, a_vm_value (tbl am) l = Ok v).
Proof.
  intros H LL. destruct (reach_Rep am H) as (m & R & M & _). destruct (live_mloc am m l R LL) as (mm & MR).
  pose proof (proj1 (mloc_rep_view _ _ _ _) MR) as LR.
  pose proof (ok_olive am m R (vm_find_sim (tbl am) (root m) l mm q MR)) as F1.
  pose proof (ok_olive am m R (vm_find_exact_sim (tbl am) (root m) l mm q MR)) as F2.
  pose proof (ok_olive am m R (vm_find_lpm_sim (tbl am) (root m) l mm q MR)) as F3.
  pose proof (ok_olive am m R (vm_left_sim (tbl am) (root m) l mm MR)) as F4.
  pose proof (ok_olive am m R (vm_right_sim (tbl am) (root m) l mm MR)) as F5.
  assert (F6 : exists p, a_vm_prefix (tbl am) l = Ok p) by (rewrite (vm_prefix_sim (tbl am) (root m) l mm MR); eauto).
  assert (F7 : exists v, a_vm_value (tbl am) l = Ok v) by (rewrite (vm_value_sim (tbl am) (root m) l mm MR); eauto).
  split; [exact F1|].
  split; [rewrite <- a_vm_find_exact_eq; exact F2|]. split; [rewrite <- a_vm_find_lpm_eq; exact F3|].
  split; [rewrite <- a_vm_left_eq; exact F4|]. split; [rewrite <- a_vm_right_eq; exact F5|].
  split; [exact F6|]. split; [exact F7|].
  split; [rewrite (v_prefix_value_sim (tbl am) l _ LR); eauto|].
  split; [exact F1|]. split; [exact F2|]. split; [exact F3|]. split; [exact F4|]. split; [exact F5|].
  split; [rewrite (vm_has_left_sim (tbl am) (root m) l mm MR); eauto|].
  split; [rewrite (vm_has_right_sim (tbl am) (root m) l mm MR); eauto|].
  split; [|split; [exact F6|exact F7]].
  destruct (vm_split_sim (tbl am) (root m) l mm MR) as (o1 & o2 & E & W1 & W2). exists o1, o2. split; [exact E|].
  split; [exact (orel_olive am m R W1)|exact (orel_olive am m R W2)].
Qed.

Lemma live_sized am l : reachable2 am -> live_loc (tbl am) l ->
  exists t, rep (tbl am) (Some (loc_idx l)) t /\ (tsize t <= length (tbl am))%nat.
Proof.
  intros H LL. destruct (reach_Rep am H) as (m & R & M & _). destruct (live_loc_rep am m l R LL) as (pa & Rp).
  exists (subtree (root m) pa). split; [exact Rp|].
  pose proof (tsize_subtree pa (root m)). pose proof (Rep_tsize am m R M). lia.
Qed.

(** about [live_loc]; where this file is imported after [ArenaThm], the bare name means this lemma
    and not [ArenaThm.live_root], the constructor of [live] *)
Lemma live_root tb : live_loc tb (LNode 0%N).
Proof. exists []. reflexivity. Qed.

End Reach.

End A3T.

Section NF.
Variables (pfx T : Type).
Notation rep := (ArenaThm.rep pfx T).
Notation link := (ArenaThm.link pfx T).

(** a tree that is not a leaf, represented under its own link: what the stack invariant [PU] below asks
    of each tree of an entry *)
Definition nrep (tb : list (Arena.anode pfx T)) (t : Trie.tree pfx T) : Prop :=
  is_node t = true /\ rep tb (link t) t.

Lemma nrep_child tb (t : Trie.tree pfx T) : rep tb (link t) t -> is_node t = true -> nrep tb t.
Proof. intros H N. split; assumption. Qed.

(** the read at the slot of a node represented under its own link; its children: [rep_kids] *)
Lemma node_rd pzero {tb} {t : Trie.tree pfx T} : is_node t = true -> rep tb (link t) t ->
  Arena.rd pfx T tb (tid t) = Ok (mkanode (Trie.tpfx pfx T pzero t) (tval t) (link (tleft t)) (link (tright t))).
Proof. intros N H. exact (rep_rd pfx T pzero (rep_link_node pfx T tb t N H)). Qed.

Lemma aidval_tid pzero (t : Trie.tree pfx T) ol orr :
  Arena3.aidval pfx (tid t) (mkanode (Trie.tpfx pfx T pzero t) (tval t) ol orr) = idval pfx t.
Proof. destruct t as [|i p [x|] l r]; reflexivity. Qed.
End NF.

Arguments node_rd {pfx T} pzero {tb t}.
Arguments aidval_tid {pfx T}.

Section A3ST.
Variables (pfx L R : Type).
Variables (contains : pfx -> pfx -> bool) (is_bit_set : pfx -> N -> bool)
          (plen : pfx -> N) (pzero : pfx) (mcmp : pfx -> pfx -> comparison).
Variables (tl : list (Arena.anode pfx L)) (tr : list (Arena.anode pfx R)).

Notation treeL := (Trie.tree pfx L).
Notation treeR := (Trie.tree pfx R).
Notation repL := (ArenaThm.rep pfx L tl).
Notation repR := (ArenaThm.rep pfx R tr).
Notation linkL := (ArenaThm.link pfx L).
Notation linkR := (ArenaThm.link pfx R).
Notation to_right := (Trie.to_right pfx is_bit_set plen).
Notation lpmR := (SetOps.lpmR pfx R).

Notation uidx := (SetOps.uidx pfx L R).
Notation uentry := (SetOps.uentry pfx L R).
Notation u_ni := (SetOps.u_next_indices pfx L R contains plen pzero mcmp).
Notation u_first_l := (SetOps.u_next_first_l pfx L R contains is_bit_set plen pzero mcmp).
Notation u_first_r := (SetOps.u_next_first_r pfx L R contains is_bit_set plen pzero mcmp).
Notation u_ext := (SetOps.u_extend_lpm pfx L R).
Notation u_expand := (SetOps.u_expand pfx L R contains is_bit_set plen pzero mcmp).
Notation um_expand := (SetOps.um_expand pfx L R contains is_bit_set plen pzero mcmp).
Notation union := (SetOps.union pfx L R contains is_bit_set plen pzero mcmp).
Notation union_mut := (SetOps.union_mut pfx L R contains is_bit_set plen pzero mcmp).
Notation ukids := (UnionThm.kids pfx L R contains is_bit_set plen pzero mcmp).
Notation a_u_ni := (Arena3.a_u_next_indices pfx L R contains plen mcmp tl tr).
Notation a_u_first_l := (Arena3.a_u_next_first_l pfx L R contains is_bit_set plen mcmp tl tr).
Notation a_u_first_r := (Arena3.a_u_next_first_r pfx L R contains is_bit_set plen mcmp tl tr).
Notation a_u_ext := (Arena3.a_u_extend_lpm pfx L R tl tr).
Notation a_u_expand := (Arena3.a_u_expand pfx L R contains is_bit_set plen mcmp tl tr).
Notation a_um_expand := (Arena3.a_um_expand pfx L R contains is_bit_set plen mcmp tl tr).
Notation a_union_fuel := (Arena3.a_union_fuel pfx L R contains is_bit_set plen mcmp).
Notation a_union_mut_fuel := (Arena3.a_union_mut_fuel pfx L R contains is_bit_set plen mcmp).
#[local] Arguments UBoth {pfx L R}.
#[local] Arguments UFirstL {pfx L R}.
#[local] Arguments UFirstR {pfx L R}.
#[local] Arguments UOnlyL {pfx L R}.
#[local] Arguments UOnlyR {pfx L R}.

(** the arena entry of a tree entry: the slots of its nodes *)
Definition uix (x : uidx) : auidx :=
  match x with
  | UBoth l r => AUBoth (tid l) (tid r)
  | UFirstL l r => AUFirstL (tid l) (tid r)
  | UFirstR l r => AUFirstR (tid l) (tid r)
  | UOnlyL l => AUOnlyL (tid l)
  | UOnlyR r => AUOnlyR (tid r)
  end.
Definition uent (e : uentry) : auentry pfx L R := (uix (fst (fst e)), snd (fst e), snd e).
(** the invariant of tree entries: their components are nodes, each represented in its table under its
    own link.  That property of a subtree passes to the children ([rep_kids]), so that the pushed indices
    have it again is [UnionThm.ni_held] and [UnionThm.kids_held], for the pruned machines through [pick];
    the simulation lemmas below state equations only. *)
Notation selfL := (fun t : treeL => repL (linkL t) t).
Notation selfR := (fun t : treeR => repR (linkR t) t).
Definition PU : uidx -> Prop := UnionThm.held pfx L R selfL selfR.
Definition PE (e : uentry) : Prop := PU (UnionThm.eix pfx L R e).

Lemma ni_PU {oa ob} {a : treeL} {b : treeR} : repL oa a -> repR ob b -> Forall PU (u_ni a b).
Proof.
  intros Ha Hb. pose proof (ArenaThm.rep_link pfx L _ _ _ Ha). pose proof (ArenaThm.rep_link pfx R _ _ _ Hb). subst oa ob.
  exact (UnionThm.ni_held pfx L R contains plen pzero mcmp selfL selfR (ArenaThm.rep_leaf pfx L tl) (ArenaThm.rep_leaf pfx R tr) a b Ha Hb).
Qed.

Lemma kids_PU x : PU x -> Forall PU (ukids x).
Proof.
  exact (UnionThm.kids_held pfx L R contains is_bit_set plen pzero mcmp selfL selfR (fun t => rep_kids pfx L) (fun t => rep_kids pfx R)
           (ArenaThm.rep_leaf pfx L tl) (ArenaThm.rep_leaf pfx R tr) x).
Qed.

Lemma u_ni_sim {oa ob} {a : treeL} {b : treeR} : repL oa a -> repR ob b -> a_u_ni oa ob = Ok (map uix (u_ni a b)).
Proof.
  intros [|ia pa va la ra ola ora Sa _ _] [|ib pb vb lb rb olb orb Sb _ _]; try reflexivity.
  unfold Arena3.a_u_next_indices, SetOps.u_next_indices.
  rewrite (ArenaThm.rd_ok pfx L _ _ _ Sa), (ArenaThm.rd_ok pfx R _ _ _ Sb). cbn [rbind npfx Trie.tpfx is_node].
  destruct (plen pa =? plen pb)%N; [destruct (mcmp pa pb)|
    destruct (contains pa pb); [|destruct (contains pb pa); [|destruct (mcmp pa pb)]]]; reflexivity.
Qed.

Lemma u_first_l_sim (l : treeL) (r : treeR) : PU (UFirstL l r) ->
  a_u_first_l (tid l) (linkL (tleft l)) (linkL (tright l)) (tid r) = Ok (map uix (u_first_l l r)).
Proof.
  intros ((Nl & Nr) & Hl & Hr). cbn [UnionThm.ult UnionThm.urt] in Hl, Hr.
  pose proof (rep_link_node pfx R tr r Nr Hr) as Hr'. destruct (rep_kids pfx L Hl) as [Rll Rlr]. revert Rll Rlr.
  unfold Arena3.a_u_next_first_l, SetOps.u_next_first_l. cbv zeta.
  rewrite (node_rd pzero Nl Hl), (node_rd pzero Nr Hr). cbn [rbind npfx].
  destruct (tleft l) as [|lli llp llv lll llr], (tright l) as [|lri lrp lrv lrl lrr]; cbn [ArenaThm.link is_node]; intros Rll Rlr.
  - reflexivity.
  - exact (u_ni_sim Rlr Hr').
  - exact (u_ni_sim Rll Hr').
  - destruct (to_right _ _).
    + rewrite (u_ni_sim Rlr Hr'). cbn [rbind]. rewrite map_app. reflexivity.
    + rewrite (u_ni_sim Rll Hr'). reflexivity.
Qed.

Lemma u_first_r_sim (l : treeL) (r : treeR) : PU (UFirstR l r) ->
  a_u_first_r (tid l) (tid r) (linkR (tleft r)) (linkR (tright r)) = Ok (map uix (u_first_r l r)).
Proof.
  intros ((Nl & Nr) & Hl & Hr). cbn [UnionThm.ult UnionThm.urt] in Hl, Hr.
  pose proof (rep_link_node pfx L tl l Nl Hl) as Hl'. destruct (rep_kids pfx R Hr) as [Rrl Rrr]. revert Rrl Rrr.
  unfold Arena3.a_u_next_first_r, SetOps.u_next_first_r. cbv zeta.
  rewrite (node_rd pzero Nl Hl), (node_rd pzero Nr Hr). cbn [rbind npfx].
  destruct (tleft r) as [|rli rlp rlv rll rlr], (tright r) as [|rri rrp rrv rrl rrr]; cbn [ArenaThm.link is_node]; intros Rrl Rrr.
  - reflexivity.
  - exact (u_ni_sim Hl' Rrr).
  - exact (u_ni_sim Hl' Rrl).
  - destruct (to_right _ _).
    + rewrite (u_ni_sim Hl' Rrr). cbn [rbind]. rewrite map_app. reflexivity.
    + rewrite (u_ni_sim Hl' Rrl). reflexivity.
Qed.

Lemma u_ext_sim la ra xs : Forall PU xs -> a_u_ext la ra (map uix xs) = Ok (map uent (u_ext la ra xs)).
Proof.
  unfold Arena3.a_u_extend_lpm, SetOps.u_extend_lpm. rewrite map_map. apply rmap_sim.
  intros x (N & Hl & Hr).
  destruct x as [l r|l r|l r|l|r]; cbn [uix Arena3.a_u_ext1 UnionThm.nodes UnionThm.ult UnionThm.urt] in *.
  - rewrite (node_rd pzero (proj1 N) Hl), (node_rd pzero (proj2 N) Hr). cbn [rbind].
    rewrite !(pv_anode pzero). reflexivity.
  - rewrite (node_rd pzero (proj1 N) Hl). cbn [rbind]. rewrite (pv_anode pzero). reflexivity.
  - rewrite (node_rd pzero (proj2 N) Hr). cbn [rbind]. rewrite (pv_anode pzero). reflexivity.
  - rewrite (node_rd pzero N Hl). cbn [rbind]. rewrite (pv_anode pzero). reflexivity.
  - rewrite (node_rd pzero N Hr). cbn [rbind]. rewrite (pv_anode pzero). reflexivity.
Qed.

Lemma u_expand_sim e : PE e -> a_u_expand (uent e) = Ok (fst (u_expand e), map uent (snd (u_expand e))).
Proof.
  destruct e as [[x la] ra]. unfold PE, uent. cbn [fst snd UnionThm.eix]. intros Hx. pose proof Hx as (N & Hl & Hr).
  destruct (rep_kids pfx L Hl) as [Rll Rlr]. destruct (rep_kids pfx R Hr) as [Rrl Rrr].
  destruct x as [l r|l r|l r|l|r]; cbn [uix Arena3.a_u_expand SetOps.u_expand fst snd UnionThm.nodes UnionThm.ult UnionThm.urt] in *.
  - rewrite (node_rd pzero (proj1 N) Hl), (node_rd pzero (proj2 N) Hr). cbn [rbind nleft nright nval npfx].
    rewrite (u_ni_sim Rlr Rrr). cbn [rbind]. rewrite (u_ext_sim la ra _ (ni_PU Rlr Rrr)). cbn [rbind].
    rewrite (u_ni_sim Rll Rrl). cbn [rbind]. rewrite (u_ext_sim la ra _ (ni_PU Rll Rrl)). cbn [rbind].
    rewrite map_app. reflexivity.
  - rewrite (node_rd pzero (proj1 N) Hl). cbn [rbind nleft nright nval npfx].
    rewrite (u_first_l_sim l r Hx). cbn [rbind]. rewrite (u_ext_sim la ra (u_first_l l r) (kids_PU _ Hx)). reflexivity.
  - rewrite (node_rd pzero (proj2 N) Hr). cbn [rbind nleft nright nval npfx].
    rewrite (u_first_r_sim l r Hx). cbn [rbind]. rewrite (u_ext_sim la ra (u_first_r l r) (kids_PU _ Hx)). reflexivity.
  - rewrite (node_rd pzero N Hl). cbn [rbind nleft nright nval npfx]. unfold SetOps.u_only_l.
    assert (K : forall (c : treeL), repL (linkL c) c ->
              match linkL c with Some rgt => a_u_ext la ra [AUOnlyL rgt] | None => Ok [] end
              = Ok (map uent (u_ext la ra (if is_node c then [UOnlyL c] else [])))).
    { intros c Rc. destruct c as [|ci cp cv cl cr]; cbn [ArenaThm.link is_node]; [reflexivity|].
      apply (u_ext_sim la ra [UOnlyL (Node ci cp cv cl cr)]). repeat constructor. exact Rc. }
    rewrite (K _ Rlr). cbn [rbind]. rewrite (K _ Rll). cbn [rbind].
    unfold SetOps.u_extend_lpm. rewrite !map_app. reflexivity.
  - rewrite (node_rd pzero N Hr). cbn [rbind nleft nright nval npfx]. unfold SetOps.u_only_r.
    assert (K : forall (c : treeR), repR (linkR c) c ->
              match linkR c with Some rgt => a_u_ext la ra [AUOnlyR rgt] | None => Ok [] end
              = Ok (map uent (u_ext la ra (if is_node c then [UOnlyR c] else [])))).
    { intros c Rc. destruct c as [|ci cp cv cl cr]; cbn [ArenaThm.link is_node]; [reflexivity|].
      apply (u_ext_sim la ra [UOnlyR (Node ci cp cv cl cr)]). repeat constructor. exact Rc. }
    rewrite (K _ Rrr). cbn [rbind]. rewrite (K _ Rrl). cbn [rbind].
    unfold SetOps.u_extend_lpm. rewrite !map_app. reflexivity.
Qed.

Lemma u_expand_inv e : PE e -> Forall PE (snd (u_expand e)).
Proof.
  destruct e as [[x la] ra]. intros Hx. rewrite UnionThm.u_expand_snd. apply UnionThm.extend_forall, kids_PU, Hx.
Qed.

Lemma um_expand_sim x : PU x -> a_um_expand (uix x) = Ok (fst (um_expand x), map uix (snd (um_expand x))).
Proof.
  intros Hx. pose proof Hx as (N & Hl & Hr).
  destruct (rep_kids pfx L Hl) as [Rll Rlr]. destruct (rep_kids pfx R Hr) as [Rrl Rrr].
  destruct x as [l r|l r|l r|l|r]; cbn [uix Arena3.a_um_expand SetOps.um_expand fst snd UnionThm.nodes UnionThm.ult UnionThm.urt] in *.
  - rewrite !(node_rd pzero (proj1 N) Hl), !(node_rd pzero (proj2 N) Hr). cbn [rbind nleft nright].
    rewrite (u_ni_sim Rlr Rrr). cbn [rbind]. rewrite (u_ni_sim Rll Rrl). cbn [rbind nval npfx].
    rewrite !(aidval_tid pzero), map_app. reflexivity.
  - rewrite !(node_rd pzero (proj1 N) Hl). cbn [rbind nleft nright].
    rewrite (u_first_l_sim l r Hx). cbn [rbind nval npfx]. rewrite (aidval_tid pzero). reflexivity.
  - rewrite !(node_rd pzero (proj2 N) Hr). cbn [rbind nleft nright].
    rewrite (u_first_r_sim l r Hx). cbn [rbind nval npfx]. rewrite (aidval_tid pzero). reflexivity.
  - rewrite (node_rd pzero N Hl). cbn [rbind nleft nright nval npfx].
    rewrite (aidval_tid pzero). unfold SetOps.u_only_l.
    destruct (tright l) as [|lri lrp lrv lrl lrr], (tleft l) as [|lli llp llv lll llr]; reflexivity.
  - rewrite (node_rd pzero N Hr). cbn [rbind nleft nright nval npfx].
    rewrite (aidval_tid pzero). unfold SetOps.u_only_r.
    destruct (tright r) as [|rri rrp rrv rrl rrr], (tleft r) as [|rli rlp rlv rll rlr]; reflexivity.
Qed.

Lemma um_expand_inv x : PU x -> Forall PU (snd (um_expand x)).
Proof. rewrite UnionThm.um_expand_snd. apply kids_PU. Qed.

(** an index of a pruned machine ([InterDiffThm.gi], [InterDiffThm.gd]) has the invariant when a union index with
    the invariant is mapped to it *)
Definition img {X} (g : uidx -> option X) (y : X) : Prop := exists x, g x = Some y /\ PU x.

Lemma pick_img {X} (g : uidx -> option X) xs : Forall PU xs -> Forall (img g) (pick g xs).
Proof.
  intros F. apply Forall_forall. intros y Hy. apply in_pick in Hy. destruct Hy as (x & Hin & G).
  exists x. split; [exact G|exact (proj1 (Forall_forall _ _) F x Hin)].
Qed.

Theorem union_sim (ta : treeL) (tb : treeR) il ir fuel :
  repL (Some il) ta -> repR (Some ir) tb -> (tsize ta + tsize tb < fuel)%nat ->
  exists out, union ta tb = Some out /\ a_union_fuel fuel tl tr il ir = Ok out.
Proof.
  intros Ha Hb Hf. pose proof (ni_PU Ha Hb) as F.
  unfold Arena3.a_union_fuel, SetOps.union. rewrite (u_ni_sim Ha Hb). cbn [rbind]. rewrite (u_ext_sim None None _ F). cbn [rbind].
  rewrite <- map_rev.
  (* the last goal, here and in the seven theorems below, is [SetOps.so_fuel ta tb <= fuel], i.e. [Hf]
     with [so_fuel] and [<] unfolded *)
  apply (rrun_compose a_u_expand u_expand uent PE);
    [exact u_expand_sim | exact u_expand_inv | exact (UnionThm.extend_forall pfx L R PU None None _ F)
    | exact (UnionThm.union_total pfx L R contains is_bit_set plen pzero mcmp ta tb) | exact Hf].
Qed.

Theorem union_mut_sim (ta : treeL) (tb : treeR) il ir fuel :
  repL (Some il) ta -> repR (Some ir) tb -> (tsize ta + tsize tb < fuel)%nat ->
  exists out, union_mut ta tb = Some out /\ a_union_mut_fuel fuel tl tr il ir = Ok out.
Proof.
  intros Ha Hb Hf.
  unfold Arena3.a_union_mut_fuel, SetOps.union_mut. rewrite (u_ni_sim Ha Hb). cbn [rbind]. rewrite <- map_rev.
  apply (rrun_compose a_um_expand um_expand uix PU);
    [exact um_expand_sim | exact um_expand_inv | exact (ni_PU Ha Hb)
    | exact (UnionThm.union_mut_total pfx L R contains is_bit_set plen pzero mcmp ta tb) | exact Hf].
Qed.

Notation iidx := (SetOps.iidx pfx L R).
Notation i_ni := (SetOps.i_next_indices pfx L R contains plen pzero mcmp).
Notation i_first_a := (SetOps.i_next_first_a pfx L R contains is_bit_set plen pzero mcmp).
Notation i_first_b := (SetOps.i_next_first_b pfx L R contains is_bit_set plen pzero mcmp).
Notation i_expand := (SetOps.i_expand pfx L R contains is_bit_set plen pzero mcmp).
Notation im_expand := (SetOps.im_expand pfx L R contains is_bit_set plen pzero mcmp).
Notation intersection := (SetOps.intersection pfx L R contains is_bit_set plen pzero mcmp).
Notation intersection_mut := (SetOps.intersection_mut pfx L R contains is_bit_set plen pzero mcmp).
Notation a_i_ni := (Arena3.a_i_next_indices pfx L R contains plen mcmp tl tr).
Notation a_i_first_a := (Arena3.a_i_next_first_a pfx L R contains is_bit_set plen mcmp tl tr).
Notation a_i_first_b := (Arena3.a_i_next_first_b pfx L R contains is_bit_set plen mcmp tl tr).
Notation a_i_expand := (Arena3.a_i_expand pfx L R contains is_bit_set plen mcmp tl tr).
Notation a_im_expand := (Arena3.a_im_expand pfx L R contains is_bit_set plen mcmp tl tr).
Notation a_intersection_fuel := (Arena3.a_intersection_fuel pfx L R contains is_bit_set plen mcmp).
Notation a_intersection_mut_fuel := (Arena3.a_intersection_mut_fuel pfx L R contains is_bit_set plen mcmp).
#[local] Arguments IxBoth {pfx L R}.
#[local] Arguments IxFirstA {pfx L R}.
#[local] Arguments IxFirstB {pfx L R}.

Definition iix (x : iidx) : aiidx :=
  match x with
  | IxBoth l r => AIBoth (tid l) (tid r)
  | IxFirstA l r => AIFirstA (tid l) (tid r)
  | IxFirstB l r => AIFirstB (tid l) (tid r)
  end.
Notation gi := (InterDiffThm.gi pfx L R).
Notation PI := (img gi).

Lemma i_ni_sim {oa ob} {a : treeL} {b : treeR} : repL oa a -> repR ob b -> a_i_ni oa ob = Ok (map iix (i_ni a b)).
Proof.
  intros [|ia pa va la ra ola ora Sa _ _] [|ib pb vb lb rb olb orb Sb _ _]; try reflexivity.
  unfold Arena3.a_i_next_indices, SetOps.i_next_indices.
  rewrite (ArenaThm.rd_ok pfx L _ _ _ Sa), (ArenaThm.rd_ok pfx R _ _ _ Sb). cbn [rbind npfx Trie.tpfx is_node].
  destruct (plen pa =? plen pb)%N; [destruct (mcmp pa pb)|
    destruct (contains pa pb); [|destruct (contains pb pa)]]; reflexivity.
Qed.

Lemma ni_PI {oa ob} {a : treeL} {b : treeR} : repL oa a -> repR ob b -> Forall PI (i_ni a b).
Proof. intros Ha Hb. rewrite InterDiffThm.i_next_prune. exact (pick_img gi _ (ni_PU Ha Hb)). Qed.

Lemma i_first_a_sim (l : treeL) (r : treeR) : PU (UFirstL l r) ->
  a_i_first_a (tid l) (linkL (tleft l)) (linkL (tright l)) (tid r) = Ok (map iix (i_first_a l r)).
Proof.
  intros ((Nl & Nr) & Hl & Hr). cbn [UnionThm.ult UnionThm.urt] in Hl, Hr.
  pose proof (rep_link_node pfx R tr r Nr Hr) as Hr'. destruct (rep_kids pfx L Hl) as [Rll Rlr]. revert Rll Rlr.
  unfold Arena3.a_i_next_first_a, SetOps.i_next_first_a. cbv zeta.
  rewrite (node_rd pzero Nl Hl), (node_rd pzero Nr Hr). cbn [rbind npfx].
  destruct (tleft l) as [|lli llp llv lll llr], (tright l) as [|lri lrp lrv lrl lrr]; cbn [ArenaThm.link is_node]; intros Rll Rlr.
  - reflexivity.
  - exact (i_ni_sim Rlr Hr').
  - exact (i_ni_sim Rll Hr').
  - destruct (to_right _ _); [exact (i_ni_sim Rlr Hr')|exact (i_ni_sim Rll Hr')].
Qed.

Lemma i_first_b_sim (l : treeL) (r : treeR) : PU (UFirstR l r) ->
  a_i_first_b (tid l) (tid r) (linkR (tleft r)) (linkR (tright r)) = Ok (map iix (i_first_b l r)).
Proof.
  intros ((Nl & Nr) & Hl & Hr). cbn [UnionThm.ult UnionThm.urt] in Hl, Hr.
  pose proof (rep_link_node pfx L tl l Nl Hl) as Hl'. destruct (rep_kids pfx R Hr) as [Rrl Rrr]. revert Rrl Rrr.
  unfold Arena3.a_i_next_first_b, SetOps.i_next_first_b. cbv zeta.
  rewrite (node_rd pzero Nl Hl), (node_rd pzero Nr Hr). cbn [rbind npfx].
  destruct (tleft r) as [|rli rlp rlv rll rlr], (tright r) as [|rri rrp rrv rrl rrr]; cbn [ArenaThm.link is_node]; intros Rrl Rrr.
  - reflexivity.
  - exact (i_ni_sim Hl' Rrr).
  - exact (i_ni_sim Hl' Rrl).
  - destruct (to_right _ _); [exact (i_ni_sim Hl' Rrr)|exact (i_ni_sim Hl' Rrl)].
Qed.

(** the parts of [i_expand] / [im_expand] that differ are the emitted items only *)
Lemma i_expand_gen y : PI y ->
  a_i_expand (iix y) = Ok (fst (i_expand y), map iix (snd (i_expand y))) /\
  a_im_expand (iix y) = Ok (fst (im_expand y), map iix (snd (im_expand y))).
Proof.
  intros (x & G & Hx). rewrite <- (proj2 (InterDiffThm.im_sim pfx L R contains is_bit_set plen pzero mcmp y)).
  pose proof Hx as (N & Hl & Hr). destruct (rep_kids pfx L Hl) as [Rll Rlr]. destruct (rep_kids pfx R Hr) as [Rrl Rrr].
  destruct x as [l r|l r|l r|l|r]; try discriminate G; injection G as <-;
    cbn [iix Arena3.a_i_expand Arena3.a_im_expand SetOps.i_expand SetOps.im_expand fst snd UnionThm.nodes UnionThm.ult UnionThm.urt] in *.
  - rewrite !(node_rd pzero (proj1 N) Hl), !(node_rd pzero (proj2 N) Hr). cbn [rbind nleft nright].
    rewrite (i_ni_sim Rlr Rrr). cbn [rbind]. rewrite (i_ni_sim Rll Rrl). cbn [rbind nval npfx].
    rewrite !(aidval_tid pzero), map_app. auto.
  - rewrite (node_rd pzero (proj1 N) Hl). cbn [rbind nleft nright]. rewrite (i_first_a_sim l r Hx). auto.
  - rewrite (node_rd pzero (proj2 N) Hr). cbn [rbind nleft nright]. rewrite (i_first_b_sim l r Hx). auto.
Qed.

Lemma i_expand_inv y : PI y -> Forall PI (snd (i_expand y)) /\ Forall PI (snd (im_expand y)).
Proof.
  intros (x & G & Hx). rewrite <- (proj2 (InterDiffThm.im_sim pfx L R contains is_bit_set plen pzero mcmp y)).
  rewrite (InterDiffThm.i_kids_prune pfx L R contains is_bit_set plen pzero mcmp x y G). split; exact (pick_img gi _ (kids_PU x Hx)).
Qed.

Theorem intersection_sim (ta : treeL) (tb : treeR) il ir fuel :
  repL (Some il) ta -> repR (Some ir) tb -> (tsize ta + tsize tb < fuel)%nat ->
  exists out, intersection ta tb = Some out /\ a_intersection_fuel fuel tl tr il ir = Ok out.
Proof.
  intros Ha Hb Hf.
  unfold Arena3.a_intersection_fuel, SetOps.intersection. rewrite (i_ni_sim Ha Hb). cbn [rbind]. rewrite <- map_rev.
  apply (rrun_compose a_i_expand i_expand iix PI);
    [exact (fun y Hy => proj1 (i_expand_gen y Hy)) | exact (fun y Hy => proj1 (i_expand_inv y Hy)) | exact (ni_PI Ha Hb)
    | exact (InterDiffThm.intersection_total pfx L R contains is_bit_set plen pzero mcmp ta tb) | exact Hf].
Qed.

Theorem intersection_mut_sim (ta : treeL) (tb : treeR) il ir fuel :
  repL (Some il) ta -> repR (Some ir) tb -> (tsize ta + tsize tb < fuel)%nat ->
  exists out, intersection_mut ta tb = Some out /\ a_intersection_mut_fuel fuel tl tr il ir = Ok out.
Proof.
  intros Ha Hb Hf.
  unfold Arena3.a_intersection_mut_fuel, SetOps.intersection_mut. rewrite (i_ni_sim Ha Hb). cbn [rbind]. rewrite <- map_rev.
  apply (rrun_compose a_im_expand im_expand iix PI);
    [exact (fun y Hy => proj2 (i_expand_gen y Hy)) | exact (fun y Hy => proj2 (i_expand_inv y Hy)) | exact (ni_PI Ha Hb)
    | exact (InterDiffThm.intersection_mut_total pfx L R contains is_bit_set plen pzero mcmp ta tb) | exact Hf].
Qed.

Notation didx := (SetOps.didx pfx L R).
Notation d_ni := (SetOps.d_next_indices pfx L R contains plen pzero mcmp).
Notation d_first_a := (SetOps.d_next_first_a pfx L R contains is_bit_set plen pzero mcmp).
Notation d_first_b := (SetOps.d_next_first_b pfx L R contains is_bit_set plen pzero mcmp).
Notation d_only_l := (SetOps.d_only_l pfx L R).
Notation d_ext := (SetOps.d_extend_lpm pfx L R).
Notation d_expand := (SetOps.d_expand pfx L R contains is_bit_set plen pzero mcmp).
Notation dm_expand := (SetOps.dm_expand pfx L R contains is_bit_set plen pzero mcmp).
Notation cd_expand := (SetOps.cd_expand pfx L R contains is_bit_set plen pzero mcmp).
Notation cdm_expand := (SetOps.cdm_expand pfx L R contains is_bit_set plen pzero mcmp).
Notation difference := (SetOps.difference pfx L R contains is_bit_set plen pzero mcmp).
Notation difference_mut := (SetOps.difference_mut pfx L R contains is_bit_set plen pzero mcmp).
Notation covering_difference := (SetOps.covering_difference pfx L R contains is_bit_set plen pzero mcmp).
Notation covering_difference_mut := (SetOps.covering_difference_mut pfx L R contains is_bit_set plen pzero mcmp).
Notation a_d_ni := (Arena3.a_d_next_indices pfx L R contains plen mcmp tl tr).
Notation a_d_first_a := (Arena3.a_d_next_first_a pfx L R contains is_bit_set plen mcmp tl tr).
Notation a_d_first_b := (Arena3.a_d_next_first_b pfx L R contains is_bit_set plen mcmp tl tr).
Notation a_d_ext := (Arena3.a_d_extend_lpm pfx R tr).
Notation a_d_only_l := (Arena3.a_d_only_l pfx L).
Notation a_d_expand := (Arena3.a_d_expand pfx L R contains is_bit_set plen mcmp tl tr).
Notation a_dm_expand := (Arena3.a_dm_expand pfx L R contains is_bit_set plen mcmp tl tr).
Notation a_cd_expand := (Arena3.a_cd_expand pfx L R contains is_bit_set plen mcmp tl tr).
Notation a_cdm_expand := (Arena3.a_cdm_expand pfx L R contains is_bit_set plen mcmp tl tr).
Notation a_difference_fuel := (Arena3.a_difference_fuel pfx L R contains is_bit_set plen mcmp).
Notation a_difference_mut_fuel := (Arena3.a_difference_mut_fuel pfx L R contains is_bit_set plen mcmp).
Notation a_covering_difference_fuel := (Arena3.a_covering_difference_fuel pfx L R contains is_bit_set plen mcmp).
Notation a_covering_difference_mut_fuel := (Arena3.a_covering_difference_mut_fuel pfx L R contains is_bit_set plen mcmp).
#[local] Arguments DBoth {pfx L R}.
#[local] Arguments DFirstL {pfx L R}.
#[local] Arguments DFirstR {pfx L R}.
#[local] Arguments DOnlyL {pfx L R}.

Definition dix (x : didx) : adidx :=
  match x with
  | DBoth l r => ADBoth (tid l) (tid r)
  | DFirstL l r => ADFirstL (tid l) (tid r)
  | DFirstR l r => ADFirstR (tid l) (tid r)
  | DOnlyL l => ADOnlyL (tid l)
  end.
Definition dent (e : didx * lpmR) : adidx * lpmR := (dix (fst e), snd e).
Notation gd := (InterDiffThm.gd pfx L R).
Notation PD := (img gd).
Definition PDE (e : didx * lpmR) : Prop := PD (fst e).
Notation dkids := (InterDiffThm.dchildren pfx L R contains is_bit_set plen pzero mcmp).

Lemma d_ni_sim {oa ob} {a : treeL} {b : treeR} : repL oa a -> repR ob b -> a_d_ni oa ob = Ok (map dix (d_ni a b)).
Proof.
  intros [|ia pa va la ra ola ora Sa _ _] [|ib pb vb lb rb olb orb Sb _ _]; try reflexivity.
  unfold Arena3.a_d_next_indices, SetOps.d_next_indices.
  rewrite (ArenaThm.rd_ok pfx L _ _ _ Sa), (ArenaThm.rd_ok pfx R _ _ _ Sb). cbn [rbind npfx Trie.tpfx is_node].
  destruct (plen pa =? plen pb)%N; [destruct (mcmp pa pb)|
    destruct (contains pa pb); [|destruct (contains pb pa)]]; reflexivity.
Qed.

Lemma ni_PD {oa ob} {a : treeL} {b : treeR} : repL oa a -> repR ob b -> Forall PD (d_ni a b).
Proof. intros Ha Hb. rewrite InterDiffThm.d_next_prune. exact (pick_img gd _ (ni_PU Ha Hb)). Qed.

Lemma dkids_PD y : PD y -> Forall PD (dkids y).
Proof.
  intros (x & G & Hx). rewrite (InterDiffThm.d_kids_prune pfx L R contains is_bit_set plen pzero mcmp x y G).
  exact (pick_img gd _ (kids_PU x Hx)).
Qed.

Lemma d_ext_PD ra xs : Forall PD xs -> Forall PDE (d_ext ra xs).
Proof. intros F. rewrite InterDiffThm.d_ext_eq. apply Forall_map. exact F. Qed.

Lemma d_first_a_sim (l : treeL) (r : treeR) : PU (UFirstL l r) ->
  a_d_first_a (tid l) (linkL (tleft l)) (linkL (tright l)) (tid r) = Ok (map dix (d_first_a l r)).
Proof.
  intros ((Nl & Nr) & Hl & Hr). cbn [UnionThm.ult UnionThm.urt] in Hl, Hr.
  pose proof (rep_link_node pfx R tr r Nr Hr) as Hr'. destruct (rep_kids pfx L Hl) as [Rll Rlr]. revert Rll Rlr.
  unfold Arena3.a_d_next_first_a, SetOps.d_next_first_a. cbv zeta.
  rewrite (node_rd pzero Nl Hl), (node_rd pzero Nr Hr). cbn [rbind npfx].
  destruct (tleft l) as [|lli llp llv lll llr], (tright l) as [|lri lrp lrv lrl lrr]; cbn [ArenaThm.link is_node]; intros Rll Rlr.
  - reflexivity.
  - exact (d_ni_sim Rlr Hr').
  - exact (d_ni_sim Rll Hr').
  - destruct (to_right _ _).
    + rewrite (d_ni_sim Rlr Hr'). cbn [rbind]. rewrite map_app. reflexivity.
    + rewrite (d_ni_sim Rll Hr'). reflexivity.
Qed.

Lemma d_first_b_sim (l : treeL) (r : treeR) : PU (UFirstR l r) ->
  a_d_first_b (tid l) (tid r) (linkR (tleft r)) (linkR (tright r)) = Ok (map dix (d_first_b l r)).
Proof.
  intros ((Nl & Nr) & Hl & Hr). cbn [UnionThm.ult UnionThm.urt] in Hl, Hr.
  pose proof (rep_link_node pfx L tl l Nl Hl) as Hl'. destruct (rep_kids pfx R Hr) as [Rrl Rrr]. revert Rrl Rrr.
  unfold Arena3.a_d_next_first_b, SetOps.d_next_first_b. cbv zeta.
  rewrite (node_rd pzero Nl Hl), (node_rd pzero Nr Hr). cbn [rbind npfx].
  destruct (tleft r) as [|rli rlp rlv rll rlr], (tright r) as [|rri rrp rrv rrl rrr]; cbn [ArenaThm.link is_node]; intros Rrl Rrr.
  - reflexivity.
  - exact (d_ni_sim Hl' Rrr).
  - exact (d_ni_sim Hl' Rrl).
  - destruct (to_right _ _); [exact (d_ni_sim Hl' Rrr)|exact (d_ni_sim Hl' Rrl)].
Qed.

Lemma d_only_sim p v (l : treeL) :
  a_d_only_l (mkanode p v (linkL (tleft l)) (linkL (tright l))) = map dix (d_only_l l).
Proof.
  unfold Arena3.a_d_only_l, SetOps.d_only_l. cbn [nleft nright].
  destruct (tright l) as [|lri lrp lrv lrl lrr], (tleft l) as [|lli llp llv lll llr]; reflexivity.
Qed.

Lemma d_ext_sim ra xs : Forall PD xs -> a_d_ext ra (map dix xs) = Ok (map dent (d_ext ra xs)).
Proof.
  unfold Arena3.a_d_extend_lpm, SetOps.d_extend_lpm. rewrite map_map. apply rmap_sim.
  intros y (x & G & N & _ & Hr).
  destruct x as [l r|l r|l r|l|r]; try discriminate G; injection G as <-;
    cbn [dix Arena3.a_d_ext1 UnionThm.nodes UnionThm.urt] in *.
  - rewrite (node_rd pzero (proj2 N) Hr). cbn [rbind]. rewrite (pv_anode pzero). reflexivity.
  - reflexivity.
  - rewrite (node_rd pzero (proj2 N) Hr). cbn [rbind]. rewrite (pv_anode pzero). reflexivity.
  - reflexivity.
Qed.

(** the parts of [d_expand] / [dm_expand] that differ are the emitted items only *)
Lemma d_expand_gen (e : didx * lpmR) : PDE e ->
  a_d_expand (dent e) = Ok (fst (d_expand e), map dent (snd (d_expand e))) /\
  a_dm_expand (dent e) = Ok (fst (dm_expand e), map dent (snd (dm_expand e))).
Proof.
  destruct e as [y ra]. unfold PDE, dent. cbn [fst snd]. intros Hy.
  rewrite <- (proj2 (InterDiffThm.dm_sim pfx L R contains is_bit_set plen pzero mcmp (y, ra))), InterDiffThm.d_expand_children.
  pose proof (d_ext_sim ra _ (dkids_PD y Hy)) as EX. destruct Hy as (x & G & Hx). pose proof Hx as (N & Hl & Hr).
  destruct (rep_kids pfx L Hl) as [Rll Rlr]. destruct (rep_kids pfx R Hr) as [Rrl Rrr].
  destruct x as [l r|l r|l r|l|r]; try discriminate G; injection G as <-;
    cbn [dix Arena3.a_d_expand Arena3.a_dm_expand SetOps.d_expand SetOps.dm_expand fst InterDiffThm.dchildren
         UnionThm.nodes UnionThm.ult UnionThm.urt] in *.
  - rewrite !(node_rd pzero (proj1 N) Hl), !(node_rd pzero (proj2 N) Hr). cbn [rbind nleft nright nval npfx].
    rewrite (d_ni_sim Rlr Rrr). cbn [rbind]. rewrite (d_ext_sim ra _ (ni_PD Rlr Rrr)). cbn [rbind].
    rewrite (d_ni_sim Rll Rrl). cbn [rbind]. rewrite (d_ext_sim ra _ (ni_PD Rll Rrl)). cbn [rbind].
    rewrite (aidval_tid pzero). unfold SetOps.d_extend_lpm. rewrite !map_app. auto.
  - rewrite !(node_rd pzero (proj1 N) Hl). cbn [rbind nleft nright nval npfx].
    rewrite (d_first_a_sim l r Hx). cbn [rbind]. rewrite EX. cbn [rbind]. rewrite (aidval_tid pzero). auto.
  - rewrite (node_rd pzero (proj2 N) Hr). cbn [rbind nleft nright nval npfx].
    rewrite (d_first_b_sim l r Hx). cbn [rbind]. rewrite EX. auto.
  - rewrite !(node_rd pzero N Hl). cbn [rbind nleft nright nval npfx].
    rewrite (d_only_sim _ _ l), EX. cbn [rbind]. rewrite (aidval_tid pzero). auto.
Qed.

Lemma d_expand_inv e : PDE e -> Forall PDE (snd (d_expand e)) /\ Forall PDE (snd (dm_expand e)).
Proof.
  destruct e as [y ra]. intros Hy.
  rewrite <- (proj2 (InterDiffThm.dm_sim pfx L R contains is_bit_set plen pzero mcmp (y, ra))), InterDiffThm.d_expand_children.
  split; exact (d_ext_PD ra _ (dkids_PD y Hy)).
Qed.

Lemma cd_expand_gen y : PD y ->
  a_cd_expand (dix y) = Ok (fst (cd_expand y), map dix (snd (cd_expand y))) /\
  a_cdm_expand (dix y) = Ok (fst (cdm_expand y), map dix (snd (cdm_expand y))).
Proof.
  intros (x & G & Hx). rewrite <- (proj2 (InterDiffThm.cdm_sim pfx L R contains is_bit_set plen pzero mcmp y)).
  pose proof Hx as (N & Hl & Hr). destruct (rep_kids pfx L Hl) as [Rll Rlr]. destruct (rep_kids pfx R Hr) as [Rrl Rrr].
  destruct x as [l r|l r|l r|l|r]; try discriminate G; injection G as <-;
    cbn [dix Arena3.a_cd_expand Arena3.a_cdm_expand SetOps.cd_expand SetOps.cdm_expand UnionThm.nodes UnionThm.ult UnionThm.urt] in *.
  - rewrite !(node_rd pzero (proj1 N) Hl), !(node_rd pzero (proj2 N) Hr). cbn [rbind nleft nright nval npfx].
    destruct (is_some (tval r)); cbn [fst snd map]; [auto|].
    rewrite (d_ni_sim Rlr Rrr). cbn [rbind]. rewrite (d_ni_sim Rll Rrl). cbn [rbind]. rewrite map_app, (aidval_tid pzero). auto.
  - rewrite !(node_rd pzero (proj1 N) Hl). cbn [rbind nleft nright nval npfx fst snd].
    rewrite (d_first_a_sim l r Hx). cbn [rbind]. rewrite (aidval_tid pzero). auto.
  - rewrite !(node_rd pzero (proj2 N) Hr). cbn [rbind nleft nright nval npfx].
    destruct (is_some (tval r)); cbn [fst snd map]; [auto|].
    rewrite (d_first_b_sim l r Hx). cbn [rbind]. auto.
  - rewrite !(node_rd pzero N Hl). cbn [rbind nleft nright nval npfx fst snd].
    rewrite (d_only_sim _ _ l), (aidval_tid pzero). auto.
Qed.

Lemma cd_expand_inv y : PD y -> Forall PD (snd (cd_expand y)) /\ Forall PD (snd (cdm_expand y)).
Proof.
  intros Hy. rewrite <- (proj2 (InterDiffThm.cdm_sim pfx L R contains is_bit_set plen pzero mcmp y)).
  destruct (cd_expand y) as [o cs] eqn:E.
  destruct (InterDiffThm.cd_children pfx L R contains is_bit_set plen pzero mcmp y o cs E) as [-> | ->];
    [split; exact (dkids_PD y Hy)|split; constructor].
Qed.

Theorem difference_sim (ta : treeL) (tb : treeR) il ir fuel :
  repL (Some il) ta -> repR (Some ir) tb -> (tsize ta + tsize tb < fuel)%nat ->
  exists out, difference ta tb = Some out /\ a_difference_fuel fuel tl tr il ir = Ok out.
Proof.
  intros Ha Hb Hf. pose proof (ni_PD Ha Hb) as F.
  unfold Arena3.a_difference_fuel, SetOps.difference. rewrite (d_ni_sim Ha Hb). cbn [rbind]. rewrite (d_ext_sim None _ F). cbn [rbind].
  rewrite <- map_rev.
  apply (rrun_compose a_d_expand d_expand dent PDE);
    [exact (fun e He => proj1 (d_expand_gen e He)) | exact (fun e He => proj1 (d_expand_inv e He)) | exact (d_ext_PD None _ F)
    | exact (InterDiffThm.difference_total pfx L R contains is_bit_set plen pzero mcmp ta tb) | exact Hf].
Qed.

Theorem difference_mut_sim (ta : treeL) (tb : treeR) il ir fuel :
  repL (Some il) ta -> repR (Some ir) tb -> (tsize ta + tsize tb < fuel)%nat ->
  exists out, difference_mut ta tb = Some out /\ a_difference_mut_fuel fuel tl tr il ir = Ok out.
Proof.
  intros Ha Hb Hf. pose proof (ni_PD Ha Hb) as F.
  unfold Arena3.a_difference_mut_fuel, SetOps.difference_mut. rewrite (d_ni_sim Ha Hb). cbn [rbind]. rewrite (d_ext_sim None _ F). cbn [rbind].
  rewrite <- map_rev.
  apply (rrun_compose a_dm_expand dm_expand dent PDE);
    [exact (fun e He => proj2 (d_expand_gen e He)) | exact (fun e He => proj2 (d_expand_inv e He)) | exact (d_ext_PD None _ F)
    | exact (InterDiffThm.difference_mut_total pfx L R contains is_bit_set plen pzero mcmp ta tb) | exact Hf].
Qed.

Theorem covering_difference_sim (ta : treeL) (tb : treeR) il ir fuel :
  repL (Some il) ta -> repR (Some ir) tb -> (tsize ta + tsize tb < fuel)%nat ->
  exists out, covering_difference ta tb = Some out /\ a_covering_difference_fuel fuel tl tr il ir = Ok out.
Proof.
  intros Ha Hb Hf.
  unfold Arena3.a_covering_difference_fuel, SetOps.covering_difference. rewrite (d_ni_sim Ha Hb). cbn [rbind]. rewrite <- map_rev.
  apply (rrun_compose a_cd_expand cd_expand dix PD);
    [exact (fun y Hy => proj1 (cd_expand_gen y Hy)) | exact (fun y Hy => proj1 (cd_expand_inv y Hy)) | exact (ni_PD Ha Hb)
    | exact (InterDiffThm.covering_difference_total pfx L R contains is_bit_set plen pzero mcmp ta tb) | exact Hf].
Qed.

Theorem covering_difference_mut_sim (ta : treeL) (tb : treeR) il ir fuel :
  repL (Some il) ta -> repR (Some ir) tb -> (tsize ta + tsize tb < fuel)%nat ->
  exists out, covering_difference_mut ta tb = Some out /\ a_covering_difference_mut_fuel fuel tl tr il ir = Ok out.
Proof.
  intros Ha Hb Hf.
  unfold Arena3.a_covering_difference_mut_fuel, SetOps.covering_difference_mut. rewrite (d_ni_sim Ha Hb). cbn [rbind]. rewrite <- map_rev.
  apply (rrun_compose a_cdm_expand cdm_expand dix PD);
    [exact (fun y Hy => proj2 (cd_expand_gen y Hy)) | exact (fun y Hy => proj2 (cd_expand_inv y Hy)) | exact (ni_PD Ha Hb)
    | exact (InterDiffThm.covering_difference_mut_total pfx L R contains is_bit_set plen pzero mcmp ta tb) | exact Hf].
Qed.

End A3ST.

Section Reach2.
Variables (pfx L R : Type).
Variables (peq contains : pfx -> pfx -> bool) (is_bit_set : pfx -> N -> bool)
          (plen : pfx -> N) (lcp : pfx -> pfx -> pfx) (pzero : pfx) (mcmp : pfx -> pfx -> comparison).

Notation a_union := (Arena3.a_union pfx L R contains is_bit_set plen mcmp).
Notation a_union_mut := (Arena3.a_union_mut pfx L R contains is_bit_set plen mcmp).
Notation a_intersection := (Arena3.a_intersection pfx L R contains is_bit_set plen mcmp).
Notation a_intersection_mut := (Arena3.a_intersection_mut pfx L R contains is_bit_set plen mcmp).
Notation a_difference := (Arena3.a_difference pfx L R contains is_bit_set plen mcmp).
Notation a_difference_mut := (Arena3.a_difference_mut pfx L R contains is_bit_set plen mcmp).
Notation a_covering_difference := (Arena3.a_covering_difference pfx L R contains is_bit_set plen mcmp).
Notation a_covering_difference_mut := (Arena3.a_covering_difference_mut pfx L R contains is_bit_set plen mcmp).
Notation union := (SetOps.union pfx L R contains is_bit_set plen pzero mcmp).
Notation union_mut := (SetOps.union_mut pfx L R contains is_bit_set plen pzero mcmp).
Notation intersection := (SetOps.intersection pfx L R contains is_bit_set plen pzero mcmp).
Notation intersection_mut := (SetOps.intersection_mut pfx L R contains is_bit_set plen pzero mcmp).
Notation difference := (SetOps.difference pfx L R contains is_bit_set plen pzero mcmp).
Notation difference_mut := (SetOps.difference_mut pfx L R contains is_bit_set plen pzero mcmp).
Notation covering_difference := (SetOps.covering_difference pfx L R contains is_bit_set plen pzero mcmp).
Notation covering_difference_mut := (SetOps.covering_difference_mut pfx L R contains is_bit_set plen pzero mcmp).

(** each of the eight iterators, run on two tables at the slots [il], [ir] with the default fuel
    [S (length tl + length tr)], returns what the model's iterator returns on [ta], [tb] *)
Definition setops_agree (tl : list (Arena.anode pfx L)) (tr : list (Arena.anode pfx R))
           (ta : Trie.tree pfx L) (tb : Trie.tree pfx R) (il ir : N) : Prop :=
  (exists out, union ta tb = Some out /\ a_union tl tr il ir = Ok out) /\
  (exists out, union_mut ta tb = Some out /\ a_union_mut tl tr il ir = Ok out) /\
  (exists out, intersection ta tb = Some out /\ a_intersection tl tr il ir = Ok out) /\
  (exists out, intersection_mut ta tb = Some out /\ a_intersection_mut tl tr il ir = Ok out) /\
  (exists out, difference ta tb = Some out /\ a_difference tl tr il ir = Ok out) /\
  (exists out, difference_mut ta tb = Some out /\ a_difference_mut tl tr il ir = Ok out) /\
  (exists out, covering_difference ta tb = Some out /\ a_covering_difference tl tr il ir = Ok out) /\
  (exists out, covering_difference_mut ta tb = Some out /\ a_covering_difference_mut tl tr il ir = Ok out).

Theorem setops_sim (tl : list (Arena.anode pfx L)) (tr : list (Arena.anode pfx R))
        (ta : Trie.tree pfx L) (tb : Trie.tree pfx R) il ir :
  ArenaThm.rep pfx L tl (Some il) ta -> ArenaThm.rep pfx R tr (Some ir) tb ->
  (tsize ta <= length tl)%nat -> (tsize tb <= length tr)%nat -> setops_agree tl tr ta tb il ir.
Proof.
  intros Ha Hb Sa Sb.
  assert (Hf : (tsize ta + tsize tb < S (length tl + length tr))%nat) by lia.
  split; [exact (union_sim pfx L R contains is_bit_set plen pzero mcmp tl tr ta tb il ir _ Ha Hb Hf)|].
  split; [exact (union_mut_sim pfx L R contains is_bit_set plen pzero mcmp tl tr ta tb il ir _ Ha Hb Hf)|].
  split; [exact (intersection_sim pfx L R contains is_bit_set plen pzero mcmp tl tr ta tb il ir _ Ha Hb Hf)|].
  split; [exact (intersection_mut_sim pfx L R contains is_bit_set plen pzero mcmp tl tr ta tb il ir _ Ha Hb Hf)|].
  split; [exact (difference_sim pfx L R contains is_bit_set plen pzero mcmp tl tr ta tb il ir _ Ha Hb Hf)|].
  split; [exact (difference_mut_sim pfx L R contains is_bit_set plen pzero mcmp tl tr ta tb il ir _ Ha Hb Hf)|].
  split; [exact (covering_difference_sim pfx L R contains is_bit_set plen pzero mcmp tl tr ta tb il ir _ Ha Hb Hf)|].
  exact (covering_difference_mut_sim pfx L R contains is_bit_set plen pzero mcmp tl tr ta tb il ir _ Ha Hb Hf).
Qed.

(** at the roots of two maps ([a.view().union(&b)] etc.) *)
Corollary setops_root_sim (amL : Arena.amap pfx L) (mL : Trie.pmap pfx L) (amR : Arena.amap pfx R) (mR : Trie.pmap pfx R) :
  ArenaThm.Rep pfx L amL mL -> Slots.minv pfx L mL -> ArenaThm.Rep pfx R amR mR -> Slots.minv pfx R mR ->
  setops_agree (tbl amL) (tbl amR) (root mL) (root mR) 0%N 0%N.
Proof.
  intros RL ML RR MR. apply setops_sim; [apply RL|apply RR| |].
  - exact (Rep_tsize pfx L peq contains is_bit_set plen lcp pzero amL mL RL ML).
  - exact (Rep_tsize pfx R peq contains is_bit_set plen lcp pzero amR mR RR MR).
Qed.

Hypothesis PEQ_LEN : forall p q, peq p q = true -> plen p = plen q.
Hypothesis ZERO_LEN : plen pzero = 0%N.

(** no panic, no exhausted fuel at any two live locations of any two reachable arena states *)
Corollary reachable_setops (amL : Arena.amap pfx L) (amR : Arena.amap pfx R) lL lR :
  Arena2Thm.reachable2 pfx L peq contains is_bit_set plen lcp pzero amL ->
  Arena2Thm.reachable2 pfx R peq contains is_bit_set plen lcp pzero amR ->
  live_loc pfx L (tbl amL) lL -> live_loc pfx R (tbl amR) lR ->
  (exists out, a_union (tbl amL) (tbl amR) (loc_idx lL) (loc_idx lR) = Ok out) /\
  (exists out, a_union_mut (tbl amL) (tbl amR) (loc_idx lL) (loc_idx lR) = Ok out) /\
  (exists out, a_intersection (tbl amL) (tbl amR) (loc_idx lL) (loc_idx lR) = Ok out) /\
  (exists out, a_intersection_mut (tbl amL) (tbl amR) (loc_idx lL) (loc_idx lR) = Ok out) /\
  (exists out, a_difference (tbl amL) (tbl amR) (loc_idx lL) (loc_idx lR) = Ok out) /\
  (exists out, a_difference_mut (tbl amL) (tbl amR) (loc_idx lL) (loc_idx lR) = Ok out) /\
  (exists out, a_covering_difference (tbl amL) (tbl amR) (loc_idx lL) (loc_idx lR) = Ok out) /\
  (exists out, a_covering_difference_mut (tbl amL) (tbl amR) (loc_idx lL) (loc_idx lR) = Ok out).
Proof.
  intros HL HR LL LR.
  destruct (live_sized pfx L peq contains is_bit_set plen lcp pzero PEQ_LEN ZERO_LEN amL lL HL LL) as (ta & Ra & Sa).
  destruct (live_sized pfx R peq contains is_bit_set plen lcp pzero PEQ_LEN ZERO_LEN amR lR HR LR) as (tb & Rb & Sb).
  destruct (setops_sim (tbl amL) (tbl amR) ta tb _ _ Ra Rb Sa Sb)
    as ((o1 & _ & E1) & (o2 & _ & E2) & (o3 & _ & E3) & (o4 & _ & E4) & (o5 & _ & E5) & (o6 & _ & E6) & (o7 & _ & E7) & (o8 & _ & E8)).
  repeat split; eauto.
Qed.

End Reach2.

Print Assumptions rrun_sim_rel.
Print Assumptions rrun_sim.
Print Assumptions rrun_run.
Print Assumptions get_key_value_sim.
Print Assumptions contains_key_sim.
Print Assumptions get_lpm_prefix_sim.
Print Assumptions get_lpm_mut_sim.
Print Assumptions get_spm_sim.
Print Assumptions get_spm_prefix_sim.
Print Assumptions children_start_sim.
Print Assumptions children_sim.
Print Assumptions cover_next_sim.
Print Assumptions cover_drain_sim.
Print Assumptions cover_sim.
Print Assumptions cover_walk_sim.
Print Assumptions v_left_sim.
Print Assumptions v_right_sim.
Print Assumptions v_prefix_sim.
Print Assumptions v_value_sim.
Print Assumptions v_prefix_value_sim.
Print Assumptions rep_height_le.
Print Assumptions v_find_ok.
Print Assumptions v_find_exact_ok.
Print Assumptions v_find_lpm_ok.
Print Assumptions view_at_sim.
Print Assumptions vm_find_sim.
Print Assumptions vm_find_exact_sim.
Print Assumptions vm_find_lpm_sim.
Print Assumptions vm_left_sim.
Print Assumptions vm_right_sim.
Print Assumptions vm_has_left_sim.
Print Assumptions vm_has_right_sim.
Print Assumptions vm_split_sim.
Print Assumptions vm_prefix_sim.
Print Assumptions vm_value_sim.
Print Assumptions union_sim.
Print Assumptions union_mut_sim.
Print Assumptions intersection_sim.
Print Assumptions intersection_mut_sim.
Print Assumptions difference_sim.
Print Assumptions difference_mut_sim.
Print Assumptions covering_difference_sim.
Print Assumptions covering_difference_mut_sim.
Print Assumptions setops_sim.
Print Assumptions setops_root_sim.
Print Assumptions reachable_total3.
Print Assumptions reachable_views.
Print Assumptions reachable_setops.
