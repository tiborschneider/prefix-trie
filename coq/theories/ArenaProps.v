(** The properties C01-C10, C15, C16 and C20 stated directly about the ARENA transcription ([Arena.v], [Arena2.v],
    [Arena3.v]) of the Rust code, for every arena state reachable from the empty arena by a history
    over the whole mutator alphabet [Arena2.aop2].

    Every theorem [arena_Cnn_...] below is the COMPOSITION of
    - a simulation theorem ([ArenaThm], [Arena2Thm], [Arena3Thm]: the arena operation returns [Ok] of
      exactly what the tree operation returns, on every arena that represents a tree), and
    - the tree-level property theorem ([Lookup], [Lookup2], [IterExtra], [Mutate], [Retain], [Slots],
      [Canon], [History], [Refine], [UnionThm], [InterDiffThm]),
    glued by the invariant proved here: the tree represented by a reachable arena is well-formed
    ([areach_Rep]).

    ** Reachability.  [areach am] = [am] is the result of [Arena2.a_run2 ops] for a history [ops]
    whose prefix arguments are valid ([Forall aop2_ok ops]; closures, values and view paths are
    arbitrary).  This is [Arena2Thm.reachable2] restricted to valid arguments.  The restriction is
    necessary under the abstract laws: [Laws.prefix_laws] constrains the prefix operations on valid
    prefixes only, so nothing is known about [peq]/[contains]/[lcp] on an invalid argument, and the
    tree reached is then not well-formed in general.

    ** About [PEQ_LEN].  The history section of [Arena2Thm] assumes
    [PEQ_LEN : forall p q, peq p q = true -> plen p = plen q] and [ZERO_LEN : plen pzero = 0].
    [ZERO_LEN] follows from the laws ([zero_len] below).  [PEQ_LEN] follows from the laws for VALID
    [p], [q] only ([peq_len_ok] below); for arbitrary [p], [q] it is NOT derivable from
    [prefix_laws] (every law has [ok] premises).  [PEQ_LEN] serves one purpose there: the guard
    [Arena2Thm.rc_guard] of [remove_children].  Here the guard comes from well-formedness of the
    represented tree and validity of the selector ([wf_rc_guard]), and the one-step and history
    simulations carry the invariant "[minv] and [wf_root]" where [Arena2Thm] carries "[minv] and
    [rootz]" ([step2_ok_sim], [run2_ok_sim]): [LAWS] is the only hypothesis.

    ** C16 and C20.  [Properties/C16.v] and [Properties/C20.v] take their arena theorems from
    [Arena2Thm] / [Arena3Thm] directly, over [reachable2] (ANY arguments) at the concrete prefix type,
    where [PEQ_LEN] holds outright ([Arena2Thm.peqN_len]).  [arena_C16_structure], [arena_C20_total2],
    [arena_C20_total3] and Section APN state the same over [areach] under the abstract laws. *)
From Coq Require Import List NArith ZArith Bool Arith Lia Sorted Permutation.
From PT Require Import Bits BitsThm Laws Machine Trie Views SetOps TrieWf Lookup Mutate Lookup2 Slots
     Retain Canon History HistoryExtra Refine IterExtra UnionThm InterDiffThm MutTrav
     Arena ArenaThm Arena2 Arena2Thm Arena3 Arena3Thm.
Import ListNotations.

Section AP.
Variables (pfx V : Type).
Variables (peq contains : pfx -> pfx -> bool) (is_bit_set : pfx -> N -> bool)
          (plen : pfx -> N) (lcp : pfx -> pfx -> pfx) (pzero : pfx)
          (mcmp : pfx -> pfx -> comparison).
Variable bits : pfx -> list bool.
Variable ok : pfx -> Prop.
Hypothesis LAWS : prefix_laws pfx peq contains is_bit_set plen lcp pzero mcmp bits ok.

Notation pmap := (Trie.pmap pfx V).
Notation amap := (Arena.amap pfx V).
Notation aop2 := (Arena2.aop2 pfx V).
Notation wf_root := (TrieWf.wf_root pfx V bits ok).
Notation key := (TrieWf.key pfx V bits).
Notation key_lt := (TrieWf.key_lt pfx V bits).
Notation minv := (Slots.minv pfx V).
Notation cinv := (Slots.cinv pfx V).
Notation canonical := (Canon.canonical pfx V).
Notation Rep := (ArenaThm.Rep pfx V).
Notation empty := (Trie.empty pfx V pzero).

Notation get := (Trie.get pfx V peq contains is_bit_set plen).

(* [a_get], [a_insert], ... are the ARENA functions in this file; the abstract map's functions of the
   same names are written qualified ([Refine.a_get]) *)
Notation a_get := (Arena.a_get pfx V peq contains is_bit_set plen).
Notation a_get_lpm := (Arena.a_get_lpm pfx V peq contains is_bit_set plen).
Notation a_entries := (Arena.a_entries pfx V).
Notation a_insert := (Arena.a_insert pfx V peq contains is_bit_set plen lcp).
Notation a_remove := (Arena.a_remove pfx V peq contains is_bit_set plen).
Notation a_remove_keep_tree := (Arena.a_remove_keep_tree pfx V peq contains is_bit_set plen).
Notation a_remove_children := (Arena2.a_remove_children pfx V peq contains is_bit_set plen lcp pzero).
Notation a_remove_children_fuel := (Arena2.a_remove_children_fuel pfx V peq contains is_bit_set plen lcp pzero).
Notation a_retain := (Arena2.a_retain pfx V).
Notation a_retain_fuel := (Arena2.a_retain_fuel pfx V).
Notation a_entry := (Arena2.a_entry pfx V peq contains is_bit_set plen lcp).
Notation a_entry_loop := (Arena2.a_entry_loop pfx V peq contains is_bit_set plen lcp).
Notation a_entry_insert := (Arena2.a_entry_insert pfx V peq contains is_bit_set plen lcp).
Notation a_entry_remove := (Arena2.a_entry_remove pfx V peq contains is_bit_set plen lcp).
Notation a_entry_and_modify := (Arena2.a_entry_and_modify pfx V peq contains is_bit_set plen lcp).
Notation a_get_mut := (Arena2.a_get_mut pfx V peq contains is_bit_set plen).
Notation a_get_mut_loop := (Arena2.a_get_mut_loop pfx V peq contains is_bit_set plen).
Notation a_step2 := (Arena2.a_step2 pfx V peq contains is_bit_set plen lcp pzero).
Notation t_step2 := (Arena2.t_step2 pfx V peq contains is_bit_set plen lcp pzero).
Notation a_run2_from := (Arena2.a_run2_from pfx V peq contains is_bit_set plen lcp pzero).
Notation a_run2 := (Arena2.a_run2 pfx V peq contains is_bit_set plen lcp pzero).
Notation t_run2_from := (Arena2.t_run2_from pfx V peq contains is_bit_set plen lcp pzero).
Notation t_run2 := (Arena2.t_run2 pfx V peq contains is_bit_set plen lcp pzero).
Notation t_vm := (Arena2.t_vm pfx V).
Notation a_get_key_value := (Arena3.a_get_key_value pfx V peq contains is_bit_set plen).
Notation a_contains_key := (Arena3.a_contains_key pfx V peq contains is_bit_set plen).
Notation a_get_lpm_prefix := (Arena3.a_get_lpm_prefix pfx V peq contains is_bit_set plen).
Notation a_get_lpm_mut := (Arena3.a_get_lpm_mut pfx V peq contains is_bit_set plen).
Notation a_get_spm := (Arena3.a_get_spm pfx V peq contains is_bit_set plen).
Notation a_get_spm_prefix := (Arena3.a_get_spm_prefix pfx V peq contains is_bit_set plen).
Notation a_children_start := (Arena3.a_children_start pfx V peq contains is_bit_set plen).
Notation a_children := (Arena3.a_children pfx V peq contains is_bit_set plen).
Notation a_cover := (Arena3.a_cover pfx V peq contains is_bit_set plen).
Notation a_cover_next := (Arena3.a_cover_next pfx V peq contains is_bit_set plen).
Notation cover_reach := (Arena3Thm.cover_reach pfx V peq contains is_bit_set plen).

Notation hop := (History.op pfx V).
Notation hstep := (History.step pfx V peq contains is_bit_set plen lcp pzero).
Notation hop_ok := (History.op_ok pfx V ok).

Notation live := (ArenaThm.live pfx V).
Notation edge := (ArenaThm.edge pfx V).
Notation slot := (ArenaThm.slot pfx V).

Lemma zero_len : plen pzero = 0%N.
Proof.
  rewrite (plen_bits _ _ _ _ _ _ _ _ _ _ LAWS pzero (zero_ok _ _ _ _ _ _ _ _ _ _ LAWS)).
  rewrite (zero_spec _ _ _ _ _ _ _ _ _ _ LAWS). reflexivity.
Qed.

(** [PEQ_LEN], on valid prefixes (the only form the laws give) *)
Lemma peq_len_ok p q : ok p -> ok q -> peq p q = true -> plen p = plen q.
Proof.
  intros Hp Hq E. apply (peq_spec _ _ _ _ _ _ _ _ _ _ LAWS p q Hp Hq) in E.
  rewrite (plen_bits _ _ _ _ _ _ _ _ _ _ LAWS p Hp), (plen_bits _ _ _ _ _ _ _ _ _ _ LAWS q Hq), E.
  reflexivity.
Qed.

(** the guard of [remove_children] from well-formedness: the root's key is valid and empty *)
Lemma wf_rc_guard (m : pmap) q : wf_root (root m) -> ok q -> Arena2Thm.rc_guard pfx V peq plen pzero m q.
Proof.
  intros W Hq NZ. destruct (root m) as [|i p v l r]; [destruct W|]. destruct W as [E (Hp & _)].
  cbn [Trie.tpfx]. destruct (peq p q) eqn:PE; [|reflexivity].
  apply (peq_len_ok p q Hp Hq) in PE.
  rewrite (plen_bits _ _ _ _ _ _ _ _ _ _ LAWS p Hp), E in PE. cbn in PE. rewrite <- PE in NZ. discriminate.
Qed.

Definition aop2_ok (o : aop2) : Prop :=
  match o with
  | AOld (AIns q _) | AOld (ARem q) | AOld (ARemKeep q)
  | ARemChildren q | AEntryIns q _ | AEntryRem q | AEntryMod q _ | AGetMut q _ => ok q
  | _ => True
  end.

(** the operations that are not writes through a [TrieViewMut].  Those three ([set], [remove], a write
    through [value_mut]) address their target by a tree path, which no key-addressed operation of the
    abstract map [Refine.a_step] stands for: [ArenaRefine] and [ArenaOuts] exclude them (at tree level
    [Refine2] covers them through [resolve]). *)
Definition nonview (o : aop2) : bool :=
  match o with AVmSet _ _ | AVmRem _ | AVmMut _ _ => false | _ => true end.

(** the operation of [History.v] an arena operation stands for; meaningful under [nonview o = true]
    only.  The three view cases are fillers: [AVmMut] has no counterpart in [History.op], and its
    filler [OClear] is [Refine.refinable], which is why the refinement theorems ask for [nonview]
    beside [refinable (to_hop o)]. *)
Definition to_hop (o : aop2) : hop :=
  match o with
  | AOld (AIns q x) => OInsert pfx V q x
  | AOld (ARem q) => ORemove pfx V q
  | AOld (ARemKeep q) => ORemoveKeepTree pfx V q
  | AClear => OClear pfx V
  | ARemChildren q => ORemoveChildren pfx V q
  | ARetain f => ORetain pfx V f
  | AEntryIns q x => OEntryInsert pfx V q x
  | AEntryRem q => OOccRemove pfx V q
  | AEntryMod q g => OUpdate pfx V q g
  | AGetMut q g => OUpdate pfx V q g
  | AVmSet pa x => OViewSet pfx V pa x
  | AVmRem pa => OViewRemove pfx V pa
  | AVmMut _ _ => OClear pfx V      (* filler *)
  end.

Lemma t_step2_hop o m : nonview o = true -> t_step2 o m = hstep m (to_hop o).
Proof.
  destruct o as [o| |q|f|q x|q|q g|q g|pa x|pa|pa g]; cbn [nonview]; intros NV; try discriminate;
    cbn [Arena2.t_step2 to_hop History.step].
  - destruct o; reflexivity.
  - reflexivity.
  - reflexivity.
  - reflexivity.
  - unfold Arena2.t_entry_insert, History.occupied. destruct (get (root m) q); reflexivity.
  - unfold Arena2.t_entry_remove, History.occupied. destruct (get (root m) q); reflexivity.
  - reflexivity.
  - reflexivity.
Qed.

Lemma to_hop_ok o : aop2_ok o -> hop_ok (to_hop o).
Proof.
  destruct o as [o| |q|f|q x|q|q g|q g|pa x|pa|pa g]; cbn; try exact (fun H => H); try exact (fun _ => I).
  destruct o; exact (fun H => H).
Qed.

(** the three view writes are [subst] at the designated node *)
Lemma t_vm_wf m pa v' : wf_root (root m) ->
  wf_root (root (t_vm m pa (fun T => subst T pa (set_tval (subtree T pa) v')))).
Proof.
  intros W. unfold Arena2.t_vm. destruct (is_node (subtree (root m) pa)); [|exact W].
  cbn [root]. apply (History.subst_set_wf_root pfx V bits ok). exact W.
Qed.

Lemma t_step2_wf o m : aop2_ok o -> wf_root (root m) -> wf_root (root (t_step2 o m)).
Proof.
  intros Ho W. destruct (nonview o) eqn:NV.
  - rewrite (t_step2_hop o m NV).
    apply (History.step_wf pfx V peq contains is_bit_set plen lcp pzero mcmp bits ok LAWS);
      [apply to_hop_ok; exact Ho|exact W].
  - destruct o as [o| |q|f|q x|q|q g|q g|pa x|pa|pa g]; try discriminate; cbn [Arena2.t_step2].
    + exact (t_vm_wf m pa (Some x) W).
    + exact (t_vm_wf m pa None W).
    + exact (t_vm_wf m pa (option_map g (tval (subtree (root m) pa))) W).
Qed.

(** * One step and whole histories: the arena never fails and represents the tree reached
    ([Arena2Thm.step2_sim_guard], with the invariant [wf_root] supplying the guard where
    [Arena2Thm.step2_sim] / [run2_from_sim] use [rootz]) *)

Theorem step2_ok_sim o am m : aop2_ok o -> Rep am m -> minv m -> wf_root (root m) ->
  exists am', a_step2 o am = Ok am' /\ Rep am' (t_step2 o m) /\ minv (t_step2 o m) /\
              wf_root (root (t_step2 o m)).
Proof.
  intros Ho R M W.
  destruct (Arena2Thm.step2_sim_guard pfx V peq contains is_bit_set plen lcp pzero o am m R M) as (am' & E & R').
  { intros q ->. exact (wf_rc_guard m q W Ho). }
  exists am'. split; [exact E|]. split; [exact R'|].
  split; [apply Arena2Thm.t_step2_minv; exact M|apply t_step2_wf; assumption].
Qed.

Theorem run2_from_ok_sim ops : forall am m, Forall aop2_ok ops -> Rep am m -> minv m -> wf_root (root m) ->
  exists am', a_run2_from ops am = Ok am' /\ Rep am' (t_run2_from ops m) /\
              minv (t_run2_from ops m) /\ wf_root (root (t_run2_from ops m)).
Proof.
  induction ops as [|o ops IH]; intros am m F R M W; cbn [Arena2.a_run2_from Arena2.t_run2_from].
  - eauto.
  - inversion F as [|? ? Ho F']; subst.
    destruct (step2_ok_sim o am m Ho R M W) as (am1 & E & R1 & M1 & W1). rewrite E. cbn [rbind]. apply IH; auto.
Qed.

(** no step of any valid history panics or runs out of fuel; the arena reached represents the tree
    reached, which is well-formed *)
Theorem run2_ok_sim ops : Forall aop2_ok ops ->
  exists am, a_run2 ops = Ok am /\ Rep am (t_run2 ops) /\ minv (t_run2 ops) /\ wf_root (root (t_run2 ops)).
Proof.
  intros F. exact (run2_from_ok_sim ops (Arena.a_empty pfx V pzero) empty F (ArenaThm.Rep_empty pfx V pzero)
                     (Slots.minv_empty pfx V pzero)
                     (Refine.empty_wf pfx V peq contains is_bit_set plen lcp pzero mcmp bits ok LAWS)).
Qed.

Definition areach_in (P : aop2 -> bool) (am : amap) : Prop :=
  exists ops, Forall aop2_ok ops /\ forallb P ops = true /\ a_run2 ops = Ok am.
(** reachable by a valid history over the whole alphabet *)
Definition areach (am : amap) : Prop := exists ops, Forall aop2_ok ops /\ a_run2 ops = Ok am.

Lemma areach_in_areach P am : areach_in P am -> areach am.
Proof. intros (ops & F & _ & E). exists ops. auto. Qed.

Lemma areach_reachable2 am : areach am -> Arena2Thm.reachable2 pfx V peq contains is_bit_set plen lcp pzero am.
Proof. intros (ops & _ & E). exists ops. exact E. Qed.

Lemma run2_det ops am : Forall aop2_ok ops -> a_run2 ops = Ok am ->
  Rep am (t_run2 ops) /\ minv (t_run2 ops) /\ wf_root (root (t_run2 ops)).
Proof.
  intros F E. destruct (run2_ok_sim ops F) as (am' & E' & R & M & W). rewrite E in E'. injection E' as <-. auto.
Qed.

Theorem areach_Rep am : areach am -> exists m, Rep am m /\ minv m /\ wf_root (root m).
Proof. intros (ops & F & E). exists (t_run2 ops). apply run2_det; assumption. Qed.

Lemma a_run2_from_app ops1 ops2 : forall am,
  a_run2_from (ops1 ++ ops2) am = rbind (a_run2_from ops1 am) (a_run2_from ops2).
Proof.
  induction ops1 as [|o ops1 IH]; intros am; cbn [app Arena2.a_run2_from rbind]; [reflexivity|].
  destruct (a_step2 o am) as [am1| |]; cbn [rbind]; [apply IH|reflexivity|reflexivity].
Qed.

Lemma areach_step o am am' : areach am -> aop2_ok o -> a_step2 o am = Ok am' -> areach am'.
Proof.
  intros (ops & F & E) Ho S. exists (ops ++ [o]). split.
  - apply Forall_app. split; [exact F|constructor; [exact Ho|constructor]].
  - unfold Arena2.a_run2 in *. rewrite a_run2_from_app, E. cbn [rbind Arena2.a_run2_from].
    rewrite S. reflexivity.
Qed.

Theorem areach_step_total o am : areach am -> aop2_ok o -> exists am', a_step2 o am = Ok am' /\ areach am'.
Proof.
  intros H Ho. destruct (areach_Rep am H) as (m & R & M & W).
  destruct (step2_ok_sim o am m Ho R M W) as (am' & S & _). exists am'. split; [exact S|].
  exact (areach_step o am am' H Ho S).
Qed.

Lemma areach_view am es : areach am -> a_entries am = Ok es ->
  exists m, Rep am m /\ minv m /\ wf_root (root m) /\ es = entries (root m).
Proof.
  intros H E. destruct (areach_Rep am H) as (m & R & M & W). exists m.
  split; [exact R|]. split; [exact M|]. split; [exact W|].
  rewrite (ArenaThm.entries_sim pfx V peq contains is_bit_set plen lcp pzero am m R M) in E.
  injection E as <-. reflexivity.
Qed.

Lemma Rep_fun am m m' : Rep am m -> Rep am m' -> m = m'.
Proof.
  intros (R & F & L & C) (R' & F' & L' & C').
  destruct m as [t [fr al cnt]], m' as [t' [fr' al' cnt']]. cbn [root Trie.al free alen count] in *.
  rewrite (Arena3Thm.rep_fun pfx V _ _ _ R _ R'). congruence.
Qed.

(** C01 / C03.  [PrefixMap::iter] on a reachable arena: returns (no panic, fuel suffices) a list that is
    strictly ascending in the iteration order of the keys, stores no key twice, and holds valid prefixes only.
    Composes [ArenaThm.entries_sim] with [TrieWf.wf_root_sorted] (+ [IterExtra.sorted_nodup_keys],
    [TrieWf.entries_ok]). *)
Theorem arena_C01_entries am : areach am ->
  exists es, a_entries am = Ok es /\ StronglySorted key_lt es /\ NoDup (map key es) /\
             (forall e, In e es -> ok (fst e)).
Proof.
  intros H. destruct (areach_Rep am H) as (m & R & M & W). exists (entries (root m)).
  split; [exact (ArenaThm.entries_sim pfx V peq contains is_bit_set plen lcp pzero am m R M)|].
  pose proof (TrieWf.wf_root_sorted pfx V bits ok (root m) W) as S.
  split; [exact S|]. split; [exact (IterExtra.sorted_nodup_keys pfx V bits _ S)|].
  intros e He. exact (TrieWf.entries_ok pfx V bits ok [] (root m) e (TrieWf.wf_root_under pfx V bits ok _ W) He).
Qed.

(** [get] / [get_key_value] / [contains_key] on a reachable arena are the lookups of the query's KEY in
    the entry list [es] the iterator yields ([Refine.a_get es q] = value of the first = only entry of
    [es] whose key is [bits q]).
    Composes [ArenaThm.get_sim], [Arena3Thm.get_key_value_sim], [Arena3Thm.contains_key_sim] with
    [Refine.get_refines], [Refine.get_key_value_refines], [Refine.contains_key_refines]. *)
Theorem arena_C01_get am es q : areach am -> ok q -> a_entries am = Ok es ->
  a_get am q = Ok (Refine.a_get pfx V bits es q) /\
  a_get_key_value am q = Ok (find (fun e => beq (key e) (bits q)) es) /\
  a_contains_key am q = Ok (match Refine.a_get pfx V bits es q with Some _ => true | None => false end).
Proof.
  intros H Hq E. destruct (areach_view am es H E) as (m & R & M & W & ->).
  split; [|split].
  - rewrite (ArenaThm.get_sim pfx V peq contains is_bit_set plen lcp pzero am m q R M). f_equal.
    exact (Refine.get_refines pfx V peq contains is_bit_set plen lcp pzero mcmp bits ok LAWS (root m) q W Hq).
  - rewrite (Arena3Thm.get_key_value_sim pfx V peq contains is_bit_set plen lcp pzero am m q R). f_equal.
    exact (Refine.get_key_value_refines pfx V peq contains is_bit_set plen lcp pzero mcmp bits ok LAWS (root m) q W Hq).
  - rewrite (Arena3Thm.contains_key_sim pfx V peq contains is_bit_set plen lcp pzero am m q R). f_equal.
    pose proof (Refine.contains_key_refines pfx V peq contains is_bit_set plen lcp pzero mcmp bits ok LAWS (root m) q W Hq)
      as [A B].
    destruct (Trie.contains_key pfx V peq contains is_bit_set plen (root m) q) eqn:CK.
    + specialize (A eq_refl). destruct (Refine.a_get pfx V bits (entries (root m)) q); [reflexivity|congruence].
    + destruct (Refine.a_get pfx V bits (entries (root m)) q) as [x|]; [|reflexivity].
      apply B. discriminate.
Qed.

(** the same in relational form: [get] returns [x] iff [es] holds an entry with the key of [q] and the
    value [x].  Composes [ArenaThm.get_sim] with [Lookup.get_spec_root]. *)
Theorem arena_C01_get_spec am es q x : areach am -> ok q -> a_entries am = Ok es ->
  (a_get am q = Ok (Some x) <-> exists p, In (p, x) es /\ bits p = bits q).
Proof.
  intros H Hq E. destruct (areach_view am es H E) as (m & R & M & W & ->).
  rewrite (ArenaThm.get_sim pfx V peq contains is_bit_set plen lcp pzero am m q R M).
  rewrite <- (Lookup.get_spec_root pfx V peq contains is_bit_set plen lcp pzero mcmp bits ok LAWS (root m) q x W Hq).
  split; [intros [= ->]; reflexivity|intros ->; reflexivity].
Qed.

(** [get_lpm] on a reachable arena returns the entry of [es] with the longest key among those that
    cover [q], and [None] exactly when no entry covers [q]; [get_lpm_prefix] returns its prefix and
    [get_lpm_mut] designates the same entry (with its slot).
    Composes [ArenaThm.get_lpm_sim], [Arena3Thm.get_lpm_prefix_sim], [Arena3Thm.get_lpm_mut_sim]
    with [Lookup2.get_lpm_spec_root], [Lookup.get_lpm_prefix_eq], [Lookup.get_lpm_mut_eq]. *)
Theorem arena_C02_get_lpm am es q : areach am -> ok q -> a_entries am = Ok es ->
  exists o, a_get_lpm am q = Ok o /\
    match o with
    | Some e => Lookup.is_lpm pfx V bits es q e
    | None => Lookup.no_cover pfx V bits es q
    end /\
    a_get_lpm_prefix am q = Ok (option_map fst o) /\
    exists om, a_get_lpm_mut am q = Ok om /\ option_map (Lookup.drop_slot pfx V) om = o.
Proof.
  intros H Hq E. destruct (areach_view am es H E) as (m & R & M & W & ->).
  exists (Trie.get_lpm pfx V peq contains is_bit_set plen (root m) q).
  split; [exact (ArenaThm.get_lpm_sim pfx V peq contains is_bit_set plen lcp pzero am m q R M)|].
  split; [exact (Lookup2.get_lpm_spec_root pfx V peq contains is_bit_set plen lcp pzero mcmp bits ok LAWS (root m) q W Hq)|].
  split.
  - rewrite (Arena3Thm.get_lpm_prefix_sim pfx V peq contains is_bit_set plen lcp pzero am m q R). f_equal.
    apply Lookup.get_lpm_prefix_eq.
  - exists (Trie.get_lpm_mut pfx V peq contains is_bit_set plen (root m) q).
    split; [exact (Arena3Thm.get_lpm_mut_sim pfx V peq contains is_bit_set plen lcp pzero am m q R)|].
    apply Lookup.get_lpm_mut_eq.
Qed.

(** [cover] on a reachable arena yields exactly the entries of [es] that cover [q], in the order of
    [es], which is the order of strictly increasing length; [get_spm] is its first element.
    Composes [Arena3Thm.cover_walk_sim], [Arena3Thm.get_spm_sim], [Arena3Thm.get_spm_prefix_sim]
    with [IterExtra.cover_walk_filter_root], [Lookup2.cover_walk_sorted], [Lookup2.get_spm_spec]. *)
Theorem arena_C09_cover am es q : areach am -> ok q -> a_entries am = Ok es ->
  a_cover am q = Ok (filter (IterExtra.covering pfx V bits q) es) /\
  StronglySorted (Lookup2.len_lt pfx V bits) (filter (IterExtra.covering pfx V bits q) es) /\
  a_get_spm am q = Ok (hd_error (filter (IterExtra.covering pfx V bits q) es)) /\
  a_get_spm_prefix am q = Ok (option_map fst (hd_error (filter (IterExtra.covering pfx V bits q) es))).
Proof.
  intros H Hq E. destruct (areach_view am es H E) as (m & R & M & W & ->).
  pose proof (IterExtra.cover_walk_filter_root pfx V peq contains is_bit_set plen lcp pzero mcmp bits ok LAWS (root m) q W Hq)
    as CF.
  split; [|split; [|split]].
  - rewrite (Arena3Thm.cover_walk_sim pfx V peq contains is_bit_set plen lcp pzero am m q R), CF. reflexivity.
  - rewrite <- CF. exact (Lookup2.cover_walk_sorted pfx V peq contains is_bit_set plen bits ok (root m) [] q
                             (TrieWf.wf_root_under pfx V bits ok _ W)).
  - rewrite (Arena3Thm.get_spm_sim pfx V peq contains is_bit_set plen lcp pzero am m q R).
    rewrite Lookup2.get_spm_spec, CF. reflexivity.
  - rewrite (Arena3Thm.get_spm_prefix_sim pfx V peq contains is_bit_set plen lcp pzero am m q R).
    unfold Trie.get_spm_prefix. rewrite Lookup2.get_spm_spec, CF. reflexivity.
Qed.

(** [children] on a reachable arena yields exactly the entries of [es] covered by [q], in the order
    of [es].  Composes [Arena3Thm.children_sim] with [IterExtra.children_filter_root]
    (through [MutTrav.children_spec]). *)
Theorem arena_C10_children am es q : areach am -> ok q -> a_entries am = Ok es ->
  a_children am q = Ok (filter (IterExtra.covered_by pfx V bits q) es).
Proof.
  intros H Hq E. destruct (areach_view am es H E) as (m & R & M & W & ->).
  rewrite (Arena3Thm.children_sim pfx V peq contains is_bit_set plen lcp pzero am m q R M). f_equal.
  rewrite <- (IterExtra.children_filter_root pfx V peq contains is_bit_set plen lcp pzero mcmp bits ok LAWS (root m) q W Hq).
  rewrite MutTrav.children_spec, IterExtra.map_drop_id_flat. reflexivity.
Qed.

(** [remove_children] on a reachable arena returns [Ok]; afterwards the iterator yields exactly the
    entries of [es] NOT covered by [q], in the order of [es].
    Composes [Arena2Thm.remove_children_sim] (guard from [wf_rc_guard]) and [ArenaThm.entries_sim]
    with [Mutate.remove_children_refines] (+ [Slots.remove_children_minv]). *)
Theorem arena_C10_remove_children am es q : areach am -> ok q -> a_entries am = Ok es ->
  exists am', a_remove_children am q = Ok am' /\ areach am' /\
    a_entries am' = Ok (filter (fun e => negb (is_prefix (bits q) (key e))) es).
Proof.
  intros H Hq E. destruct (areach_view am es H E) as (m & R & M & W & ->).
  destruct (Arena2Thm.remove_children_sim pfx V peq contains is_bit_set plen lcp pzero am m q R M (wf_rc_guard m q W Hq))
    as (am' & E' & R').
  exists am'. split; [exact E'|].
  split; [exact (areach_step (ARemChildren q) am am' H Hq E')|].
  rewrite (ArenaThm.entries_sim pfx V peq contains is_bit_set plen lcp pzero am' _ R'
             (Slots.remove_children_minv pfx V peq contains is_bit_set plen lcp pzero m q M)).
  f_equal. exact (Mutate.remove_children_refines pfx V peq contains is_bit_set plen lcp pzero mcmp bits ok LAWS m q W Hq).
Qed.

(** [retain] with a pure, total predicate [g] on a reachable arena returns [Ok], reports no panic,
    leaves exactly the entries of [es] that satisfy [g] (in the order of [es]), and has called the
    closure exactly once on every entry ([calls] is a permutation of [es]).
    Composes [Arena2Thm.retain_sim] and [ArenaThm.entries_sim] with [Retain.retain_spec]
    (+ [Slots.retain_minv]). *)
Theorem arena_C10_retain am es (f : nat -> pfx -> V -> option bool) (g : pfx -> V -> bool) :
  areach am -> a_entries am = Ok es -> (forall n p x, f n p x = Some (g p x)) ->
  exists am' calls, a_retain f am = Ok (am', false, calls) /\ areach am' /\
    a_entries am' = Ok (filter (fun e => g (fst e) (snd e)) es) /\ Permutation calls es.
Proof.
  intros H E Hf. destruct (areach_view am es H E) as (m & R & M & W & ->).
  destruct (Arena2Thm.retain_sim pfx V peq contains is_bit_set plen lcp pzero am m f R M) as (am' & E' & R').
  pose proof (Slots.retain_minv pfx V peq contains is_bit_set plen lcp pzero f m M) as M'.
  destruct (Trie.retain pfx V f m) as [[m' pk] calls] eqn:RT. cbn [fst snd] in *.
  assert (Hfg : forall n p x c, f n p x = Some c -> c = g p x).
  { intros n p x c Hc. rewrite Hf in Hc. congruence. }
  destruct (Retain.retain_spec pfx V bits ok f g Hfg m m' pk calls W RT) as (_ & _ & _ & _ & _ & PF & PT).
  assert (pk = false).
  { destruct pk; [|reflexivity]. destruct (PT eq_refl) as (e & _ & _ & N). rewrite Hf in N. discriminate. }
  subst pk. destruct (PF eq_refl) as (EF & PM & _).
  exists am', calls. split; [exact E'|].
  split; [apply (areach_step (ARetain f) am am' H Logic.I); cbn [Arena2.a_step2]; rewrite E'; reflexivity|].
  split; [|exact PM].
  rewrite (ArenaThm.entries_sim pfx V peq contains is_bit_set plen lcp pzero am' m' R' M'). f_equal. exact EF.
Qed.

(** every operation but the two writes through a [TrieViewMut] that create or delete an entry *)
Definition counts2 (o : aop2) : bool :=
  match o with AVmSet _ _ | AVmRem _ => false | _ => true end.

Lemma t_step2_cinv o m : counts2 o = true -> cinv m -> cinv (t_step2 o m).
Proof.
  intros Hc C. destruct (nonview o) eqn:NV.
  - rewrite (t_step2_hop o m NV). apply HistoryExtra.step_cinv; [|exact C].
    destruct o as [o| |q|f|q x|q|q g|q g|pa x|pa|pa g]; try discriminate; try reflexivity.
    destruct o; reflexivity.
  - destruct o as [o| |q|f|q x|q|q g|q g|pa x|pa|pa g]; try discriminate.
    cbn [Arena2.t_step2]. unfold Arena2.t_vm. destruct (is_node (subtree (root m) pa)); [|exact C].
    unfold Slots.cinv in *. cbn [root Trie.al].
    rewrite (proj2 (MutTrav.vm_value_mut_count pfx V (root m) (mkvmut pfx pa None) g)). exact C.
Qed.

Lemma t_run2_from_inv (P : aop2 -> bool) (Inv : pmap -> Prop) :
  (forall o m, P o = true -> Inv m -> Inv (t_step2 o m)) ->
  forall ops m, forallb P ops = true -> Inv m -> Inv (t_run2_from ops m).
Proof.
  intros St. induction ops as [|o ops IH]; intros m Hc C; cbn [Arena2.t_run2_from]; [exact C|].
  cbn [forallb] in Hc. apply andb_true_iff in Hc. destruct Hc as [H1 H2].
  apply IH; [exact H2|apply St; assumption].
Qed.

(** [len()] of a reachable arena = the number of entries the iterator yields, for every valid history
    without [TrieViewMut::set] / [TrieViewMut::remove] (which cannot reach the counter: see
    [Arena2Test.view_counter_drift]).
    Composes [run2_ok_sim] (the [acount] clause of [Rep]) and [ArenaThm.entries_sim] with the
    tree-level counter lemmas of [Slots] (through [HistoryExtra.step_cinv]) and
    [MutTrav.vm_value_mut_count]. *)
Theorem arena_C04_count am es : areach_in counts2 am -> a_entries am = Ok es ->
  acount am = Z.of_nat (length es).
Proof.
  intros (ops & F & Hc & E) EE. destruct (run2_det ops am F E) as (R & M & W).
  rewrite (ArenaThm.entries_sim pfx V peq contains is_bit_set plen lcp pzero am _ R M) in EE. injection EE as <-.
  pose proof (t_run2_from_inv counts2 cinv t_step2_cinv ops empty Hc (Slots.cinv_empty pfx V pzero)) as C.
  destruct R as (_ & _ & _ & ->). exact C.
Qed.

(** [Arena2Thm.reachable_structure2] with [LAWS] only: every live slot exists, links are in bounds, live
    slots are not on the free list, no slot is linked twice, the root is not linked, and live + free
    slots partition the table.  Composes [areach_Rep] with [ArenaThm.Rep_structure]. *)
Theorem arena_C16_structure am : areach am ->
  (forall i, live (tbl am) i -> exists n, slot (tbl am) i = Some n) /\
  (forall i rt j, live (tbl am) i -> edge (tbl am) i rt j -> (j < N.of_nat (length (tbl am)))%N) /\
  (forall i, live (tbl am) i -> ~ In i (afree am)) /\
  (forall i1 rt1 i2 rt2 j, live (tbl am) i1 -> live (tbl am) i2 ->
     edge (tbl am) i1 rt1 j -> edge (tbl am) i2 rt2 j -> i1 = i2 /\ rt1 = rt2) /\
  (forall i rt, live (tbl am) i -> ~ edge (tbl am) i rt 0%N) /\
  (forall i, (i < N.of_nat (length (tbl am)))%N <-> (live (tbl am) i \/ In i (afree am))).
Proof.
  intros H. destruct (areach_Rep am H) as (m & R & M & _).
  exact (ArenaThm.Rep_structure pfx V peq contains is_bit_set plen lcp pzero am m R M).
Qed.

(** a reachable arena represents exactly one map of the tree model, and that tree is well-formed
    (every node's key is valid and extends its parent's key on the side of the link; the root's key
    is empty).  [areach_Rep] + [Rep_fun]; the tree side is [History.step_wf] ([Mutate]'s [*_spec]
    lemmas, [Retain.retain_wf], [History.subst_set_wf_root]). *)
Theorem arena_C15_wf am : areach am ->
  exists m, Rep am m /\ minv m /\ wf_root (root m) /\ (forall m', Rep am m' -> m' = m).
Proof.
  intros H. destruct (areach_Rep am H) as (m & R & M & W). exists m.
  split; [exact R|]. split; [exact M|]. split; [exact W|].
  intros m' R'. exact (Rep_fun am m' m R' R).
Qed.

(** the canonical sub-alphabet: insert, remove, retain, clear, [entry().insert()], and the value-only
    writes [and_modify] / [get_mut] *)
Definition canon2 (o : aop2) : bool :=
  match o with
  | AOld (AIns _ _) | AOld (ARem _) | AClear | ARetain _ | AEntryIns _ _ | AEntryMod _ _ | AGetMut _ _ => true
  | _ => false
  end.

Lemma t_step2_canonical o m : canon2 o = true -> canonical (root m) -> canonical (root (t_step2 o m)).
Proof.
  intros Hc C.
  assert (NV : nonview o = true).
  { destruct o as [o| |q|f|q x|q|q g|q g|pa x|pa|pa g]; try discriminate; reflexivity. }
  rewrite (t_step2_hop o m NV). apply History.step_canonical; [|exact C].
  destruct o as [o| |q|f|q x|q|q g|q g|pa x|pa|pa g]; try discriminate; try reflexivity.
  destruct o; try discriminate; reflexivity.
Qed.

(** over the canonical sub-alphabet the represented tree is moreover canonical (no value-less node
    with fewer than two children below the root).  Composes [run2_ok_sim] with
    [History.step_canonical] ([Canon.insert_canonical], [remove_canonical], [retain_canonical_any],
    [vacant_insert_canonical], [clear_canonical]). *)
Theorem arena_C15_canonical am : areach_in canon2 am ->
  exists m, Rep am m /\ wf_root (root m) /\ canonical (root m).
Proof.
  intros (ops & F & Hc & E). destruct (run2_det ops am F E) as (R & M & W).
  exists (t_run2 ops). split; [exact R|]. split; [exact W|].
  exact (t_run2_from_inv canon2 (fun m => canonical (root m)) t_step2_canonical ops empty Hc (Canon.empty_canonical pfx V pzero)).
Qed.

(** [Arena2Thm.reachable_total2] with [LAWS] only.  Every operation on a reachable arena returns [Ok]
    within the default fuel, for EVERY argument [q] — except [remove_children], whose guard needs a
    valid selector ([ok q]): with an invalid [q] the laws say nothing about [peq (root key) q], and
    [Arena2Test.unlawful_eq_remove_children] shows a panic in that situation.
    Composes [areach_Rep] with [ArenaThm.Rep_total] and [Arena2Thm.Rep_total2]. *)
Theorem arena_C20_total2 am q x f g : areach am ->
  (exists o, a_get am q = Ok o) /\
  (exists o, a_get_lpm am q = Ok o) /\
  (exists r, a_insert am q x = Ok r) /\
  (exists r, a_remove am q = Ok r) /\
  (exists r, a_remove_keep_tree am q = Ok r) /\
  (exists es, a_entries am = Ok es) /\
  (ok q -> exists am', a_remove_children am q = Ok am') /\
  (exists r, a_retain f am = Ok r) /\
  (exists e, a_entry am q = Ok e) /\
  (exists r, a_entry_insert am q x = Ok r) /\
  (exists r, a_entry_remove am q = Ok r) /\
  (exists am', a_entry_and_modify am q g = Ok am') /\
  (exists am', a_get_mut am q g = Ok am') /\
  (forall fuel, (length (tbl am) <= fuel)%nat ->
     (ok q -> exists am', a_remove_children_fuel fuel fuel am q = Ok am') /\
     (exists r, a_retain_fuel fuel f am = Ok r) /\
     (exists e, a_entry_loop fuel (tbl am) 0%N q = Ok e) /\
     (exists tb', a_get_mut_loop fuel (tbl am) 0%N q g = Ok tb')).
Proof.
  intros H. destruct (areach_Rep am H) as (m & R & M & W).
  destruct (ArenaThm.Rep_total pfx V peq contains is_bit_set plen lcp pzero am m q x R M) as (A1 & A2 & A3 & A4 & A5 & A6 & _).
  destruct (Arena2Thm.Rep_total2 pfx V peq contains is_bit_set plen lcp pzero am m q x f g R M)
    as (B1 & B2 & B3 & B4 & B5 & B6 & B7 & B8).
  repeat (split; [assumption|]). split; [intros Hq; exact (B1 (wf_rc_guard m q W Hq))|]. repeat (split; [assumption|]).
  intros fuel F. destruct (B8 fuel F) as (C1 & C2). split; [intros Hq; exact (C1 (wf_rc_guard m q W Hq))|exact C2].
Qed.

(** [Arena3Thm.reachable_total3] with [LAWS] only: every observer of [Arena3.v] returns [Ok] on a
    reachable arena, for every argument, and the [Cover] iterator can be driven by [next] for ever.
    Composes [areach_Rep] with [Arena3Thm.Rep_total3]. *)
Theorem arena_C20_total3 am q : areach am ->
  (exists o, a_get_key_value am q = Ok o) /\ (exists o, a_contains_key am q = Ok o) /\
  (exists o, a_get_lpm_prefix am q = Ok o) /\ (exists o, a_get_lpm_mut am q = Ok o) /\
  (exists o, a_get_spm am q = Ok o) /\ (exists o, a_get_spm_prefix am q = Ok o) /\
  (exists st, a_children_start am q = Ok st) /\ (exists es, a_children am q = Ok es) /\
  (exists es, a_cover am q = Ok es) /\
  (forall st, cover_reach (tbl am) q st -> exists r, a_cover_next (S (length (tbl am))) (tbl am) st q = Ok r).
Proof.
  intros H. destruct (areach_Rep am H) as (m & R & M & _).
  exact (Arena3Thm.Rep_total3 pfx V peq contains is_bit_set plen lcp pzero am m q R M).
Qed.

End AP.

Section AP2.
Variables (pfx L R : Type).
Variables (peq contains : pfx -> pfx -> bool) (is_bit_set : pfx -> N -> bool)
          (plen : pfx -> N) (lcp : pfx -> pfx -> pfx) (pzero : pfx)
          (mcmp : pfx -> pfx -> comparison).
Variable bits : pfx -> list bool.
Variable ok : pfx -> Prop.
Hypothesis LAWS : prefix_laws pfx peq contains is_bit_set plen lcp pzero mcmp bits ok.

Notation areachL := (areach pfx L peq contains is_bit_set plen lcp pzero ok).
Notation areachR := (areach pfx R peq contains is_bit_set plen lcp pzero ok).
Notation a_union := (Arena3.a_union pfx L R contains is_bit_set plen mcmp).
Notation a_union_mut := (Arena3.a_union_mut pfx L R contains is_bit_set plen mcmp).
Notation a_intersection := (Arena3.a_intersection pfx L R contains is_bit_set plen mcmp).
Notation a_intersection_mut := (Arena3.a_intersection_mut pfx L R contains is_bit_set plen mcmp).
Notation a_difference := (Arena3.a_difference pfx L R contains is_bit_set plen mcmp).
Notation a_difference_mut := (Arena3.a_difference_mut pfx L R contains is_bit_set plen mcmp).
Notation a_covering_difference := (Arena3.a_covering_difference pfx L R contains is_bit_set plen mcmp).
Notation a_covering_difference_mut := (Arena3.a_covering_difference_mut pfx L R contains is_bit_set plen mcmp).
Notation setops_agree := (Arena3Thm.setops_agree pfx L R contains is_bit_set plen pzero mcmp).
Notation wfL := (TrieWf.wf_under pfx L bits ok).
Notation wfR := (TrieWf.wf_under pfx R bits ok).

Lemma setops_setup amL amR esL esR :
  areachL amL -> areachR amR -> Arena.a_entries pfx L amL = Ok esL -> Arena.a_entries pfx R amR = Ok esR ->
  exists (tl : Trie.tree pfx L) (tr : Trie.tree pfx R),
    wfL [] tl /\ wfR [] tr /\ esL = entries tl /\ esR = entries tr /\
    setops_agree (tbl amL) (tbl amR) tl tr 0%N 0%N.
Proof.
  intros HL HR EL ER.
  destruct (areach_view pfx L peq contains is_bit_set plen lcp pzero mcmp bits ok LAWS amL esL HL EL) as (mL & RL & ML & WL & ->).
  destruct (areach_view pfx R peq contains is_bit_set plen lcp pzero mcmp bits ok LAWS amR esR HR ER) as (mR & RR & MR & WR & ->).
  exists (root mL), (root mR).
  split; [exact (TrieWf.wf_root_under pfx L bits ok _ WL)|]. split; [exact (TrieWf.wf_root_under pfx R bits ok _ WR)|].
  split; [reflexivity|]. split; [reflexivity|].
  exact (Arena3Thm.setops_root_sim pfx L R peq contains is_bit_set plen lcp pzero mcmp amL mL amR mR RL ML RR MR).
Qed.

Lemma agree_ok {A} (o : option A) (r : res A) y : (exists x, o = Some x /\ r = Ok x) -> o = Some y -> r = Ok y.
Proof. intros (x & E & K) U. rewrite U in E. injection E as <-. exact K. Qed.

(** The four results below hold at any two slots [il], [ir] of any two tables where the iterators
    agree with the model's on two well-formed trees [tl], [tr] (whatever keys bound them); the
    theorems about two reachable arenas are their instances at the roots. *)
Lemma union_at tbL tbR tl tr ba bb il ir : wfL ba tl -> wfR bb tr -> setops_agree tbL tbR tl tr il ir ->
  exists out outm,
    a_union tbL tbR il ir = Ok out /\ UnionThm.union_spec pfx L R bits (entries tl) (entries tr) out /\
    a_union_mut tbL tbR il ir = Ok outm /\
    map (fun it => match it with
                   | ILeft _ _ _ p l _ => (p, Some l, None)
                   | IRight _ _ _ p _ r => (p, None, Some r)
                   | IBoth _ _ _ p l r => (p, Some l, Some r)
                   end) out
    = map (fun '(p, l, r) => (p, option_map snd l, option_map snd r)) outm.
Proof.
  intros WL WR (A1 & A2 & _).
  destruct (UnionThm.union_correct pfx L R peq contains is_bit_set plen lcp pzero mcmp bits ok LAWS ba bb tl tr WL WR)
    as (out & U & S).
  destruct (UnionThm.union_mut_mirrors pfx L R peq contains is_bit_set plen lcp pzero mcmp bits ok LAWS ba bb tl tr WL WR)
    as (out' & outm & U' & UM & MM).
  rewrite U in U'. injection U' as <-. exists out, outm.
  split; [exact (agree_ok _ _ _ A1 U)|]. split; [exact S|]. split; [exact (agree_ok _ _ _ A2 UM)|exact MM].
Qed.

Lemma intersection_at tbL tbR tl tr ba bb il ir : wfL ba tl -> wfR bb tr -> setops_agree tbL tbR tl tr il ir ->
  exists out outm,
    a_intersection tbL tbR il ir = Ok out /\ InterDiffThm.inter_spec pfx L R bits (entries tl) (entries tr) out /\
    a_intersection_mut tbL tbR il ir = Ok outm /\
    out = map (fun '(p, (_, l), (_, r)) => (p, l, r)) outm.
Proof.
  intros WL WR (_ & _ & A1 & A2 & _).
  destruct (InterDiffThm.intersection_correct pfx L R peq contains is_bit_set plen lcp pzero mcmp bits ok LAWS ba bb tl tr WL WR)
    as (out & U & S).
  destruct (InterDiffThm.intersection_mut_mirrors pfx L R peq contains is_bit_set plen lcp pzero mcmp bits ok LAWS ba bb tl tr WL WR)
    as (out' & outm & U' & UM & MM & _).
  rewrite U in U'. injection U' as <-. exists out, outm.
  split; [exact (agree_ok _ _ _ A1 U)|]. split; [exact S|]. split; [exact (agree_ok _ _ _ A2 UM)|exact MM].
Qed.

Lemma difference_at tbL tbR tl tr ba bb il ir : wfL ba tl -> wfR bb tr -> setops_agree tbL tbR tl tr il ir ->
  exists out outm,
    a_difference tbL tbR il ir = Ok out /\ InterDiffThm.diff_spec pfx L R bits (entries tl) (entries tr) out /\
    map fst out = filter (fun e => negb (existsb (fun e' => beq (bits (fst e')) (bits (fst e))) (entries tr))) (entries tl) /\
    a_difference_mut tbL tbR il ir = Ok outm /\
    out = map (fun '(p, (_, l), ann) => (p, l, ann)) outm.
Proof.
  intros WL WR (_ & _ & _ & _ & A1 & A2 & _).
  destruct (InterDiffThm.difference_correct pfx L R peq contains is_bit_set plen lcp pzero mcmp bits ok LAWS ba bb tl tr WL WR)
    as (out & U & S).
  destruct (InterDiffThm.difference_filter pfx L R peq contains is_bit_set plen lcp pzero mcmp bits ok LAWS ba bb tl tr WL WR)
    as (out'' & U'' & FF).
  destruct (InterDiffThm.difference_mut_mirrors pfx L R peq contains is_bit_set plen lcp pzero mcmp bits ok LAWS ba bb tl tr WL WR)
    as (out' & outm & U' & UM & MM & _).
  rewrite U in U', U''. injection U' as <-. injection U'' as <-. exists out, outm.
  split; [exact (agree_ok _ _ _ A1 U)|]. split; [exact S|]. split; [exact FF|].
  split; [exact (agree_ok _ _ _ A2 UM)|exact MM].
Qed.

Lemma covering_difference_at tbL tbR tl tr ba bb il ir : wfL ba tl -> wfR bb tr -> setops_agree tbL tbR tl tr il ir ->
  exists out outm,
    a_covering_difference tbL tbR il ir = Ok out /\ InterDiffThm.cdiff_spec pfx L R bits (entries tl) (entries tr) out /\
    a_covering_difference_mut tbL tbR il ir = Ok outm /\
    out = map (fun '(p, (_, l)) => (p, l)) outm.
Proof.
  intros WL WR (_ & _ & _ & _ & _ & _ & A1 & A2).
  destruct (InterDiffThm.covering_difference_correct pfx L R peq contains is_bit_set plen lcp pzero mcmp bits ok LAWS ba bb tl tr WL WR)
    as (out & U & S).
  destruct (InterDiffThm.covering_difference_mut_mirrors pfx L R peq contains is_bit_set plen lcp pzero mcmp bits ok LAWS ba bb tl tr WL WR)
    as (out' & outm & U' & UM & MM & _).
  rewrite U in U'. injection U' as <-. exists out, outm.
  split; [exact (agree_ok _ _ _ A1 U)|]. split; [exact S|]. split; [exact (agree_ok _ _ _ A2 UM)|exact MM].
Qed.

(** C05 + C08 (union side): [union] at the roots of two reachable arenas returns [Ok out] where [out]
    meets [UnionThm.union_spec] against the two entry lists: strictly ascending keys; every item is
    correctly tagged ([ILeft]: stored left only, [IRight]: right only, [IBoth]: both) and its
    LPM annotation is the true longest-prefix match in the OTHER operand ([lpm_ann]); every key of either
    operand occurs.  [union_mut] returns the same keys with the same tags and values.
    Composes [Arena3Thm.setops_root_sim] with [UnionThm.union_correct] and [UnionThm.union_mut_mirrors]. *)
Theorem arena_C05_C08_union amL amR esL esR :
  areachL amL -> areachR amR -> Arena.a_entries pfx L amL = Ok esL -> Arena.a_entries pfx R amR = Ok esR ->
  exists out outm,
    a_union (tbl amL) (tbl amR) 0%N 0%N = Ok out /\ UnionThm.union_spec pfx L R bits esL esR out /\
    a_union_mut (tbl amL) (tbl amR) 0%N 0%N = Ok outm /\
    map (fun it => match it with
                   | ILeft _ _ _ p l _ => (p, Some l, None)
                   | IRight _ _ _ p _ r => (p, None, Some r)
                   | IBoth _ _ _ p l r => (p, Some l, Some r)
                   end) out
    = map (fun '(p, l, r) => (p, option_map snd l, option_map snd r)) outm.
Proof.
  intros HL HR EL ER. destruct (setops_setup amL amR esL esR HL HR EL ER) as (tl & tr & WL & WR & -> & -> & AG).
  exact (union_at _ _ tl tr [] [] _ _ WL WR AG).
Qed.

(** C06: [intersection] returns [Ok out] where [out] meets [InterDiffThm.inter_spec]: strictly ascending
    keys, exactly the keys stored in both operands with the left prefix and both values;
    [intersection_mut] returns the same items (plus slots).
    Composes [Arena3Thm.setops_root_sim] with [InterDiffThm.intersection_correct] and
    [InterDiffThm.intersection_mut_mirrors]. *)
Theorem arena_C06_intersection amL amR esL esR :
  areachL amL -> areachR amR -> Arena.a_entries pfx L amL = Ok esL -> Arena.a_entries pfx R amR = Ok esR ->
  exists out outm,
    a_intersection (tbl amL) (tbl amR) 0%N 0%N = Ok out /\ InterDiffThm.inter_spec pfx L R bits esL esR out /\
    a_intersection_mut (tbl amL) (tbl amR) 0%N 0%N = Ok outm /\
    out = map (fun '(p, (_, l), (_, r)) => (p, l, r)) outm.
Proof.
  intros HL HR EL ER. destruct (setops_setup amL amR esL esR HL HR EL ER) as (tl & tr & WL & WR & -> & -> & AG).
  exact (intersection_at _ _ tl tr [] [] _ _ WL WR AG).
Qed.

(** C07 + C08 (difference side): [difference] returns [Ok out] where [out] meets
    [InterDiffThm.diff_spec] (strictly ascending; exactly the left entries whose key is not stored on the
    right; each annotated with its true longest-prefix match on the right), its items are the left
    entries filtered by "key absent on the right" IN THE ORDER of [esL], and [difference_mut] returns
    the same items (plus slots).
    Composes [Arena3Thm.setops_root_sim] with [InterDiffThm.difference_correct],
    [InterDiffThm.difference_filter] and [InterDiffThm.difference_mut_mirrors]. *)
Theorem arena_C07_C08_difference amL amR esL esR :
  areachL amL -> areachR amR -> Arena.a_entries pfx L amL = Ok esL -> Arena.a_entries pfx R amR = Ok esR ->
  exists out outm,
    a_difference (tbl amL) (tbl amR) 0%N 0%N = Ok out /\ InterDiffThm.diff_spec pfx L R bits esL esR out /\
    map fst out = filter (fun e => negb (existsb (fun e' => beq (bits (fst e')) (bits (fst e))) esR)) esL /\
    a_difference_mut (tbl amL) (tbl amR) 0%N 0%N = Ok outm /\
    out = map (fun '(p, (_, l), ann) => (p, l, ann)) outm.
Proof.
  intros HL HR EL ER. destruct (setops_setup amL amR esL esR HL HR EL ER) as (tl & tr & WL & WR & -> & -> & AG).
  exact (difference_at _ _ tl tr [] [] _ _ WL WR AG).
Qed.

(** C07 (covering difference): [covering_difference] returns [Ok out] where [out] meets
    [InterDiffThm.cdiff_spec]: strictly ascending, exactly the left entries that no right entry covers;
    [covering_difference_mut] returns the same items (plus slots).
    Composes [Arena3Thm.setops_root_sim] with [InterDiffThm.covering_difference_correct] and
    [InterDiffThm.covering_difference_mut_mirrors]. *)
Theorem arena_C07_covering_difference amL amR esL esR :
  areachL amL -> areachR amR -> Arena.a_entries pfx L amL = Ok esL -> Arena.a_entries pfx R amR = Ok esR ->
  exists out outm,
    a_covering_difference (tbl amL) (tbl amR) 0%N 0%N = Ok out /\ InterDiffThm.cdiff_spec pfx L R bits esL esR out /\
    a_covering_difference_mut (tbl amL) (tbl amR) 0%N 0%N = Ok outm /\
    out = map (fun '(p, (_, l)) => (p, l)) outm.
Proof.
  intros HL HR EL ER. destruct (setops_setup amL amR esL esR HL HR EL ER) as (tl & tr & WL & WR & -> & -> & AG).
  exact (covering_difference_at _ _ tl tr [] [] _ _ WL WR AG).
Qed.

End AP2.

(** * The concrete prefix type [PrefixN] (any width [w >= 1], each flavour): no hypothesis left *)
From PT Require Import PrefixN PrefixLaws.

Section APN.
Variables (w : N) (fl : flavour) (V : Type).
Hypothesis Hw : (1 <= w)%N.

Notation P := PrefixN.pfx.
Notation PEQ := (PrefixN.peq w).
Notation CON := (PrefixN.contains w fl).
Notation BIT := (PrefixN.is_bit_set w).
Notation LEN := PrefixN.plen.
Notation LCP := (PrefixN.lcp w fl).
Notation ZERO := PrefixN.pzero.
Notation okN := (fun p : P => valid w p = true).

(** reachable from the empty arena by a history over the whole alphabet whose prefix arguments are
    valid ([len <= w], address below [2^w]) *)
Definition areachN (am : amap P V) : Prop := areach P V PEQ CON BIT LEN LCP ZERO okN am.
(** ... without [TrieViewMut::set] / [TrieViewMut::remove] *)
Definition areachN_counted (am : amap P V) : Prop :=
  areach_in P V PEQ CON BIT LEN LCP ZERO okN (counts2 P V) am.

(** C01 / C03 on the concrete instance *)
Theorem arena_N_C01_entries am : areachN am ->
  exists es, a_entries P V am = Ok es /\ StronglySorted (TrieWf.key_lt P V (pbits w)) es /\
             NoDup (map (TrieWf.key P V (pbits w)) es) /\ (forall e, In e es -> valid w (fst e) = true).
Proof. exact (arena_C01_entries P V PEQ CON BIT LEN LCP ZERO (mcmp w) (pbits w) okN (pn_laws w fl Hw) am). Qed.

Theorem arena_N_C01_get am es q : areachN am -> valid w q = true -> a_entries P V am = Ok es ->
  a_get P V PEQ CON BIT LEN am q = Ok (Refine.a_get P V (pbits w) es q) /\
  a_get_key_value P V PEQ CON BIT LEN am q = Ok (find (fun e => beq (TrieWf.key P V (pbits w) e) (pbits w q)) es) /\
  a_contains_key P V PEQ CON BIT LEN am q
  = Ok (match Refine.a_get P V (pbits w) es q with Some _ => true | None => false end).
Proof. exact (arena_C01_get P V PEQ CON BIT LEN LCP ZERO (mcmp w) (pbits w) okN (pn_laws w fl Hw) am es q). Qed.

Theorem arena_N_C02_get_lpm am es q : areachN am -> valid w q = true -> a_entries P V am = Ok es ->
  exists o, a_get_lpm P V PEQ CON BIT LEN am q = Ok o /\
    match o with
    | Some e => Lookup.is_lpm P V (pbits w) es q e
    | None => Lookup.no_cover P V (pbits w) es q
    end /\
    a_get_lpm_prefix P V PEQ CON BIT LEN am q = Ok (option_map fst o) /\
    exists om, a_get_lpm_mut P V PEQ CON BIT LEN am q = Ok om /\ option_map (Lookup.drop_slot P V) om = o.
Proof. exact (arena_C02_get_lpm P V PEQ CON BIT LEN LCP ZERO (mcmp w) (pbits w) okN (pn_laws w fl Hw) am es q). Qed.

Theorem arena_N_C04_count am es : areachN_counted am -> a_entries P V am = Ok es ->
  acount am = Z.of_nat (length es).
Proof. exact (arena_C04_count P V PEQ CON BIT LEN LCP ZERO (mcmp w) (pbits w) okN (pn_laws w fl Hw) am es). Qed.

(** C20 on the concrete instance: no observer and no mutator panics or diverges on a reachable arena
    (the selector of [remove_children] must be valid) *)
Theorem arena_N_C20_total am q x f g : areachN am -> valid w q = true ->
  (exists o, a_get P V PEQ CON BIT LEN am q = Ok o) /\
  (exists o, a_get_lpm P V PEQ CON BIT LEN am q = Ok o) /\
  (exists r, a_insert P V PEQ CON BIT LEN LCP am q x = Ok r) /\
  (exists r, a_remove P V PEQ CON BIT LEN am q = Ok r) /\
  (exists r, a_remove_keep_tree P V PEQ CON BIT LEN am q = Ok r) /\
  (exists es, a_entries P V am = Ok es) /\
  (exists am', a_remove_children P V PEQ CON BIT LEN LCP ZERO am q = Ok am') /\
  (exists r, a_retain P V f am = Ok r) /\
  (exists r, a_entry_insert P V PEQ CON BIT LEN LCP am q x = Ok r) /\
  (exists r, a_entry_remove P V PEQ CON BIT LEN LCP am q = Ok r) /\
  (exists am', a_entry_and_modify P V PEQ CON BIT LEN LCP am q g = Ok am') /\
  (exists am', a_get_mut P V PEQ CON BIT LEN am q g = Ok am') /\
  (exists o, a_get_key_value P V PEQ CON BIT LEN am q = Ok o) /\
  (exists o, a_contains_key P V PEQ CON BIT LEN am q = Ok o) /\
  (exists o, a_get_lpm_prefix P V PEQ CON BIT LEN am q = Ok o) /\
  (exists o, a_get_lpm_mut P V PEQ CON BIT LEN am q = Ok o) /\
  (exists o, a_get_spm P V PEQ CON BIT LEN am q = Ok o) /\
  (exists es, a_children P V PEQ CON BIT LEN am q = Ok es) /\
  (exists es, a_cover P V PEQ CON BIT LEN am q = Ok es).
Proof.
  intros H Hq.
  destruct (arena_C20_total2 P V PEQ CON BIT LEN LCP ZERO (mcmp w) (pbits w) okN (pn_laws w fl Hw) am q x f g H)
    as (A1 & A2 & A3 & A4 & A5 & A6 & A7 & A8 & _ & A10 & A11 & A12 & A13 & _).
  destruct (arena_C20_total3 P V PEQ CON BIT LEN LCP ZERO (mcmp w) (pbits w) okN (pn_laws w fl Hw) am q H)
    as (B1 & B2 & B3 & B4 & B5 & _ & _ & B8 & B9 & _).
  repeat (split; [assumption|]). split; [exact (A7 Hq)|]. repeat (split; [assumption|]). assumption.
Qed.

End APN.

Module ArenaPropsExample.
Import ArenaTest.
Open Scope N_scope.

(** insert 1/1, [entry().insert()] 10/2, insert 11/2, insert 101/3, remove 10/2 (its node, left with the one child 101/3,
    is spliced out and its slot freed), a write through [view_mut().right().value_mut()], [and_modify] on 11/2,
    [remove_keep_tree] and re-insertion of 101/3, insert 0/1 (value 6), [retain] of the odd values (which drops it) *)
Definition hx : list (aop2 P N) :=
  [AOld (AIns (p 128 1) 1); AEntryIns (p 128 2) 2; AOld (AIns (p 192 2) 3); AOld (AIns (p 160 3) 4);
   AOld (ARem (p 128 2)); AVmMut [true] (N.add 10); AEntryMod (p 192 2) (N.add 20);
   AOld (ARemKeep (p 160 3)); AOld (AIns (p 160 3) 5); AOld (AIns (p 0 1) 6);
   ARetain (fun _ _ x => Some (N.odd x))].

Definition amx : amap P N := Arena2Test.am_of (Arena2Test.arun2 hx).

Example hx_runs : Arena2Test.arun2 hx = Ok amx.
Proof. vm_compute. reflexivity. Qed.

Example hx_reachable : areachN 8 Generic N amx /\ areachN_counted 8 Generic N amx.
Proof.
  assert (F : Forall (aop2_ok P N (fun q => valid 8 q = true)) hx) by (repeat constructor).
  split; [exists hx|exists hx; split; [exact F|]]; split; try exact F; vm_compute; reflexivity.
Qed.

Example hx_observed :
  a_entries P N amx = Ok [(p 128 1, 11); (p 160 3, 5); (p 192 2, 23)] /\
  a_get_lpm P N PEQ CON BIT LEN amx (p 170 8) = Ok (Some (p 160 3, 5)) /\
  a_get_lpm P N PEQ CON BIT LEN amx (p 64 2) = Ok None /\
  acount amx = 3%Z.
Proof. vm_compute. repeat split; reflexivity. Qed.

Example hx_count_by_theorem : acount amx = Z.of_nat (length [(p 128 1, 11); (p 160 3, 5); (p 192 2, 23)]).
Proof.
  apply (arena_N_C04_count 8 Generic N ltac:(discriminate) amx); [exact (proj2 hx_reachable)|exact (proj1 hx_observed)].
Qed.

End ArenaPropsExample.

Print Assumptions zero_len.
Print Assumptions peq_len_ok.
Print Assumptions wf_rc_guard.
Print Assumptions step2_ok_sim.
Print Assumptions run2_from_ok_sim.
Print Assumptions run2_ok_sim.
Print Assumptions areach_Rep.
Print Assumptions areach_step_total.
Print Assumptions Rep_fun.
Print Assumptions arena_C01_entries.
Print Assumptions arena_C01_get.
Print Assumptions arena_C01_get_spec.
Print Assumptions arena_C02_get_lpm.
Print Assumptions arena_C09_cover.
Print Assumptions arena_C10_children.
Print Assumptions arena_C10_remove_children.
Print Assumptions arena_C10_retain.
Print Assumptions arena_C04_count.
Print Assumptions arena_C16_structure.
Print Assumptions arena_C05_C08_union.
Print Assumptions arena_C06_intersection.
Print Assumptions arena_C07_C08_difference.
Print Assumptions arena_C07_covering_difference.
Print Assumptions arena_C15_wf.
Print Assumptions arena_C15_canonical.
Print Assumptions arena_C20_total2.
Print Assumptions arena_C20_total3.
Print Assumptions arena_N_C01_entries.
Print Assumptions arena_N_C01_get.
Print Assumptions arena_N_C02_get_lpm.
Print Assumptions arena_N_C04_count.
Print Assumptions arena_N_C20_total.
Print Assumptions ArenaPropsExample.hx_reachable.
Print Assumptions ArenaPropsExample.hx_observed.
Print Assumptions ArenaPropsExample.hx_count_by_theorem.
