(** Refinement: after any history of public mutating calls the contents of the map are those of
    an abstract ordered association list, and every mutating call returns what the abstract map
    returns.  Keys are identified through [bits] only (the network part); the list stores the
    representation passed by the last inserting call. *)
From Coq Require Import List NArith ZArith Bool Arith Lia Sorted Permutation.
From PT Require Import Bits BitsThm Laws Trie TrieWf Lookup Mutate Retain History.
Import ListNotations.

#[local] Arguments OInsert {pfx V}.
#[local] Arguments OEntryInsert {pfx V}.
#[local] Arguments OOrInsert {pfx V}.
#[local] Arguments OOccRemove {pfx V}.
#[local] Arguments OUpdate {pfx V}.
#[local] Arguments ORemove {pfx V}.
#[local] Arguments ORemoveKeepTree {pfx V}.
#[local] Arguments ORemoveChildren {pfx V}.
#[local] Arguments ORetain {pfx V}.
#[local] Arguments OClear {pfx V}.
#[local] Arguments OCollect {pfx V}.
#[local] Arguments OWrite {pfx V}.
#[local] Arguments OViewSet {pfx V}.
#[local] Arguments OViewRemove {pfx V}.

Section R.
Variables (pfx V : Type).
Variables (peq contains : pfx -> pfx -> bool) (is_bit_set : pfx -> N -> bool)
          (plen : pfx -> N) (lcp : pfx -> pfx -> pfx) (pzero : pfx)
          (mcmp : pfx -> pfx -> comparison).
Variable bits : pfx -> list bool.
Variable ok : pfx -> Prop.
Hypothesis LAWS : prefix_laws pfx peq contains is_bit_set plen lcp pzero mcmp bits ok.

Notation tree := (Trie.tree pfx V).
Notation pmap := (Trie.pmap pfx V).
Notation wf_root := (TrieWf.wf_root pfx V bits ok).
Notation key := (TrieWf.key pfx V bits).
Notation key_lt := (TrieWf.key_lt pfx V bits).
Notation get := (Trie.get pfx V peq contains is_bit_set plen).
Notation get_key_value := (Trie.get_key_value pfx V peq contains is_bit_set plen).
Notation contains_key := (Trie.contains_key pfx V peq contains is_bit_set plen).
Notation insert := (Trie.insert pfx V peq contains is_bit_set plen lcp).
Notation vacant_insert := (Trie.vacant_insert pfx V peq contains is_bit_set plen lcp).
Notation occ_insert := (Trie.occ_insert pfx V peq contains is_bit_set plen).
Notation occ_remove := (Trie.occ_remove pfx V peq contains is_bit_set plen).
Notation update_value := (Trie.update_value pfx V peq contains is_bit_set plen).
Notation remove := (Trie.remove pfx V peq contains is_bit_set plen).
Notation remove_keep_tree := (Trie.remove_keep_tree pfx V peq contains is_bit_set plen).
Notation remove_children := (Trie.remove_children pfx V peq contains is_bit_set plen pzero).
Notation retain := (Trie.retain pfx V).
Notation empty := (Trie.empty pfx V pzero).
Notation from_list := (Trie.from_list pfx V peq contains is_bit_set plen lcp pzero).
Notation op := (History.op pfx V).
Notation step := (History.step pfx V peq contains is_bit_set plen lcp pzero).
Notation run := (History.run pfx V peq contains is_bit_set plen lcp pzero).
Notation op_ok := (History.op_ok pfx V ok).
Notation occupied := (History.occupied pfx V peq contains is_bit_set plen).
Local Notation wf_sorted := (TrieWf.wf_root_sorted pfx V bits ok).
Local Notation entries_ext := (Mutate.entries_ext pfx V pzero bits ok).

Definition amap := list (pfx * V).

(** [TrieWf.key] under the abstract map's own name ([akey_key], by [reflexivity]); likewise
    [a_without] and [a_remove_children] below are [Mutate.a_remove] and [Mutate.a_remove_children] *)
Definition akey (e : pfx * V) : list bool := bits (fst e).

Definition a_get (A : amap) (q : pfx) : option V :=
  option_map snd (find (fun e => beq (akey e) (bits q)) A).
Definition a_without (A : amap) (q : pfx) : amap :=
  filter (fun e => negb (beq (akey e) (bits q))) A.
Definition a_insert (A : amap) (q : pfx) (x : V) : amap :=
  filter (fun e => lex_ltb (akey e) (bits q)) A ++ (q, x) :: filter (fun e => lex_ltb (bits q) (akey e)) A.
Definition a_update (A : amap) (q : pfx) (g : V -> V) : amap :=
  map (fun e => if beq (akey e) (bits q) then (fst e, g (snd e)) else e) A.
Definition a_remove_children (A : amap) (q : pfx) : amap :=
  filter (fun e => negb (is_prefix (bits q) (akey e))) A.
Definition a_retain (A : amap) (g : pfx -> V -> bool) : amap :=
  filter (fun e => g (fst e) (snd e)) A.

(** the verdict of a pure, total [retain] closure *)
Definition verdict (f : nat -> pfx -> V -> option bool) (p : pfx) (x : V) : bool :=
  match f 0 p x with Some true => true | _ => false end.

(** one abstract step and what the call returns (previous / removed / resident value).  Meaningful on
    [refinable] operations only: the three slot-/path-addressed ones fall under the last clause and
    are treated by [Refine2.resolve]/[x_step].  The clause of [ORetain] has [verdict f] written out. *)
Definition a_step (A : amap) (o : op) : amap * option V :=
  match o with
  | OInsert q x | OEntryInsert q x => (a_insert A q x, a_get A q)
  | OOrInsert q x => (match a_get A q with Some _ => A | None => a_insert A q x end,
                      Some (match a_get A q with Some y => y | None => x end))
  | OOccRemove q | ORemove q | ORemoveKeepTree q => (a_without A q, a_get A q)
  | OUpdate q g => (a_update A q g, a_get A q)
  | ORemoveChildren q => (a_remove_children A q, None)
  | ORetain f => (a_retain A (fun p x => match f 0 p x with Some true => true | _ => false end), None)
  | OClear => ([], None)
  | OCollect _ => (A, None)
  | _ => (A, None)
  end.

(** what the concrete call returns *)
Definition c_out (m : pmap) (o : op) : option V :=
  match o with
  | OInsert q x => snd (insert m q x)
  | OEntryInsert q x => if occupied m q then snd (occ_insert m q x) else None
  | OOrInsert q x => Some (match get (root m) q with Some y => y | None => x end)
  | OOccRemove q => if occupied m q then snd (occ_remove m q) else None
  | ORemove q => snd (remove m q)
  | ORemoveKeepTree q => snd (remove_keep_tree m q)
  | OUpdate q _ => get (root m) q
  | _ => None
  end.

(** the sub-alphabet covered by the refinement theorem *)
Definition refinable (o : op) : Prop :=
  op_ok o /\
  match o with
  | OWrite _ | OViewSet _ _ | OViewRemove _ => False
  | ORetain f => forall n p x, f n p x = f 0 p x /\ f n p x <> None
  | _ => True
  end.

Definition a_run (ops : list op) : amap := fold_left (fun A o => fst (a_step A o)) ops [].

Fixpoint c_outs (m : pmap) (ops : list op) : list (option V) :=
  match ops with
  | [] => []
  | o :: ops' => c_out m o :: c_outs (step m o) ops'
  end.

Fixpoint a_outs (A : amap) (ops : list op) : list (option V) :=
  match ops with
  | [] => []
  | o :: ops' => snd (a_step A o) :: a_outs (fst (a_step A o)) ops'
  end.

Lemma akey_key e : akey e = key e.
Proof. reflexivity. Qed.

Lemma beq_key e q : beq (akey e) (bits q) = true <-> key e = bits q.
Proof. rewrite beq_spec. reflexivity. Qed.

Lemma beq_key_false e q : beq (akey e) (bits q) = false <-> key e <> bits q.
Proof.
  split.
  - intros H E. apply beq_key in E. congruence.
  - intros H. destruct (beq (akey e) (bits q)) eqn:E; [|reflexivity]. apply beq_key in E. contradiction.
Qed.

Lemma neq_lex (a b : list bool) : a <> b <-> lex_lt a b \/ lex_lt b a.
Proof.
  split.
  - intros H. destruct (lex_lt_total a b) as [E|[L|L]]; [contradiction | left; exact L | right; exact L].
  - intros [L|L] E; subst; eapply lex_lt_irrefl; exact L.
Qed.

Lemma in_a_insert A q x e :
  In e (a_insert A q x) <-> e = (q, x) \/ (In e A /\ key e <> bits q).
Proof.
  unfold a_insert. rewrite in_app_iff. cbn [In]. rewrite !filter_In, !lex_ltb_spec, neq_lex.
  rewrite akey_key. split.
  - intros [[H1 H2]|[H|[H1 H2]]]; auto.
  - intros [H|[H1 [H2|H2]]]; auto.
Qed.

Lemma in_a_without A q e : In e (a_without A q) <-> In e A /\ key e <> bits q.
Proof. unfold a_without. rewrite filter_In, nbeq_spec. reflexivity. Qed.

Lemma in_a_remove_children A q e :
  In e (a_remove_children A q) <-> In e A /\ ~ prefix_of (bits q) (key e).
Proof. unfold a_remove_children. rewrite filter_In, nprefix_spec. reflexivity. Qed.

Lemma in_a_retain A g e : In e (a_retain A g) <-> In e A /\ g (fst e) (snd e) = true.
Proof. unfold a_retain. rewrite filter_In. reflexivity. Qed.

Lemma in_a_update A q g e :
  In e (a_update A q g) <->
  (In e A /\ key e <> bits q) \/ (exists y, In (fst e, y) A /\ key e = bits q /\ snd e = g y).
Proof.
  unfold a_update. rewrite in_map_iff. split.
  - intros [e0 [H Hin]]. destruct (beq (akey e0) (bits q)) eqn:B.
    + apply beq_key in B. subst e. right. exists (snd e0). cbn [fst snd].
      rewrite <- surjective_pairing. auto.
    + apply beq_key_false in B. subst e. left. auto.
  - intros [[Hin Hne]|[y [Hin [Hk Hs]]]].
    + exists e. split; [|exact Hin]. apply beq_key_false in Hne. rewrite Hne. reflexivity.
    + exists (fst e, y). split; [|exact Hin].
      assert (B : beq (akey (fst e, y)) (bits q) = true) by (apply beq_key; exact Hk).
      rewrite B. cbn [fst snd]. rewrite <- Hs. symmetry. apply surjective_pairing.
Qed.

Lemma sorted_a_insert A q x : StronglySorted key_lt A -> StronglySorted key_lt (a_insert A q x).
Proof.
  intros HA. unfold a_insert. apply (sorted_app pfx V bits).
  - apply TrieWf.sorted_filter. exact HA.
  - constructor; [apply TrieWf.sorted_filter; exact HA|].
    apply Forall_forall. intros e He. apply filter_In in He. destruct He as [_ He].
    apply lex_ltb_spec in He. exact He.
  - intros a b Ha Hb. apply filter_In in Ha. destruct Ha as [_ Ha]. apply lex_ltb_spec in Ha.
    unfold TrieWf.key_lt. rewrite akey_key in Ha.
    destruct Hb as [<-|Hb]; [exact Ha|].
    apply filter_In in Hb. destruct Hb as [_ Hb]. apply lex_ltb_spec in Hb.
    eapply lex_lt_trans; [exact Ha | exact Hb].
Qed.

Lemma sorted_map_key (h : pfx * V -> pfx * V) (l : list (pfx * V)) :
  (forall e, key (h e) = key e) -> StronglySorted key_lt l -> StronglySorted key_lt (map h l).
Proof.
  intros Hh. induction l as [|a l IH]; intros Hs; cbn [map]; [constructor|].
  inversion Hs as [|? ? Hs' Hf]; subst. constructor; [apply IH; exact Hs'|].
  rewrite Forall_forall in *. intros e He. apply in_map_iff in He. destruct He as [e0 [<- He0]].
  unfold TrieWf.key_lt. rewrite !Hh. apply Hf. exact He0.
Qed.

Lemma sorted_a_update A q g : StronglySorted key_lt A -> StronglySorted key_lt (a_update A q g).
Proof.
  unfold a_update. apply sorted_map_key. intros e. destruct (beq (akey e) (bits q)); reflexivity.
Qed.

Lemma sorted_a_without A q : StronglySorted key_lt A -> StronglySorted key_lt (a_without A q).
Proof. apply TrieWf.sorted_filter. Qed.
Lemma sorted_a_remove_children A q : StronglySorted key_lt A -> StronglySorted key_lt (a_remove_children A q).
Proof. apply TrieWf.sorted_filter. Qed.
Lemma sorted_a_retain A g : StronglySorted key_lt A -> StronglySorted key_lt (a_retain A g).
Proof. apply TrieWf.sorted_filter. Qed.

Lemma a_step_sorted A o : StronglySorted key_lt A -> StronglySorted key_lt (fst (a_step A o)).
Proof.
  intros HA. destruct o; cbn [a_step fst]; try exact HA.
  - (* OInsert *) apply sorted_a_insert; exact HA.
  - (* OEntryInsert *) apply sorted_a_insert; exact HA.
  - (* OOrInsert *) destruct (a_get A q); [exact HA | apply sorted_a_insert; exact HA].
  - (* OOccRemove *) apply sorted_a_without; exact HA.
  - (* OUpdate *) apply sorted_a_update; exact HA.
  - (* ORemove *) apply sorted_a_without; exact HA.
  - (* ORemoveKeepTree *) apply sorted_a_without; exact HA.
  - (* ORemoveChildren *) apply TrieWf.sorted_filter; exact HA.
  - (* ORetain *) apply TrieWf.sorted_filter; exact HA.
  - (* OClear *) constructor.
Qed.

Theorem a_run_sorted ops : StronglySorted key_lt (a_run ops).
Proof.
  apply (fold_left_keeps _ (StronglySorted key_lt)); [|constructor].
  intros A o. apply a_step_sorted.
Qed.

Lemma find_key_spec A q e :
  StronglySorted key_lt A ->
  (find (fun e => beq (akey e) (bits q)) A = Some e <-> In e A /\ key e = bits q).
Proof.
  intros HA. split.
  - intros H. apply find_some in H. destruct H as [H1 H2]. apply beq_key in H2. auto.
  - intros [Hin Hk]. destruct (find (fun e => beq (akey e) (bits q)) A) as [e'|] eqn:F.
    + apply find_some in F. destruct F as [F1 F2]. apply beq_key in F2. f_equal.
      apply (sorted_key_inj pfx V bits A); [exact HA | exact F1 | exact Hin | congruence].
    + exfalso. pose proof (find_none _ _ F e Hin) as N. cbn beta in N.
      apply beq_key_false in N. contradiction.
Qed.

Lemma a_get_spec A q x :
  StronglySorted key_lt A ->
  (a_get A q = Some x <-> exists p, In (p, x) A /\ bits p = bits q).
Proof.
  intros HA. unfold a_get. split.
  - destruct (find (fun e => beq (akey e) (bits q)) A) as [e|] eqn:F; [|discriminate].
    cbn [option_map]. intros H. inversion H; subst. apply (find_key_spec A q e HA) in F.
    destruct F as [F1 F2]. exists (fst e). rewrite <- surjective_pairing. auto.
  - intros [p [Hin Hk]]. assert (F : find (fun e => beq (akey e) (bits q)) A = Some (p, x)).
    { apply find_key_spec; [exact HA|]. auto. }
    rewrite F. reflexivity.
Qed.

Lemma a_get_none A q : a_get A q = None <-> forall e, In e A -> key e <> bits q.
Proof.
  unfold a_get. split.
  - destruct (find (fun e => beq (akey e) (bits q)) A) as [e|] eqn:F; [discriminate|].
    intros _ e Hin. apply beq_key_false. apply (find_none _ _ F e Hin).
  - intros H. destruct (find (fun e => beq (akey e) (bits q)) A) as [e|] eqn:F; [|reflexivity].
    exfalso. apply find_some in F. destruct F as [F1 F2]. apply beq_key in F2. apply (H e F1 F2).
Qed.

Lemma get_refines (t : tree) q : wf_root t -> ok q -> get t q = a_get (entries t) q.
Proof.
  intros Hr Hq. apply option_ext. intros x. rewrite (a_get_spec (entries t) q x (wf_sorted t Hr)).
  eapply get_spec_root; eauto.
Qed.

Lemma get_key_value_refines (t : tree) q :
  wf_root t -> ok q -> get_key_value t q = find (fun e => beq (akey e) (bits q)) (entries t).
Proof.
  intros Hr Hq. apply option_ext. intros [p x]. rewrite (find_key_spec (entries t) q (p, x) (wf_sorted t Hr)).
  eapply get_key_value_spec_root; eauto.
Qed.

Lemma contains_key_get (t : tree) q : contains_key t q = is_some (get t q).
Proof.
  unfold Trie.contains_key, Trie.get.
  destruct (Trie.get_node pfx V peq contains is_bit_set plen t q) as [[[i p] [x|]]|]; reflexivity.
Qed.

Lemma contains_key_refines (t : tree) q :
  wf_root t -> ok q -> (contains_key t q = true <-> a_get (entries t) q <> None).
Proof.
  intros Hr Hq. rewrite contains_key_get, (get_refines t q Hr Hq).
  destruct (a_get (entries t) q); cbn; split; congruence.
Qed.

Lemma a_without_absent A q : StronglySorted key_lt A -> a_get A q = None -> a_without A q = A.
Proof.
  intros HA N. rewrite a_get_none in N. apply (sorted_ext pfx V bits); [apply sorted_a_without; exact HA | exact HA|].
  intros e. rewrite in_a_without. split; [tauto|]. intros H. split; [exact H | apply N; exact H].
Qed.

Lemma insert_ext (t t' : tree) q x :
  wf_root t -> wf_root t' ->
  (forall e, In e (entries t') <-> e = (q, x) \/ (In e (entries t) /\ key e <> bits q)) ->
  entries t' = a_insert (entries t) q x.
Proof.
  intros Hr Hr' H. apply entries_ext; [exact Hr' | apply sorted_a_insert; apply wf_sorted; exact Hr|].
  intros e. rewrite H, in_a_insert. reflexivity.
Qed.

Lemma insert_refines m q x :
  wf_root (root m) -> ok q ->
  entries (root (fst (insert m q x))) = a_insert (entries (root m)) q x /\
  snd (insert m q x) = a_get (entries (root m)) q.
Proof.
  intros Hr Hq. destruct (insert m q x) as [m' o] eqn:E. cbn [fst snd].
  destruct (insert_spec pfx V peq contains is_bit_set plen lcp pzero mcmp bits ok LAWS m q x m' o Hr Hq E)
    as [P1 [P2 P3]].
  split; [apply insert_ext; assumption | rewrite P3; apply get_refines; assumption].
Qed.

Lemma vacant_insert_refines m q x :
  wf_root (root m) -> ok q ->
  entries (root (vacant_insert m q x)) = a_insert (entries (root m)) q x.
Proof.
  intros Hr Hq.
  destruct (vacant_insert_spec pfx V peq contains is_bit_set plen lcp pzero mcmp bits ok LAWS m q x Hr Hq)
    as [P1 P2].
  apply insert_ext; assumption.
Qed.

Lemma occ_insert_refines m q x y :
  wf_root (root m) -> ok q -> get (root m) q = Some y ->
  entries (root (fst (occ_insert m q x))) = a_insert (entries (root m)) q x /\
  snd (occ_insert m q x) = Some y.
Proof.
  intros Hr Hq G. destruct (occ_insert m q x) as [m' o] eqn:E. cbn [fst snd].
  destruct (occ_insert_spec pfx V peq contains is_bit_set plen lcp pzero mcmp bits ok LAWS m q x y m' o Hr Hq G E)
    as [P1 [P2 [P3 _]]].
  split; [apply insert_ext; assumption | exact P3].
Qed.

(* this and the next three: the [Mutate] theorems of the same stem, with the returned value added
   (none for [remove_children]) *)
Lemma remove_refines2 m q :
  wf_root (root m) -> ok q ->
  entries (root (fst (remove m q))) = a_without (entries (root m)) q /\
  snd (remove m q) = a_get (entries (root m)) q.
Proof.
  intros Hr Hq.
  split; [exact (remove_refines pfx V peq contains is_bit_set plen lcp pzero mcmp bits ok LAWS m q Hr Hq)|].
  destruct (remove m q) as [m' o] eqn:E. cbn [snd].
  destruct (remove_spec pfx V peq contains is_bit_set plen lcp pzero mcmp bits ok LAWS m q m' o Hr Hq E)
    as [_ [_ P3]].
  rewrite P3. apply get_refines; assumption.
Qed.

Lemma remove_keep_tree_refines2 m q :
  wf_root (root m) -> ok q ->
  entries (root (fst (remove_keep_tree m q))) = a_without (entries (root m)) q /\
  snd (remove_keep_tree m q) = a_get (entries (root m)) q.
Proof.
  intros Hr Hq.
  split; [exact (remove_keep_tree_refines pfx V peq contains is_bit_set plen lcp pzero mcmp bits ok LAWS m q Hr Hq)|].
  apply get_refines; assumption.
Qed.

Lemma occ_remove_refines2 m q :
  wf_root (root m) -> ok q ->
  entries (root (fst (occ_remove m q))) = a_without (entries (root m)) q /\
  snd (occ_remove m q) = a_get (entries (root m)) q.
Proof. exact (remove_keep_tree_refines2 m q). Qed.

Lemma remove_children_refines2 m q :
  wf_root (root m) -> ok q ->
  entries (root (remove_children m q)) = a_remove_children (entries (root m)) q.
Proof. exact (Mutate.remove_children_refines pfx V peq contains is_bit_set plen lcp pzero mcmp bits ok LAWS m q). Qed.

Lemma update_refines m q g :
  wf_root (root m) -> ok q ->
  entries (root (update_value m q g)) = a_update (entries (root m)) q g.
Proof.
  intros Hr Hq.
  destruct (update_value_spec pfx V peq contains is_bit_set plen lcp pzero mcmp bits ok LAWS m q g Hr Hq)
    as [P1 [P2 _]].
  apply entries_ext; [exact P1 | apply sorted_a_update; apply wf_sorted; exact Hr|].
  intros e. rewrite P2, in_a_update. reflexivity.
Qed.

Lemma retain_refines (f : nat -> pfx -> V -> option bool) m :
  wf_root (root m) -> (forall n p x, f n p x = f 0 p x /\ f n p x <> None) ->
  entries (root (fst (fst (retain f m)))) = a_retain (entries (root m)) (verdict f).
Proof.
  intros Hr Hpure. destruct (retain f m) as [[m' pn] calls] eqn:E. cbn [fst].
  assert (Hf : forall n p x c, f n p x = Some c -> c = verdict f p x).
  { intros n p x c H. unfold verdict. rewrite <- (proj1 (Hpure n p x)), H. destruct c; reflexivity. }
  destruct (retain_spec pfx V bits ok f (verdict f) Hf m m' pn calls Hr E)
    as [_ [_ [_ [_ [_ [Pdone Ppan]]]]]].
  destruct pn.
  - exfalso. destruct (Ppan eq_refl) as [e [_ [_ N]]]. apply (proj2 (Hpure (length calls) (fst e) (snd e))). exact N.
  - destruct (Pdone eq_refl) as [P _]. rewrite P. reflexivity.
Qed.

Lemma perm_entries_ok (L : list (pfx * V)) (t : tree) :
  wf_root t -> Permutation L (entries t) -> forall e, In e L -> ok (fst e).
Proof.
  intros Hr HP e He. exact (wf_root_entries_ok pfx V bits ok t e Hr (Permutation_in e HP He)).
Qed.

(** [L] has the keys of [entries t], pairwise distinct, so no entry of [L] is overwritten by a later
    one and [from_list L] holds exactly the entries of [L] *)
Lemma from_list_perm (L : list (pfx * V)) (t : tree) :
  wf_root t -> Permutation L (entries t) -> entries (root (from_list L)) = entries t.
Proof.
  intros Hr HP.
  destruct (from_list_spec pfx V peq contains is_bit_set plen lcp pzero mcmp bits ok LAWS L (perm_entries_ok L t Hr HP))
    as [P1 P2].
  pose proof (wf_sorted t Hr) as HsE.
  assert (Hnd : NoDup (map key L)).
  { apply (Permutation_NoDup (Permutation_map key (Permutation_sym HP))). exact (TrieWf.sorted_nodup_keys pfx V bits _ HsE). }
  apply entries_ext; [exact P1 | exact HsE|].
  intros e. rewrite P2. split.
  - intros (l1 & l2 & El & _). apply (Permutation_in e HP). rewrite El. apply in_elt.
  - intros He. apply (Permutation_in e (Permutation_sym HP)), in_split in He.
    destruct He as (l1 & l2 & El). exists l1, l2. split; [exact El|].
    intros e' He' Ek. rewrite El, map_app in Hnd. apply NoDup_remove_2 in Hnd. apply Hnd.
    rewrite <- Ek. apply in_or_app. right. exact (in_map key l2 e' He').
Qed.

Lemma collect_refines (perm : list (pfx * V) -> list (pfx * V)) m :
  wf_root (root m) -> (forall l, Permutation (perm l) l) ->
  entries (root (from_list (perm (entries (root m))))) = entries (root m).
Proof. intros Hr Hp. exact (from_list_perm _ _ Hr (Hp _)). Qed.

Theorem step_refines m o :
  wf_root (root m) -> refinable o ->
  entries (root (step m o)) = fst (a_step (entries (root m)) o) /\
  c_out m o = snd (a_step (entries (root m)) o).
Proof.
  intros Hr [Hok Href]. pose proof (wf_sorted _ Hr) as HsA.
  destruct o; cbn [step a_step c_out fst snd History.op_ok] in *; try contradiction.
  - (* insert *) apply insert_refines; assumption.
  - (* entry(q).insert(x) *)
    unfold History.occupied. rewrite <- (get_refines (root m) q Hr Hok).
    destruct (get (root m) q) as [y|] eqn:G.
    + apply occ_insert_refines; assumption.
    + split; [apply vacant_insert_refines; assumption | reflexivity].
  - (* or_insert *)
    unfold History.occupied. rewrite <- (get_refines (root m) q Hr Hok).
    destruct (get (root m) q) as [y|] eqn:G.
    + split; reflexivity.
    + split; [apply vacant_insert_refines; assumption | reflexivity].
  - (* OccupiedEntry::remove *)
    unfold History.occupied.
    destruct (get (root m) q) as [y|] eqn:G.
    + apply remove_keep_tree_refines2; assumption.
    + rewrite (get_refines (root m) q Hr Hok) in G. rewrite G. split; [|reflexivity].
      symmetry. apply a_without_absent; assumption.
  - (* update *)
    split; [apply update_refines; assumption | apply get_refines; assumption].
  - (* remove *) apply remove_refines2; assumption.
  - (* remove_keep_tree *) apply remove_keep_tree_refines2; assumption.
  - (* remove_children *) split; [eapply remove_children_refines; eassumption | reflexivity].
  - (* retain *) split; [apply retain_refines; assumption | reflexivity].
  - (* clear *) split; reflexivity.
  - (* collect *) split; [apply collect_refines; assumption | reflexivity].
Qed.

Lemma refinable_ok o : refinable o -> op_ok o.
Proof. intros [H _]. exact H. Qed.

Lemma step_observers m o q :
  wf_root (root m) -> refinable o -> ok q ->
  get (root (step m o)) q = a_get (fst (a_step (entries (root m)) o)) q /\
  get_key_value (root (step m o)) q = find (fun e => beq (akey e) (bits q)) (fst (a_step (entries (root m)) o)).
Proof.
  intros Hr Ho Hq. rewrite <- (proj1 (step_refines m o Hr Ho)).
  pose proof (step_wf pfx V peq contains is_bit_set plen lcp pzero mcmp bits ok LAWS m o (refinable_ok o Ho) Hr) as Hr'.
  split; [apply get_refines | apply get_key_value_refines]; assumption.
Qed.

Lemma run_wf ops : Forall refinable ops -> wf_root (root (run ops)).
Proof.
  intros Hall. apply (reachable_wf pfx V peq contains is_bit_set plen lcp pzero mcmp bits ok LAWS), (Forall_impl _ refinable_ok), Hall.
Qed.

Lemma fold_refines ops : forall m A,
  wf_root (root m) -> entries (root m) = A -> Forall refinable ops ->
  entries (root (fold_left step ops m)) = fold_left (fun A o => fst (a_step A o)) ops A /\
  c_outs m ops = a_outs A ops.
Proof.
  induction ops as [|o ops IH]; intros m A Hr EA Hall; cbn [fold_left c_outs a_outs].
  - split; [exact EA | reflexivity].
  - inversion Hall as [|? ? Ho Hops]; subst.
    destruct (step_refines m o Hr Ho) as [S1 S2].
    assert (Hr' : wf_root (root (step m o))).
    { apply (step_wf pfx V peq contains is_bit_set plen lcp pzero mcmp bits ok LAWS); [apply refinable_ok; exact Ho | exact Hr]. }
    destruct (IH (step m o) (fst (a_step (entries (root m)) o)) Hr' S1 Hops) as [I1 I2].
    split; [exact I1|]. rewrite S2, I2. reflexivity.
Qed.

Lemma empty_wf : wf_root (root empty).
Proof. exact (proj1 (empty_spec pfx V peq contains is_bit_set plen lcp pzero mcmp bits ok LAWS)). Qed.

Theorem run_refines ops : Forall refinable ops -> entries (root (run ops)) = a_run ops.
Proof.
  intros Hall. unfold History.run, a_run.
  apply (fold_refines ops empty [] empty_wf eq_refl Hall).
Qed.

Theorem outs_refine ops : Forall refinable ops -> c_outs empty ops = a_outs [] ops.
Proof. intros Hall. apply (fold_refines ops empty [] empty_wf eq_refl Hall). Qed.

Corollary run_refines_every_step ops1 ops2 :
  Forall refinable (ops1 ++ ops2) ->
  entries (root (run ops1)) = a_run ops1 /\
  entries (root (run (ops1 ++ ops2))) = fold_left (fun A o => fst (a_step A o)) ops2 (a_run ops1) /\
  c_outs empty (ops1 ++ ops2) = a_outs [] ops1 ++ a_outs (a_run ops1) ops2.
Proof.
  intros Hall. pose proof Hall as Hall'. apply Forall_app in Hall'. destruct Hall' as [H1 H2].
  split; [apply run_refines; exact H1|]. split.
  - rewrite (run_refines _ Hall). unfold a_run. apply fold_left_app.
  - rewrite (outs_refine _ Hall). unfold a_run. generalize (@nil (pfx * V)) as A.
    clear. induction ops1 as [|o ops1 IH]; intros A; cbn [app a_outs fold_left]; [reflexivity|].
    rewrite IH. reflexivity.
Qed.

Corollary reachable_step_refines ops o :
  Forall refinable ops -> refinable o ->
  entries (root (step (run ops) o)) = fst (a_step (a_run ops) o) /\
  c_out (run ops) o = snd (a_step (a_run ops) o).
Proof.
  intros Hall Ho. rewrite <- (run_refines ops Hall). apply step_refines; [apply run_wf; exact Hall | exact Ho].
Qed.


Theorem get_run_refines ops q :
  Forall refinable ops -> ok q -> get (root (run ops)) q = a_get (a_run ops) q.
Proof.
  intros Hall Hq. rewrite <- (run_refines ops Hall). apply get_refines; [apply run_wf; exact Hall | exact Hq].
Qed.

Theorem get_key_value_run_refines ops q :
  Forall refinable ops -> ok q ->
  get_key_value (root (run ops)) q = find (fun e => beq (akey e) (bits q)) (a_run ops).
Proof.
  intros Hall Hq. rewrite <- (run_refines ops Hall).
  apply get_key_value_refines; [apply run_wf; exact Hall | exact Hq].
Qed.

Theorem contains_key_run_refines ops q :
  Forall refinable ops -> ok q ->
  (contains_key (root (run ops)) q = true <-> a_get (a_run ops) q <> None).
Proof.
  intros Hall Hq. rewrite <- (run_refines ops Hall).
  apply contains_key_refines; [apply run_wf; exact Hall | exact Hq].
Qed.

(** * Keys are identified by their network part; the stored representation is the last inserted *)

Theorem a_run_keys_NoDup ops : NoDup (map akey (a_run ops)).
Proof. apply (TrieWf.sorted_nodup_keys pfx V bits). apply a_run_sorted. Qed.

Theorem key_only A q q' :
  bits q = bits q' ->
  a_get A q = a_get A q' /\
  find (fun e => beq (akey e) (bits q)) A = find (fun e => beq (akey e) (bits q')) A /\
  a_without A q = a_without A q' /\
  a_remove_children A q = a_remove_children A q' /\
  (forall g, a_update A q g = a_update A q' g) /\
  (forall x,
     snd (a_step A (OInsert q x)) = snd (a_step A (OInsert q' x)) /\
     map akey (fst (a_step A (OInsert q x))) = map akey (fst (a_step A (OInsert q' x))) /\
     map snd (fst (a_step A (OInsert q x))) = map snd (fst (a_step A (OInsert q' x))) /\
     exists A1 A2,
       fst (a_step A (OInsert q x)) = A1 ++ (q, x) :: A2 /\
       fst (a_step A (OInsert q' x)) = A1 ++ (q', x) :: A2 /\
       (forall e, In e A1 \/ In e A2 -> In e A /\ akey e <> bits q)).
Proof.
  intros E. unfold a_get, a_without, a_remove_children, a_update. cbn [a_step fst snd].
  unfold a_get, a_insert. rewrite <- E.
  split; [reflexivity|]. split; [reflexivity|]. split; [reflexivity|]. split; [reflexivity|].
  split; [reflexivity|]. intros x. split; [reflexivity|].
  split; [rewrite !map_app; cbn [map]; do 2 f_equal; exact E|].
  split; [rewrite !map_app; reflexivity|].
  exists (filter (fun e => lex_ltb (akey e) (bits q)) A), (filter (fun e => lex_ltb (bits q) (akey e)) A).
  split; [reflexivity|]. split; [reflexivity|].
  intros e [H|H]; apply filter_In in H; destruct H as [H1 H2]; apply lex_ltb_spec in H2;
    (split; [exact H1|]); intros Ek; rewrite Ek in H2; eapply lex_lt_irrefl; exact H2.
Qed.

Corollary key_only_outputs A q q' :
  bits q = bits q' ->
  (forall x, snd (a_step A (OInsert q x)) = snd (a_step A (OInsert q' x))) /\
  (forall x, snd (a_step A (OEntryInsert q x)) = snd (a_step A (OEntryInsert q' x))) /\
  (forall x, snd (a_step A (OOrInsert q x)) = snd (a_step A (OOrInsert q' x))) /\
  a_step A (OOccRemove q) = a_step A (OOccRemove q') /\
  a_step A (ORemove q) = a_step A (ORemove q') /\
  a_step A (ORemoveKeepTree q) = a_step A (ORemoveKeepTree q') /\
  a_step A (ORemoveChildren q) = a_step A (ORemoveChildren q') /\
  (forall g, a_step A (OUpdate q g) = a_step A (OUpdate q' g)).
Proof.
  intros E. destruct (key_only A q q' E) as [K1 [_ [K2 [K3 [K4 _]]]]].
  cbn [a_step fst snd]. rewrite K1, K2, K3.
  repeat split; try reflexivity. intros g. rewrite K4. reflexivity.
Qed.

Theorem repr_stable A :
  (forall q e, In e (a_without A q) -> In e A) /\
  (forall q e, In e (a_remove_children A q) -> In e A) /\
  (forall g e, In e (a_retain A g) -> In e A) /\
  (forall q g e, In e (a_update A q g) -> exists e0, In e0 A /\ fst e = fst e0) /\
  (forall q x e, In e (a_insert A q x) -> e = (q, x) \/ (In e A /\ akey e <> bits q)).
Proof.
  split; [|split; [|split; [|split]]].
  - intros q e H. apply in_a_without in H. tauto.
  - intros q e H. apply in_a_remove_children in H. tauto.
  - intros g e H. apply in_a_retain in H. tauto.
  - intros q g e H. apply in_a_update in H. destruct H as [[H _]|[y [H _]]].
    + exists e. auto.
    + exists (fst e, y). auto.
  - intros q x e H. apply in_a_insert in H. exact H.
Qed.

Theorem a_insert_stores A q q' x :
  StronglySorted key_lt A -> bits q' = bits q ->
  find (fun e => beq (akey e) (bits q')) (a_insert A q x) = Some (q, x) /\
  a_get (a_insert A q x) q' = Some x.
Proof.
  intros HA E.
  assert (F : find (fun e => beq (akey e) (bits q')) (a_insert A q x) = Some (q, x)).
  { apply find_key_spec; [apply sorted_a_insert; exact HA|]. split; [|symmetry; exact E].
    apply in_a_insert. left. reflexivity. }
  split; [exact F|]. unfold a_get. rewrite F. reflexivity.
Qed.

(** the output recorded for [or_insert] is the value found at [q] after the call (what the
    returned reference points to) *)
Lemma or_insert_out m q x :
  wf_root (root m) -> ok q ->
  get (root (step m (OOrInsert q x))) q = c_out m (OOrInsert q x).
Proof.
  intros Hr Hq. rewrite (proj1 (step_observers m (OOrInsert q x) q Hr (conj Hq I) Hq)). cbn [a_step fst c_out].
  rewrite (get_refines (root m) q Hr Hq).
  destruct (a_get (entries (root m)) q) as [y|] eqn:G; [exact G|].
  apply a_insert_stores; [apply wf_sorted; exact Hr | reflexivity].
Qed.

Corollary insert_stores_repr ops q q' x :
  Forall refinable ops -> ok q -> ok q' -> bits q' = bits q ->
  get_key_value (root (step (run ops) (OInsert q x))) q' = Some (q, x).
Proof.
  intros Hall Hq Hq' E.
  rewrite (proj2 (step_observers (run ops) (OInsert q x) q' (run_wf ops Hall) (conj Hq I) Hq')), (run_refines ops Hall).
  apply a_insert_stores; [apply a_run_sorted | exact E].
Qed.

End R.

Print Assumptions step_refines.
Print Assumptions run_refines.
Print Assumptions outs_refine.
Print Assumptions run_refines_every_step.
Print Assumptions reachable_step_refines.
Print Assumptions get_run_refines.
Print Assumptions get_key_value_run_refines.
Print Assumptions contains_key_run_refines.
Print Assumptions a_run_sorted.
Print Assumptions a_run_keys_NoDup.
Print Assumptions key_only.
Print Assumptions key_only_outputs.
Print Assumptions repr_stable.
Print Assumptions a_insert_stores.
Print Assumptions insert_stores_repr.
Print Assumptions or_insert_out.
