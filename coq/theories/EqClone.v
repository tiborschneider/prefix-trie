(** Equality ([PartialEq for PrefixMap]/[PrefixSet]).  [map_eq] pairs up the two iterators ([self.iter().eq(other.iter())]); it is a
    function of the two entry lists only. *)
From Coq Require Import List Bool.
From PT Require Import Trie Lookup2.
Import ListNotations.

Section EQ.
Variables (pfx V : Type) (prepr_eq : pfx -> pfx -> bool) (veq : V -> V -> bool).
Notation tree := (tree pfx V).
Notation list_eqb := (list_eqb pfx V prepr_eq veq).
Notation map_eq := (map_eq pfx V prepr_eq veq).

(** the pairwise relation the types' own [==] induce on entries *)
Definition pair_eq (e1 e2 : pfx * V) : Prop :=
  prepr_eq (fst e1) (fst e2) = true /\ veq (snd e1) (snd e2) = true.

Theorem list_eqb_spec (a : list (pfx * V)) : forall b, list_eqb a b = true <-> Forall2 pair_eq a b.
Proof.
  induction a as [|[p x] a IH]; intros [|[q y] b]; cbn [Trie.list_eqb].
  - split; [constructor | reflexivity].
  - split; [discriminate | intros H; inversion H].
  - split; [discriminate | intros H; inversion H].
  - rewrite !andb_true_iff, IH. split.
    + intros [[A B] C]. constructor; [split; assumption | exact C].
    + intros H. inversion H as [|? ? ? ? [A B] C]; subst. auto.
Qed.

Theorem map_eq_spec (a b : tree) : map_eq a b = true <-> Forall2 pair_eq (entries a) (entries b).
Proof. unfold Trie.map_eq. apply list_eqb_spec. Qed.

Corollary map_eq_length (a b : tree) : map_eq a b = true -> length (entries a) = length (entries b).
Proof. rewrite map_eq_spec. induction 1; cbn; congruence. Qed.

Corollary map_eq_surplus (a b : tree) :
  length (entries a) <> length (entries b) -> map_eq a b = false.
Proof.
  intros H. destruct (map_eq a b) eqn:E; [|reflexivity]. exfalso. apply H, map_eq_length, E.
Qed.

Corollary map_eq_empty (a b : tree) : entries a = [] -> (map_eq a b = true <-> entries b = []).
Proof.
  intros Ea. rewrite map_eq_spec, Ea. split.
  - intros H. inversion H. reflexivity.
  - intros ->. constructor.
Qed.

Corollary map_eq_shape_independent (a a' b b' : tree) :
  entries a = entries a' -> entries b = entries b' -> map_eq a b = map_eq a' b'.
Proof. unfold Trie.map_eq. intros -> ->. reflexivity. Qed.

(** when the component equalities decide Leibniz equality (as [==] on the shipped prefix types —
    address and length — and on any [Eq] value type do), [==] on maps decides equality of the
    entry sequences; it is then an equivalence relation *)
Hypothesis prepr_eq_spec : forall p q, prepr_eq p q = true <-> p = q.
Hypothesis veq_spec : forall x y, veq x y = true <-> x = y.

Lemma Forall2_pair_eq_eq (a b : list (pfx * V)) : Forall2 pair_eq a b <-> a = b.
Proof.
  split.
  - induction 1 as [|[p x] [q y] a b [A B] _ IH]; [reflexivity|]. cbn in A, B.
    apply prepr_eq_spec in A. apply veq_spec in B. subst. reflexivity.
  - intros <-. induction a as [|[p x] a IH]; constructor; [|exact IH].
    split; cbn; [apply prepr_eq_spec | apply veq_spec]; reflexivity.
Qed.

Theorem map_eq_iff (a b : tree) : map_eq a b = true <-> entries a = entries b.
Proof. rewrite map_eq_spec. apply Forall2_pair_eq_eq. Qed.

Corollary map_eq_refl (a : tree) : map_eq a a = true.
Proof. apply map_eq_iff. reflexivity. Qed.
Corollary map_eq_sym (a b : tree) : map_eq a b = map_eq b a.
Proof. apply eq_true_iff_eq. rewrite !map_eq_iff. split; intros H; symmetry; exact H. Qed.
Corollary map_eq_trans (a b c : tree) : map_eq a b = true -> map_eq b c = true -> map_eq a c = true.
Proof. rewrite !map_eq_iff. congruence. Qed.

Corollary map_eq_differs (a b : tree) e1 e2 n :
  nth_error (entries a) n = Some e1 -> nth_error (entries b) n = Some e2 -> e1 <> e2 -> map_eq a b = false.
Proof.
  intros H1 H2 Hne. destruct (map_eq a b) eqn:E; [|reflexivity]. apply map_eq_iff in E.
  rewrite E in H1. congruence.
Qed.

End EQ.

(** The iterator-based definition that is extracted ([Inst.t_map_eq] compares the outputs of the
    two [Iter] stack machines) is the same function. *)
Section IT.
Variables (pfx V : Type) (prepr_eq : pfx -> pfx -> bool) (veq : V -> V -> bool).
Theorem iter_eq_map_eq (a b : tree pfx V) :
  list_eqb pfx V prepr_eq veq (map (Lookup2.drop_id pfx V) (iter_items pfx V a))
                              (map (Lookup2.drop_id pfx V) (iter_items pfx V b))
  = map_eq pfx V prepr_eq veq a b.
Proof. rewrite !iter_items_spec, !entries_id_entries. reflexivity. Qed.
End IT.
