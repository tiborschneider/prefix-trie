(** Glue for the property files C03 / C09 / C10:
    - draining a stack machine by repeated calls of [next] (what a Rust [for] loop does) yields
      what [run] yields, one item per call, then [None] with the empty stack; the sequence is a
      function of the stack (so a cloned iterator yields the same remaining items);
    - the iteration order [lex_lt] on keys is "ascending by masked network address, then by prefix
      length" for the concrete prefix type [PrefixN];
    - [children] and the cover as [filter]s of the entry list ([children_filter],
      [cover_walk_filter]); [get_spm]/[get_lpm] as head/last of the cover filter
      ([lookups_by_filter]), and [get_spm] against the entry list ([get_spm_spec_root]);
    - [retain] with an arbitrary closure: a run depends on the closure through its answers only
      ([ret_graph_ext], [ret_ext]), and some function of the entry alone gives the verdicts it
      returned ([retain_any_predicate], [retain_total]). *)
From Coq Require Import List NArith Bool Arith Lia ZifyN ZifyBool ZifyNat Sorted Permutation.
From PT Require Import Bits BitsThm PrefixN Laws PrefixLaws Machine MachineThm Trie TrieWf Lookup Lookup2 MutTrav Retain.
Import ListNotations.
Local Open Scope nat_scope.

Section Drain.
Variables (E I : Type) (expand : E -> option I * list E).
Notation run := (Machine.run E I expand).
Notation next := (Machine.next E I expand).

(** [drains n st out]: successive calls of [next] (each with fuel [n]) starting from the stack
    [st] return the items of [out], one per call, and the call after the last item returns
    [None] and leaves the empty stack. *)
Inductive drains (n : nat) : list E -> list I -> Prop :=
| drains_end st : next n st = Some (None, []) -> drains n st []
| drains_step st x st' out :
    next n st = Some (Some x, st') -> drains n st' out -> drains n st (x :: out).

Lemma next_nil n : next n [] = Some (None, []).
Proof. destruct n; reflexivity. Qed.

Lemma run_drains n : forall out st, run n st = Some out -> drains n st out.
Proof.
  induction out as [|a out IH]; intros st H; pose proof (run_next E I expand n st _ H) as P;
    destruct (next n st) as [[[x|] st']|] eqn:Nx; try contradiction.
  - destruct P as [out' [P _]]. discriminate P.
  - destruct P as [_ ->]. apply drains_end. exact Nx.
  - destruct P as [out' [P R]]. inversion P; subst. eapply drains_step; [exact Nx | apply IH; exact R].
  - destruct P as [P _]. discriminate P.
Qed.

Lemma drains_fun n : forall st o1 o2, drains n st o1 -> drains n st o2 -> o1 = o2.
Proof.
  intros st o1 o2 H1. revert o2. induction H1 as [st N1|st x st' out N1 H1 IH]; intros o2 H2.
  - inversion H2 as [st0 N2|st0 y st2 out2 N2 H2']; subst; [reflexivity|]. rewrite N1 in N2. discriminate N2.
  - inversion H2 as [st0 N2|st0 y st2 out2 N2 H2']; subst.
    + rewrite N1 in N2. discriminate N2.
    + rewrite N1 in N2. inversion N2; subst. f_equal. apply IH. exact H2'.
Qed.

(** the results of [k] successive calls of [next], as a list *)
Fixpoint pull (k n : nat) (st : list E) : list (option I) :=
  match k with
  | O => []
  | S k' => match next n st with
            | Some (o, st') => o :: pull k' n st'
            | None => []
            end
  end.

Lemma pull_nil k n : pull k n [] = repeat None k.
Proof. induction k as [|k IH]; [reflexivity|]. cbn [pull repeat]. rewrite next_nil, IH. reflexivity. Qed.

Lemma drains_pull n st out : drains n st out ->
  forall k, pull (length out + k) n st = map Some out ++ repeat None k.
Proof.
  induction 1 as [st N1|st x st' out N1 H1 IH]; intros k.
  - cbn [length Nat.add map app]. destruct k as [|k]; [reflexivity|].
    cbn [pull repeat]. rewrite N1, pull_nil. reflexivity.
  - cbn [length Nat.add map app pull]. rewrite N1, IH. reflexivity.
Qed.
End Drain.

Section IterDrain.
Variables (pfx V : Type).
Notation tree := (Trie.tree pfx V).

Theorem iter_drains (t : tree) n : tsize t < n ->
  drains tree (N * pfx * V) (iter_expand pfx V) n (nodes_of [t]) (entries_id t).
Proof.
  intros Hn. apply run_drains.
  pose proof (iter_run_spec pfx V (nodes_of [t]) (nodes_of_is_node pfx V [t])) as H.
  unfold iter_run in H. rewrite tsize_nodes_of1, flat_entries_id_nodes_of1 in H.
  apply (run_fuel_mono _ _ _ (S (tsize t)) n); [exact H | lia].
Qed.

(** [IterMut] and [IntoIter] are separate copies of the loop in the code *)
Theorem iter_mut_drains (t : tree) n : tsize t < n ->
  drains tree (N * pfx * V) (iter_mut_expand pfx V) n (nodes_of [t]) (entries_id t).
Proof. exact (iter_drains t n). Qed.

Theorem into_iter_drains (t : tree) n : tsize t < n ->
  drains tree (N * pfx * V) (into_iter_expand pfx V) n (nodes_of [t]) (entries_id t).
Proof. exact (iter_drains t n). Qed.

Lemma map_drop_id_flat (st : list tree) :
  map (Lookup2.drop_id pfx V) (flat_map entries_id st) = flat_map entries st.
Proof.
  induction st as [|t st IH]; [reflexivity|]. cbn [flat_map]. rewrite map_app, IH, entries_id_entries. reflexivity.
Qed.
End IterDrain.

(** zero-padded comparison [bcmp] (what numeric comparison of masked addresses computes,
    [Laws.mcmp_spec]) against the lexicographic order *)
Lemma lex_lt_bcmp : forall a b : list bool,
  lex_lt a b <-> (bcmp a b = Lt \/ (bcmp a b = Eq /\ length a < length b)).
Proof.
  induction a as [|x a IH]; intros [|y b].
  - cbn. split; [intros [] | intros [H|[_ H]]; [discriminate | lia]].
  - cbn [lex_lt bcmp length]. split; [intros _|tauto].
    destruct (existsb (fun x => x) (y :: b)); [left; reflexivity | right; split; [reflexivity | lia]].
  - cbn [lex_lt bcmp length]. split; [intros []|].
    destruct (existsb (fun x => x) (x :: a)); intros [H|[H1 H2]]; try discriminate; lia.
  - cbn [lex_lt bcmp length]. specialize (IH b).
    destruct x, y.
    + rewrite <- Nat.succ_lt_mono. rewrite <- IH. split; [intros [[H _]|[_ H]]; [discriminate | exact H] | auto].
    + split; [intros [[H _]|[H _]]; discriminate | intros [H|[H _]]; discriminate].
    + split; [left; reflexivity | left; split; reflexivity].
    + rewrite <- Nat.succ_lt_mono. rewrite <- IH. split; [intros [[_ H]|[_ H]]; [discriminate | exact H] | auto].
Qed.

Theorem lex_lt_numeric (w : N) (a b : PrefixN.pfx) :
  valid w a = true -> valid w b = true ->
  (lex_lt (pbits w a) (pbits w b) <->
   (pmask w a < pmask w b)%N \/ (pmask w a = pmask w b /\ (plen a < plen b)%N)).
Proof.
  intros Va Vb. rewrite lex_lt_bcmp, <- (mcmp_spec_w w a b Va Vb), !length_pbits. unfold mcmp.
  rewrite N.compare_lt_iff, N.compare_eq_iff. lia.
Qed.

Section Sorted.
Variable A : Type.

Lemma StronglySorted_impl_in (R R' : A -> A -> Prop) (l : list A) :
  (forall a b, In a l -> In b l -> R a b -> R' a b) -> StronglySorted R l -> StronglySorted R' l.
Proof.
  induction l as [|x l IH]; intros H Hs; [constructor|].
  inversion Hs as [|? ? Hs' Hf]; subst. constructor.
  - apply IH; [|exact Hs']. intros a b Ha Hb. apply H; right; assumption.
  - rewrite Forall_forall in *. intros b Hb. apply H; [left; reflexivity | right; exact Hb | apply Hf; exact Hb].
Qed.

Lemma sorted_before (R : A -> A -> Prop) (l : list A) a b :
  (forall x, ~ R x x) -> (forall x y z, R x y -> R y z -> R x z) ->
  StronglySorted R l -> In a l -> In b l -> R a b ->
  exists l1 l2 l3, l = l1 ++ a :: l2 ++ b :: l3.
Proof.
  intros Hirr Htr Hs Ha Hb Hab.
  destruct (in_split _ _ Ha) as [l1 [l2 El]]. subst l.
  destruct (sorted_mid R l1 a l2 Hs) as [I1 I2].
  apply in_app_or in Hb. destruct Hb as [Hb|[<-|Hb]].
  - exfalso. apply (Hirr a). eapply Htr; [exact Hab | apply I1; exact Hb].
  - exfalso. apply (Hirr a). exact Hab.
  - destruct (in_split _ _ Hb) as [l3 [l4 El]]. subst l2. exists l1, l3, l4. reflexivity.
Qed.
End Sorted.

Section FX.
Variables (pfx V : Type).
Variables (peq contains : pfx -> pfx -> bool) (is_bit_set : pfx -> N -> bool)
          (plen : pfx -> N) (lcp : pfx -> pfx -> pfx) (pzero : pfx)
          (mcmp : pfx -> pfx -> comparison).
Variable bits : pfx -> list bool.
Variable ok : pfx -> Prop.
Hypothesis LAWS : prefix_laws pfx peq contains is_bit_set plen lcp pzero mcmp bits ok.

Notation tree := (Trie.tree pfx V).
Notation wf_under := (TrieWf.wf_under pfx V bits ok).
Notation key := (TrieWf.key pfx V bits).
Notation key_lt := (TrieWf.key_lt pfx V bits).
Notation len_lt := (Lookup2.len_lt pfx V bits).
Notation root_covers := (Lookup.root_covers pfx V bits).
Notation cover_walk := (Trie.cover_walk pfx V peq contains is_bit_set plen).
Notation children := (Trie.children pfx V peq contains is_bit_set plen).
Notation get_spm := (Trie.get_spm pfx V peq contains is_bit_set plen).
Notation wf_root := (TrieWf.wf_root pfx V bits ok).

(** [e] is covered by [q] / [e] covers [q], as booleans on the keys *)
Definition covered_by (q : pfx) (e : pfx * V) : bool := is_prefix (bits q) (key e).
Definition covering (q : pfx) (e : pfx * V) : bool := is_prefix (key e) (bits q).

(** [TrieWf.sorted_nodup_keys], under the name ArenaProps.v and ArenaViews.v use *)
Lemma sorted_nodup_keys (l : list (pfx * V)) : StronglySorted key_lt l -> NoDup (map key l).
Proof. apply TrieWf.sorted_nodup_keys. Qed.

Theorem children_filter b (t : tree) q :
  wf_under b t -> ok q -> root_covers t q ->
  map (Lookup2.drop_id pfx V) (children t q) = filter (covered_by q) (entries t).
Proof.
  intros Hwf Hq Hrc. rewrite children_spec, map_drop_id_flat.
  destruct (children_start_spec pfx V peq contains is_bit_set plen lcp pzero mcmp bits ok LAWS t b q Hwf Hq Hrc)
    as [Hn [Hlen Hmem]].
  apply (filter_char pfx V bits).
  - eapply entries_sorted; exact Hwf.
  - destruct (Trie.children_start pfx V peq contains is_bit_set plen t q) as [|c [|c' st]]; [constructor| |cbn in Hlen; lia].
    cbn [flat_map]. rewrite app_nil_r. destruct (Hn c (or_introl eq_refl)) as [_ [bc Hc]].
    eapply entries_sorted; exact Hc.
  - intros e. rewrite Hmem. unfold covered_by. rewrite is_prefix_spec. reflexivity.
Qed.

Corollary children_filter_root (t : tree) q :
  wf_root t -> ok q ->
  map (Lookup2.drop_id pfx V) (children t q) = filter (covered_by q) (entries t).
Proof.
  intros Hwf Hq.
  exact (children_filter [] t q (wf_root_under _ _ _ _ t Hwf) Hq (wf_root_covers _ _ _ _ t q Hwf)).
Qed.

Lemma len_sorted_chain (k : list bool) (l : list (pfx * V)) :
  (forall e, In e l -> prefix_of (key e) k) -> StronglySorted len_lt l -> StronglySorted key_lt l.
Proof.
  induction l as [|x l IH]; intros Hc Hs; [constructor|].
  inversion Hs as [|? ? Hs' Hf]; subst. constructor.
  - apply IH; [intros e He; apply Hc; right; exact He | exact Hs'].
  - rewrite Forall_forall in *. intros e He. specialize (Hf e He). unfold Lookup2.len_lt in Hf.
    unfold TrieWf.key_lt.
    destruct (prefix_of_comparable _ _ _ (Hc x (or_introl eq_refl)) (Hc e (or_intror He))) as [P|P].
    + apply lex_lt_prefix; [exact P|]. intros E. rewrite E in Hf. lia.
    + apply prefix_of_len in P. lia.
Qed.

Theorem cover_walk_filter b (t : tree) q :
  wf_under b t -> ok q -> root_covers t q ->
  cover_walk t q = filter (covering q) (entries t).
Proof.
  intros Hwf Hq Hrc.
  pose proof (cover_walk_spec pfx V peq contains is_bit_set plen lcp pzero mcmp bits ok LAWS t b q Hwf Hq Hrc) as Hmem.
  apply (filter_char pfx V bits).
  - eapply entries_sorted; exact Hwf.
  - apply (len_sorted_chain (bits q)); [intros e He; apply Hmem; exact He|].
    eapply cover_walk_sorted; exact Hwf.
  - intros e. rewrite Hmem. unfold covering. rewrite is_prefix_spec. reflexivity.
Qed.

Corollary cover_walk_filter_root (t : tree) q :
  wf_root t -> ok q -> cover_walk t q = filter (covering q) (entries t).
Proof.
  intros Hwf Hq.
  exact (cover_walk_filter [] t q (wf_root_under _ _ _ _ t Hwf) Hq (wf_root_covers _ _ _ _ t q Hwf)).
Qed.

Theorem lookups_by_filter (t : tree) q :
  wf_root t -> ok q ->
  let c := filter (covering q) (entries t) in
  cover_walk t q = c /\ get_spm t q = hd_error c /\
  Trie.get_lpm pfx V peq contains is_bit_set plen t q = hd_error (rev c).
Proof.
  intros Hwf Hq c. rewrite <- (cover_walk_filter_root t q Hwf Hq : _ = c).
  split; [reflexivity|]. split; [apply get_spm_spec | apply get_lpm_last].
Qed.

Lemma cover_walk_sorted_plen b (t : tree) q :
  wf_under b t ->
  StronglySorted (fun e1 e2 => (plen (fst e1) < plen (fst e2))%N) (cover_walk t q).
Proof.
  intros Hwf. apply (StronglySorted_impl_in _ len_lt); [|eapply cover_walk_sorted; exact Hwf].
  intros a c Ha Hc.
  apply (len_lt_plen pfx V peq contains is_bit_set plen lcp pzero mcmp bits ok LAWS);
    (eapply entries_ok; [exact Hwf | eapply cover_walk_under; eassumption]).
Qed.

Lemma len_sorted_hd (l : list (pfx * V)) e :
  StronglySorted len_lt l -> hd_error l = Some e ->
  In e l /\ forall e', In e' l -> length (key e) <= length (key e').
Proof.
  intros Hs Hh. destruct l as [|x l]; [discriminate|]. inversion Hh; subst x.
  split; [left; reflexivity|]. inversion Hs as [|? ? _ Hf]; subst. rewrite Forall_forall in Hf.
  intros e' [<-|He']; [lia|]. specialize (Hf e' He'). unfold Lookup2.len_lt in Hf. lia.
Qed.

Theorem get_spm_spec_root (t : tree) q :
  wf_root t -> ok q ->
  match get_spm t q with
  | Some e => In e (entries t) /\ prefix_of (key e) (bits q) /\
              forall e', In e' (entries t) -> prefix_of (key e') (bits q) ->
                         length (key e) <= length (key e')
  | None => no_cover pfx V bits (entries t) q
  end.
Proof.
  intros Hwf Hq. rewrite get_spm_spec.
  pose proof (fun e => cover_walk_spec_root pfx V peq contains is_bit_set plen lcp pzero mcmp bits ok
                         LAWS t q e Hwf Hq) as Hmem.
  destruct (hd_error (cover_walk t q)) as [e|] eqn:Hh.
  - destruct (len_sorted_hd _ e (cover_walk_sorted _ _ _ _ _ _ _ _ t [] q (wf_root_under _ _ _ _ t Hwf)) Hh)
      as [Hin Hmin].
    apply Hmem in Hin. destruct Hin as [Hin Hc]. split; [exact Hin|]. split; [exact Hc|].
    intros e' He' Hc'. apply Hmin, Hmem. split; assumption.
  - intros e He Hc. assert (Hin : In e (cover_walk t q)) by (apply Hmem; split; assumption).
    destruct (cover_walk t q); [contradiction | discriminate].
Qed.

Lemma len_sorted_last (l : list (pfx * V)) e :
  StronglySorted len_lt l -> hd_error (rev l) = Some e ->
  In e l /\ forall e', In e' l -> length (key e') <= length (key e).
Proof.
  intros Hs Hh. destruct (rev l) as [|x r] eqn:R; [discriminate|]. injection Hh as ->.
  exact (len_sorted_rev pfx V bits l r e Hs R).
Qed.

End FX.

(** * [retain] with an arbitrary closure
    [Retain.ret_run] describes the run for any closure.  Here: (a) whatever the closure answers, the
    invocations that return are a prefix of the post-order entry list ([ret_calls_post]), so no key
    is called twice; (b) hence a function of the entry alone, [gq], gives the verdicts returned on
    that run, and the statement of [Retain.retain_spec] holds with it ([retain_any_predicate]);
    (c) [_retain] depends on the closure only through the answers to the invocations it actually
    makes ([ret_ext]). *)
Section RX.
Variables (pfx V : Type).
Notation tree := (Trie.tree pfx V).
Notation ret := (Trie.ret pfx V).
Notation ret_graph := (Retain.ret_graph pfx V).

Notation post := (Retain.post pfx V).

Lemma ret_graph_post f hp t s t' st s' :
  ret_graph f hp t s t' st s' ->
  exists calls rest, snd s' = rev calls ++ snd s /\ post t = calls ++ rest /\ (st <> RPanic -> rest = []).
Proof.
  intros H. destruct (ret_run pfx V f H) as (cv & rest & _ & P & L & _ & D & _). exists (called pfx V cv), rest. auto.
Qed.

Lemma ret_calls_post (f : nat -> pfx -> V -> option bool) (t : tree) :
  forall hp a log t' st a' log',
  ret f hp t (a, log) = (t', st, (a', log')) ->
  exists calls rest, log' = rev calls ++ log /\ post t = calls ++ rest /\ (st <> RPanic -> rest = []).
Proof.
  intros hp a log t' st a' log' H.
  exact (ret_graph_post f _ _ _ _ _ _ (ret_graph_sound _ _ _ _ _ _ _ _ _ H)).
Qed.

(** [f'] answers as [f] at the invocations logged between [log] and [log'] *)
Definition agree (f f' : nat -> pfx -> V -> option bool) (log log' : list (pfx * V)) : Prop :=
  forall k e, nth_error (rev log') k = Some e -> length log <= k -> f' k (fst e) (snd e) = f k (fst e) (snd e).

Lemma agree_sub f f' log log' c2 lo c0 li :
  agree f f' log log' -> log' = c2 ++ lo -> li = c0 ++ log -> agree f f' li lo.
Proof.
  intros A -> -> k e Hn Hk. apply A.
  - rewrite rev_app_distr. rewrite nth_error_app1; [exact Hn|]. apply nth_error_Some. congruence.
  - rewrite app_length in Hk. lia.
Qed.

(** the logs of the two calls at a node are consecutive stretches of the node's *)
Lemma agree_parts f f' (log log1 log2 log' c1 c2 c3 : list (pfx * V)) :
  log1 = c1 ++ log -> log2 = c2 ++ log1 -> log' = c3 ++ log2 ->
  agree f f' log log' -> agree f f' log log1 /\ agree f f' log1 log2.
Proof.
  intros E1 E2 E3 A. split.
  - apply (agree_sub f f' log log' (c3 ++ c2) log1 [] log A); [|reflexivity].
    rewrite E3, E2, app_assoc. reflexivity.
  - exact (agree_sub f f' log log' c3 log2 c1 log1 A E3 E1).
Qed.

Lemma nth_rev_last (l : list (pfx * V)) e : nth_error (rev (e :: l)) (length l) = Some e.
Proof. cbn [rev]. rewrite nth_error_app2; rewrite rev_length; [|lia]. rewrite Nat.sub_diag. reflexivity. Qed.

Lemma ret_graph_ext (f f' : nat -> pfx -> V -> option bool) hp t s t' st s' :
  ret_graph f hp t s t' st s' ->
  agree f f' (snd s) (snd s') ->
  (st = RPanic -> forall p x, f (length (snd s')) p x = None -> f' (length (snd s')) p x = None) ->
  ret_graph f' hp t s t' st s'.
Proof.
  induction 1 as [hp s
    | hp i p v l r s l' s1 HL IHl
    | i p l r s l' s1 t' st s' HL IHl HR IHr
    | hp i p v l r s fl l' s1 r' s2 B HL IHl HR IHr
    | i p l r s l' s1 r' s2 HL IHl HR IHr
    | hp i p l r s fl l' s1 fr r' s2 B1 B2 HL IHl HR IHr
    | hp i p x l r s fl l' s1 fr r' s2 HL IHl HR IHr F
    | hp i p x l r s fl l' s1 fr r' s2 HL IHl HR IHr F
    | hp i p x l r s fl l' s1 fr r' s2 t' fl' a' HL IHl HR IHr F RS]; intros A P.
  { constructor. }
  { apply RG_panic_l. apply IHl; assumption. }
  all: destruct (ret_graph_post f _ _ _ _ _ _ HL) as (cl & _ & Ll & _).
  all: destruct (ret_graph_post f _ _ _ _ _ _ HR) as (cr & _ & Lr & _); cbn [snd] in *.
  1-5: destruct (agree_parts f f' _ _ _ _ _ _ [] Ll Lr eq_refl A) as [Al Ar].
  6-7: destruct (agree_parts f f' _ _ _ _ _ _ [(p, x)] Ll Lr eq_refl A) as [Al Ar].
  1: eapply RG_collapse_l; [apply IHl; [exact Al | discriminate] | apply IHr; [exact Ar | exact P]].
  1: eapply RG_panic_r; [exact B | apply IHl; [exact Al | discriminate] | apply IHr; [exact Ar | exact P]].
  all: specialize (IHl Al ltac:(discriminate)); specialize (IHr Ar ltac:(discriminate)).
  - eapply RG_collapse_r; eassumption.
  - exact (RG_valueless pfx V f' hp i p l r s fl l' s1 fr r' s2 B1 B2 IHl IHr).
  - eapply RG_own_panic; [exact IHl | exact IHr | exact (P eq_refl p x F)].
  - eapply RG_accept; [exact IHl | exact IHr|]. rewrite <- F.
    apply (A (length (snd s2)) (p, x)); [apply nth_rev_last | rewrite Lr, Ll, !app_length; lia].
  - eapply RG_reject; [exact IHl | exact IHr | | exact RS]. rewrite <- F.
    apply (A (length (snd s2)) (p, x)); [apply nth_rev_last | rewrite Lr, Ll, !app_length; lia].
Qed.

Lemma ret_ext (f f' : nat -> pfx -> V -> option bool) (t : tree) hp a log t' st a' log' :
  ret f hp t (a, log) = (t', st, (a', log')) ->
  agree f f' log log' ->
  (st = RPanic -> forall p x, f (length log') p x = None -> f' (length log') p x = None) ->
  ret f' hp t (a, log) = (t', st, (a', log')).
Proof.
  intros H A P. apply ret_graph_complete.
  exact (ret_graph_ext f f' _ _ _ _ _ _ (ret_graph_sound _ _ _ _ _ _ _ _ _ H) A P).
Qed.
End RX.

Section RY.
Variables (pfx V : Type) (bits : pfx -> list bool) (ok : pfx -> Prop).
Notation key := (TrieWf.key pfx V bits).
Notation wf_root := (TrieWf.wf_root pfx V bits ok).
Variable f : nat -> pfx -> V -> option bool.

(** the verdict, [true] where the closure panicked: that value is never read, since [gq] is only
    evaluated at invocations that returned ([ran_gq]) *)
Definition dflt (o : option bool) : bool := match o with Some c => c | None => true end.

(** the verdict the logged invocation on the entry with key [kp] returned *)
Fixpoint gv (n : nat) (calls : list (pfx * V)) (kp : list bool) : bool :=
  match calls with
  | [] => true
  | e :: cs => if beq (key e) kp then dflt (f n (fst e) (snd e)) else gv (S n) cs kp
  end.

Lemma gv_nth (calls : list (pfx * V)) : forall n k e,
  NoDup (map key calls) -> nth_error calls k = Some e ->
  gv n calls (key e) = dflt (f (n + k) (fst e) (snd e)).
Proof.
  induction calls as [|c cs IH]; intros n k e Hnd Hk; [destruct k; discriminate|].
  inversion Hnd as [|? ? Hni Hnd']; subst. destruct k as [|k]; cbn in Hk.
  - inversion Hk; subst. cbn [gv]. rewrite (proj2 (beq_spec _ _) eq_refl), Nat.add_0_r. reflexivity.
  - cbn [gv]. destruct (beq (key c) (key e)) eqn:Bq.
    + exfalso. apply beq_spec in Bq. apply Hni. rewrite Bq. apply in_map. eapply nth_error_In; exact Hk.
    + rewrite Nat.add_succ_r. apply (IH (S n) k e Hnd' Hk).
Qed.

(** a function of the entry alone that gives the verdicts returned on the run that logged [calls] *)
Definition gq (calls : list (pfx * V)) (p : pfx) (x : V) : bool := gv 0 calls (bits p).

Lemma ran_gq cv : NoDup (map key (called pfx V cv)) -> ran pfx V f 0 cv -> agrees pfx V (gq (called pfx V cv)) cv.
Proof.
  intros Nd R. apply Forall_forall. intros [e c] Hx. destruct (In_nth_error _ _ Hx) as [k Hk]. cbn [fst snd].
  unfold gq. change (bits (fst e)) with (key e).
  rewrite (gv_nth (called pfx V cv) 0 k e Nd (map_nth_error fst k cv Hk)), (ran_nth pfx V f 0 cv R k e c Hk). reflexivity.
Qed.

(** [retain] with ANY closure (stateful in the invocation count, panicking or not) *)
Theorem retain_any_predicate (m m' : pmap pfx V) (panicked : bool) (calls : list (pfx * V)) :
  wf_root (root m) -> retain pfx V f m = (m', panicked, calls) ->
  exists g : pfx -> V -> bool,
    (forall k e, nth_error calls k = Some e -> f k (fst e) (snd e) = Some (g (fst e) (snd e))) /\
    wf_root (root m') /\ incl calls (entries (root m)) /\ NoDup calls /\
    (forall e, In e (entries (root m')) <->
               In e (entries (root m)) /\ ~ (In e calls /\ g (fst e) (snd e) = false)) /\
    (panicked = false ->
       entries (root m') = filter (fun e => g (fst e) (snd e)) (entries (root m)) /\
       Permutation calls (entries (root m))) /\
    (panicked = true ->
       exists e, In e (entries (root m)) /\ ~ In e calls /\ f (length calls) (fst e) (snd e) = None).
Proof.
  intros Hwf H.
  pose proof (wf_root_under pfx V bits ok _ Hwf) as Hwf0.
  pose proof H as H0. unfold Trie.retain in H0.
  destruct (Trie.ret pfx V f false (root m) (al m, [])) as [[t' st] [a' log']] eqn:E.
  injection H0 as Em Ep Ec. apply ret_graph_sound in E.
  destruct (ret_run_entries pfx V bits ok f Hwf0 E) as (cv & L & R & Pincl & Pnd & Pperm & Ppan & G). cbn [snd] in *.
  rewrite app_nil_r in L.
  assert (Ecalls : calls = called pfx V cv) by (rewrite <- Ec, L; apply rev_involutive).
  assert (El : length log' = length calls) by (rewrite <- Ec; symmetry; apply rev_length).
  rewrite <- Ecalls, El in *. pose proof (ran_gq cv) as Ag. rewrite <- Ecalls in Ag. specialize (Ag Pnd R).
  destruct (G _ Ag) as [K Fl]. subst m'. cbn [root]. exists (gq calls).
  split.
  { intros k e Hk. rewrite Ecalls in Hk. unfold called in Hk. rewrite nth_error_map in Hk.
    destruct (nth_error cv k) as [[e' c]|] eqn:Hc; [|discriminate]. injection Hk as <-.
    pose proof (proj1 (Forall_forall _ _) Ag _ (nth_error_In _ _ Hc)) as Hg. cbn [fst snd] in Hg.
    rewrite <- Hg. exact (ran_nth pfx V f 0 cv R k e' c Hc). }
  split; [exact (retain_wf pfx V bits ok f m _ _ _ Hwf H)|]. split; [exact Pincl|].
  split; [exact (NoDup_map_inv _ _ Pnd)|]. split; [exact K|].
  destruct st as [fl|]; cbn in Ep; subst panicked; (split; [|intros Hp; try discriminate Hp]).
  - intros _. split; [apply Fl | apply Pperm]; discriminate.
  - intros Hp. discriminate Hp.
  - apply Ppan. reflexivity.
Qed.
Lemma retain_no_panic (m m' : pmap pfx V) (panicked : bool) (calls : list (pfx * V)) :
  wf_root (root m) -> (forall n p x, f n p x <> None) ->
  retain pfx V f m = (m', panicked, calls) -> panicked = false.
Proof.
  intros Hwf Htot H.
  destruct (retain_any_predicate m m' panicked calls Hwf H) as (g & _ & _ & _ & _ & _ & _ & Ppan).
  destruct panicked; [|reflexivity]. destruct (Ppan eq_refl) as (e & _ & _ & N).
  destruct (Htot _ _ _ N).
Qed.

Theorem retain_total (m m' : pmap pfx V) (panicked : bool) (calls : list (pfx * V)) :
  wf_root (root m) -> (forall n p x, f n p x <> None) ->
  retain pfx V f m = (m', panicked, calls) ->
  panicked = false /\ wf_root (root m') /\
  Permutation calls (entries (root m)) /\ NoDup calls /\
  (forall e, In e (entries (root m')) <->
             exists k, nth_error calls k = Some e /\ f k (fst e) (snd e) = Some true).
Proof.
  intros Hwf Htot E. pose proof (retain_no_panic m m' panicked calls Hwf Htot E) as Hp.
  destruct (retain_any_predicate m m' panicked calls Hwf E)
    as (g & Pans & W & _ & Pnd & Pkept & Pdone & _).
  destruct (Pdone Hp) as [_ Pperm].
  split; [exact Hp|]. split; [exact W|]. split; [exact Pperm|]. split; [exact Pnd|].
  intros e. rewrite (Pkept e). split.
  - intros [Hin Hk]. pose proof (Permutation_in _ (Permutation_sym Pperm) Hin) as Hc.
    destruct (In_nth_error _ _ Hc) as [k Hn]. exists k. split; [exact Hn|]. rewrite (Pans k e Hn).
    destruct (g (fst e) (snd e)); [reflexivity|]. destruct Hk. auto.
  - intros [k [Hn Hv]]. pose proof (nth_error_In _ _ Hn) as Hc.
    split; [exact (Permutation_in _ Pperm Hc)|].
    intros [_ G]. rewrite (Pans k e Hn), G in Hv. discriminate Hv.
Qed.

End RY.

Print Assumptions run_drains.
Print Assumptions drains_fun.
Print Assumptions drains_pull.
Print Assumptions sorted_before.
Print Assumptions StronglySorted_impl_in.
Print Assumptions iter_drains.
Print Assumptions lex_lt_bcmp.
Print Assumptions lex_lt_numeric.
Print Assumptions children_filter.
Print Assumptions cover_walk_filter.
Print Assumptions len_sorted_hd.
Print Assumptions len_sorted_last.
Print Assumptions ret_ext.
Print Assumptions ret_calls_post.
Print Assumptions retain_any_predicate.
