(** C11 / C12 stated directly about the ARENA transcription of [TrieView] / [TrieViewMut]
    ([Arena3.a_v_*], [Arena3.a_vm_*]: a view is a [vloc] = [LNode i] | [LVirt p i] into the table).

    ** What is quantified.  [a_vreach tb l]: the location [l] is obtained from the root location
    [LNode 0] (= [map.view()] / [map.view_mut()]) by ANY finite sequence of navigation calls of either
    family — [find q], [find_exact q], [find_lpm q] (for valid [q]), [left()], [right()], on the
    read-only view ([a_v_*]) or on the mutable view ([a_vm_*]).  The theorems hold for every such
    location of every arena reachable from the empty arena by a history over the whole mutator alphabet
    ([ArenaProps.areach]).

    ** What is stated.  Everything is expressed with arena-level observations only: [a_v_iter tb l] is
    what [view.iter()] yields ([Iter] with the stack [[loc.idx()]]), [a_v_prefix], [a_v_value],
    [a_v_prefix_value] are the accessors.  The tree model occurs in the proofs only.

    Proof: the invariant [vinv] (the location represents a mutable-view position [mm] of the represented
    tree, whose read-only twin [vm_view T mm] is reachable by the tree-level navigation relation
    [ViewsExtra.v_reach]) is preserved by every arena navigation step of the read-only family
    ([Arena3Thm.v_left_sim] / [v_right_sim] / [v_find_ok] / [v_find_exact_ok] / [v_find_lpm_ok] + the
    tree-level twin equations [MutTrav.vm_left_sim] ... [MutTrav.vm_find_lpm_sim]), and the mutable
    family computes the same function ([Arena3Thm.a_vm_*_eq]); then the tree-level theorems of
    [ViewsThm] / [ViewsExtra] apply. *)
From Coq Require Import List ZArith Lia Sorted.
From PT Require Import Laws Trie Views TrieWf Lookup ViewsThm ViewsExtra MutTrav Arena ArenaThm Arena2 Arena3 Arena3Thm ArenaProps IterExtra.
Import ListNotations.

Section AV.
Variables (pfx V : Type).
Variables (peq contains : pfx -> pfx -> bool) (is_bit_set : pfx -> N -> bool)
          (plen : pfx -> N) (lcp : pfx -> pfx -> pfx) (pzero : pfx)
          (mcmp : pfx -> pfx -> comparison).
Variable bits : pfx -> list bool.
Variable ok : pfx -> Prop.
Hypothesis LAWS : prefix_laws pfx peq contains is_bit_set plen lcp pzero mcmp bits ok.

Notation tree := (Trie.tree pfx V).
Notation anode := (Arena.anode pfx V).
Notation view := (Views.view pfx V).
Notation vloc := (Arena3.vloc pfx).
Notation vmut := (Views.vmut pfx).
Notation key := (TrieWf.key pfx V bits).
Notation wf_root := (TrieWf.wf_root pfx V bits ok).
Notation minv := (Slots.minv pfx V).
Notation Rep := (ArenaThm.Rep pfx V).
Notation rep := (ArenaThm.rep pfx V).
Notation areach := (ArenaProps.areach pfx V peq contains is_bit_set plen lcp pzero ok).
Notation under := (ViewsExtra.under pfx V bits).
Notation view_wf := (ViewsThm.view_wf pfx V pzero bits ok).
Notation v_entries := (ViewsThm.v_entries pfx V).
Notation v_step := (ViewsExtra.v_step pfx V peq contains is_bit_set plen pzero ok).
Notation v_reach := (ViewsExtra.v_reach pfx V peq contains is_bit_set plen pzero ok).
Notation is_lpm := (Lookup.is_lpm pfx V bits).
Notation no_cover := (Lookup.no_cover pfx V bits).
Notation loc_rep := (Arena3Thm.loc_rep pfx V).
Notation mloc_rep := (Arena3Thm.mloc_rep pfx V).

Notation v_find_exact := (Views.v_find_exact pfx V peq contains is_bit_set plen).
Notation v_left := (Views.v_left pfx V is_bit_set plen pzero).
Notation v_right := (Views.v_right pfx V is_bit_set plen pzero).
Notation v_prefix := (Views.v_prefix pfx V pzero).

Notation a_v_find := (Arena3.a_v_find pfx V peq contains is_bit_set plen lcp).
Notation a_v_find_exact := (Arena3.a_v_find_exact pfx V peq contains is_bit_set plen).
Notation a_v_find_lpm := (Arena3.a_v_find_lpm pfx V peq contains is_bit_set plen).
Notation a_v_left := (Arena3.a_v_left pfx V is_bit_set plen).
Notation a_v_right := (Arena3.a_v_right pfx V is_bit_set plen).
Notation a_v_prefix := (Arena3.a_v_prefix pfx V).
Notation a_v_value := (Arena3.a_v_value pfx V).
Notation a_v_prefix_value := (Arena3.a_v_prefix_value pfx V).
Notation a_vm_find := (Arena3.a_vm_find pfx V peq contains is_bit_set plen lcp).
Notation a_vm_find_exact := (Arena3.a_vm_find_exact pfx V peq contains is_bit_set plen).
Notation a_vm_find_lpm := (Arena3.a_vm_find_lpm pfx V peq contains is_bit_set plen).
Notation a_vm_left := (Arena3.a_vm_left pfx V is_bit_set plen).
Notation a_vm_right := (Arena3.a_vm_right pfx V is_bit_set plen).
Notation a_iter := (Arena.a_iter pfx V).
Notation a_entries := (Arena.a_entries pfx V).

(** [TrieView::iter()] / [TrieViewMut::iter_mut()] / [into_iter]: the pre-order traversal started at
    the location's slot (the virtual prefix plays no role), with the fuel of [PrefixMap::iter] *)
Definition a_v_iter (tb : list anode) (l : vloc) : res (list (pfx * V)) :=
  a_iter (S (length tb)) tb [Arena3.loc_idx l].

(** one navigation call on a view, read-only family or mutable family *)
Inductive a_vstep (tb : list anode) (l l' : vloc) : Prop :=
| AS_left : a_v_left tb l = Ok (Some l') -> a_vstep tb l l'
| AS_right : a_v_right tb l = Ok (Some l') -> a_vstep tb l l'
| AS_find q : ok q -> a_v_find tb l q = Ok (Some l') -> a_vstep tb l l'
| AS_find_exact q : ok q -> a_v_find_exact tb l q = Ok (Some l') -> a_vstep tb l l'
| AS_find_lpm q : ok q -> a_v_find_lpm tb l q = Ok (Some l') -> a_vstep tb l l'
| AS_mleft : a_vm_left tb l = Ok (Some l') -> a_vstep tb l l'
| AS_mright : a_vm_right tb l = Ok (Some l') -> a_vstep tb l l'
| AS_mfind q : ok q -> a_vm_find tb l q = Ok (Some l') -> a_vstep tb l l'
| AS_mfind_exact q : ok q -> a_vm_find_exact tb l q = Ok (Some l') -> a_vstep tb l l'
| AS_mfind_lpm q : ok q -> a_vm_find_lpm tb l q = Ok (Some l') -> a_vstep tb l l'.

Inductive a_vreach (tb : list anode) : vloc -> Prop :=
| AR_root : a_vreach tb (LNode 0%N)
| AR_step l l' : a_vreach tb l -> a_vstep tb l l' -> a_vreach tb l'.

Definition vinv (tb : list anode) (T : tree) (l : vloc) (mm : vmut) : Prop :=
  mloc_rep tb T l mm /\ v_reach (view_of T) (vm_view T mm).

(** the two copies of the navigation code ([TrieView] / [TrieViewMut]) compute the same function
    ([Arena3Thm.a_vm_*_eq]), so a navigation step is one of the five read-only calls *)
Lemma a_vstep_ro tb l l' (P : Prop) :
  (a_v_left tb l = Ok (Some l') -> P) -> (a_v_right tb l = Ok (Some l') -> P) ->
  (forall q, ok q -> a_v_find tb l q = Ok (Some l') -> P) ->
  (forall q, ok q -> a_v_find_exact tb l q = Ok (Some l') -> P) ->
  (forall q, ok q -> a_v_find_lpm tb l q = Ok (Some l') -> P) ->
  a_vstep tb l l' -> P.
Proof.
  intros SL SR SF SE SP [E|E|q Hq E|q Hq E|q Hq E|E|E|q Hq E|q Hq E|q Hq E].
  - exact (SL E).
  - exact (SR E).
  - exact (SF q Hq E).
  - exact (SE q Hq E).
  - exact (SP q Hq E).
  - rewrite (Arena3Thm.a_vm_left_eq pfx V is_bit_set plen) in E. exact (SL E).
  - rewrite (Arena3Thm.a_vm_right_eq pfx V is_bit_set plen) in E. exact (SR E).
  - exact (SF q Hq E). (* [a_vm_find] is [a_v_find] by conversion ([twins_find] below) *)
  - rewrite (Arena3Thm.a_vm_find_exact_eq pfx V peq contains is_bit_set plen) in E. exact (SE q Hq E).
  - rewrite (Arena3Thm.a_vm_find_lpm_eq pfx V peq contains is_bit_set plen) in E. exact (SP q Hq E).
Qed.

Lemma twins_find tb l q : a_vm_find tb l q = a_v_find tb l q.
Proof. reflexivity. Qed.

(** a navigation call [r] whose answer represents the answer [ov] of the tree-level call on the view:
    the tree-level mutable twin [om] gives the position of the location handed out *)
Lemma vinv_vstep tb T l mm {r : res (option vloc)} {om : option vmut} {ov : option view} :
  vinv tb T l mm -> (exists o, r = Ok o /\ Arena3Thm.opt_rel (loc_rep tb) o ov) ->
  option_map (vm_view T) om = ov -> (forall x, ov = Some x -> v_step (vm_view T mm) x) ->
  forall l', r = Ok (Some l') -> exists mm', vinv tb T l' mm'.
Proof.
  intros [MR VR] (o & E & OR) <- ST l' E'. rewrite E' in E. injection E as <-.
  destruct om as [mm'|]; [|contradiction]. exists mm'.
  split; [apply (Arena3Thm.mloc_rep_view pfx V peq contains is_bit_set plen lcp pzero); exact OR|].
  eapply VR_step; [exact VR|]. exact (ST _ eq_refl).
Qed.

Lemma vinv_step tb T l l' mm : vinv tb T l mm -> a_vstep tb l l' -> exists mm', vinv tb T l' mm'.
Proof.
  intros I. pose proof (proj1 (Arena3Thm.mloc_rep_view pfx V peq contains is_bit_set plen lcp pzero tb T l mm) (proj1 I)) as LR.
  apply a_vstep_ro.
  - exact (vinv_vstep tb T l mm I
             (Arena3Thm.v_left_sim pfx V peq contains is_bit_set plen lcp pzero tb l _ LR)
             (MutTrav.vm_left_sim pfx V is_bit_set plen pzero T mm)
             (VS_left pfx V peq contains is_bit_set plen pzero ok _) l').
  - exact (vinv_vstep tb T l mm I
             (Arena3Thm.v_right_sim pfx V peq contains is_bit_set plen lcp pzero tb l _ LR)
             (MutTrav.vm_right_sim pfx V is_bit_set plen pzero T mm)
             (VS_right pfx V peq contains is_bit_set plen pzero ok _) l').
  - intros q Hq.
    exact (vinv_vstep tb T l mm I
             (Arena3Thm.v_find_ok pfx V peq contains is_bit_set plen lcp pzero tb l _ q LR)
             (MutTrav.vm_find_sim pfx V peq contains is_bit_set plen T mm q)
             (fun x => VS_find pfx V peq contains is_bit_set plen pzero ok _ x q Hq) l').
  - intros q Hq.
    exact (vinv_vstep tb T l mm I
             (Arena3Thm.v_find_exact_ok pfx V peq contains is_bit_set plen lcp pzero tb l _ q LR)
             (MutTrav.vm_find_exact_sim pfx V peq contains is_bit_set plen T mm q)
             (fun x => VS_find_exact pfx V peq contains is_bit_set plen pzero ok _ x q Hq) l').
  - intros q Hq.
    exact (vinv_vstep tb T l mm I
             (Arena3Thm.v_find_lpm_ok pfx V peq contains is_bit_set plen lcp pzero tb l _ q LR)
             (MutTrav.vm_find_lpm_sim pfx V peq contains is_bit_set plen T mm q)
             (fun x => VS_find_lpm pfx V peq contains is_bit_set plen pzero ok _ x q Hq) l').
Qed.

Lemma vinv_root am m : Rep am m -> vinv (tbl am) (root m) (LNode 0%N) (mkvmut pfx [] None).
Proof.
  intros R. split.
  - split; [|exact I]. unfold vm_tree. cbn [mpath Arena3.loc_idx]. rewrite (MutTrav.subtree_nil pfx V). apply R.
  - unfold vm_view, vm_tree. cbn [mvirt mpath]. rewrite (MutTrav.subtree_nil pfx V). apply VR_refl.
Qed.

Theorem a_vreach_vinv am m l : Rep am m -> a_vreach (tbl am) l -> exists mm, vinv (tbl am) (root m) l mm.
Proof.
  intros R H. induction H as [|l l' _ [mm I] S].
  - eexists. exact (vinv_root am m R).
  - exact (vinv_step _ _ l l' mm I S).
Qed.

Lemma iter_sim1 {tb i} {t : tree} : rep tb (Some i) t -> (tsize t <= length tb)%nat ->
  a_iter (S (length tb)) tb [i] = Ok (entries t).
Proof.
  intros R S. rewrite (ArenaThm.iter_sim pfx V peq contains is_bit_set plen lcp pzero _ tb [i] [t]).
  - cbn [flat_map]. rewrite app_nil_r. reflexivity.
  - constructor; [exact R|constructor].
  - cbn [map list_sum fold_right]. lia.
Qed.

Lemma vm_tree_fits am m (mm : vmut) : Rep am m -> minv m -> (tsize (vm_tree (root m) mm) <= length (tbl am))%nat.
Proof.
  intros R M. unfold vm_tree.
  pose proof (Arena3Thm.tsize_subtree pfx V peq contains is_bit_set plen lcp pzero (mpath pfx mm) (root m)).
  pose proof (Arena3Thm.Rep_tsize pfx V peq contains is_bit_set plen lcp pzero am m R M). lia.
Qed.

Lemma vinv_facts am m l mm : Rep am m -> minv m -> wf_root (root m) -> vinv (tbl am) (root m) l mm ->
  let v := vm_view (root m) mm in
  view_wf v /\ loc_rep (tbl am) l v /\ a_v_iter (tbl am) l = Ok (v_entries v).
Proof.
  intros R M W [MR VR] v.
  split; [|split].
  - exact (proj1 (ViewsExtra.v_reach_wf pfx V peq contains is_bit_set plen lcp pzero mcmp bits ok LAWS _ _
                    (ViewsThm.view_wf_root pfx V pzero bits ok _ W) VR)).
  - exact (proj1 (Arena3Thm.mloc_rep_view pfx V peq contains is_bit_set plen lcp pzero _ _ _ _) MR).
  - unfold a_v_iter. rewrite (iter_sim1 (proj1 MR) (vm_tree_fits am m mm R M)).
    unfold ViewsThm.v_entries. subst v. unfold vm_view. destruct (mvirt pfx mm); reflexivity.
Qed.

Lemma reach_next tb l l' : a_vreach tb l -> a_vstep tb l l' -> a_vreach tb l'.
Proof. intros H S. exact (AR_step tb l l' H S). Qed.

Lemma loc_rep_fun {tb l} {v v' : view} : loc_rep tb l v -> loc_rep tb l v' -> v = v'.
Proof.
  destruct l as [i|p i], v as [t|p1 t], v' as [t'|p2 t']; cbn [Arena3Thm.loc_rep]; try tauto.
  - intros H H'. f_equal. exact (Arena3Thm.rep_fun pfx V tb _ t H t' H').
  - intros [<- H] [<- H']. f_equal. exact (Arena3Thm.rep_fun pfx V tb _ t H t' H').
Qed.

Lemma loc_rep_inj {tb l l'} {v : view} : loc_rep tb l v -> loc_rep tb l' v -> l = l'.
Proof.
  intros H H'. apply (Arena3Thm.loc_rep_iff pfx V) in H. apply (Arena3Thm.loc_rep_iff pfx V) in H'.
  destruct H as [-> _], H' as [-> _]. reflexivity.
Qed.

(** all that is known at a reachable view location, tree side included ([ArenaAlias] and
    [ArenaSetViews] go on from here at tree level); [located] below is the form without the tree *)
Lemma setup am l : areach am -> a_vreach (tbl am) l ->
  exists m mm, Rep am m /\ minv m /\ wf_root (root m) /\ vinv (tbl am) (root m) l mm /\
    view_wf (vm_view (root m) mm) /\ loc_rep (tbl am) l (vm_view (root m) mm) /\
    a_v_iter (tbl am) l = Ok (v_entries (vm_view (root m) mm)).
Proof.
  intros H HL.
  destruct (ArenaProps.areach_Rep pfx V peq contains is_bit_set plen lcp pzero mcmp bits ok LAWS am H) as (m & R & M & W).
  destruct (a_vreach_vinv am m l R HL) as (mm & I).
  destruct (vinv_facts am m l mm R M W I) as (WF & LR & IT).
  exists m, mm. auto 10.
Qed.

Lemma located am l es : areach am -> a_vreach (tbl am) l -> a_v_iter (tbl am) l = Ok es ->
  exists v : view, view_wf v /\ loc_rep (tbl am) l v /\ es = v_entries v /\
    forall l' v', a_vstep (tbl am) l l' -> loc_rep (tbl am) l' v' ->
      a_vreach (tbl am) l' /\ a_v_iter (tbl am) l' = Ok (v_entries v').
Proof.
  intros H HL IT0. destruct (setup am l H HL) as (m & mm & R & M & W & I & WF & LR & IT).
  rewrite IT in IT0. injection IT0 as <-.
  exists (vm_view (root m) mm). split; [exact WF|]. split; [exact LR|]. split; [reflexivity|].
  intros l' v' S LR'. split; [exact (AR_step _ l l' HL S)|].
  destruct (vinv_step _ _ l l' mm I S) as (mm' & I').
  destruct (vinv_facts am m l' mm' R M W I') as (_ & LR2 & IT').
  rewrite (loc_rep_fun LR' LR2). exact IT'.
Qed.

Lemma same_answer {tb} {r : res (option vloc)} {ov : option view} l' v' :
  (exists o, r = Ok o /\ Arena3Thm.opt_rel (loc_rep tb) o ov) -> ov = Some v' -> loc_rep tb l' v' ->
  r = Ok (Some l').
Proof.
  intros (o & E & OR) -> LR. destruct o as [l2|]; [|contradiction]. cbn in OR.
  rewrite E, (loc_rep_inj OR LR). reflexivity.
Qed.

Lemma v_side_sim tb l (v : view) (s : bool) : loc_rep tb l v ->
  exists o, (if s then a_v_right tb l else a_v_left tb l) = Ok o /\
            Arena3Thm.opt_rel (loc_rep tb) o (if s then v_right v else v_left v) /\
            forall l', o = Some l' -> a_vstep tb l l'.
Proof.
  intros LR. destruct s.
  - destruct (Arena3Thm.v_right_sim pfx V peq contains is_bit_set plen lcp pzero tb l v LR) as (o & E & OR).
    exists o. split; [exact E|]. split; [exact OR|]. intros l' ->. exact (AS_right _ _ _ E).
  - destruct (Arena3Thm.v_left_sim pfx V peq contains is_bit_set plen lcp pzero tb l v LR) as (o & E & OR).
    exists o. split; [exact E|]. split; [exact OR|]. intros l' ->. exact (AS_left _ _ _ E).
Qed.

(** [find q] at a reachable location whose iteration yields [es]: returns [Ok o] (no panic; the fuel
    suffices); the mutable twin returns the same; [None] only if no entry of the view is covered by
    [q]; [Some l'] is a reachable location again, its [prefix()] has the key of [q], and its iteration
    yields exactly the entries of the view covered by [q], in the view's own order. *)
Theorem arena_C12_find am l q es : areach am -> a_vreach (tbl am) l -> ok q ->
  a_v_iter (tbl am) l = Ok es ->
  exists o, a_v_find (tbl am) l q = Ok o /\ a_vm_find (tbl am) l q = Ok o /\
    match o with
    | Some l' => a_vreach (tbl am) l' /\ a_v_iter (tbl am) l' = Ok (filter (under (bits q)) es) /\
                 exists p, a_v_prefix (tbl am) l' = Ok p /\ bits p = bits q
    | None => filter (under (bits q)) es = []
    end.
Proof.
  intros H HL Hq IT0. destruct (located am l es H HL IT0) as (v & WF & LR & -> & NEXT).
  destruct (Arena3Thm.v_find_ok pfx V peq contains is_bit_set plen lcp pzero (tbl am) l v q LR) as (o & E & OR).
  exists o. split; [exact E|]. split; [exact E|]. (* the mutable twin by conversion: [twins_find] *)
  pose proof (ViewsExtra.v_find_filter pfx V peq contains is_bit_set plen lcp pzero mcmp bits ok LAWS v q WF Hq) as F.
  pose proof (ViewsThm.v_find_spec pfx V peq contains is_bit_set plen lcp pzero mcmp bits ok LAWS v q WF Hq) as S.
  destruct o as [l'|], (Views.v_find pfx V peq contains is_bit_set plen v q) as [v'|]; cbn in OR; try contradiction; [|exact F].
  destruct (NEXT l' v' (AS_find _ _ _ q Hq E) OR) as (HL' & IT').
  split; [exact HL'|]. split; [rewrite IT', F; reflexivity|].
  exists (v_prefix v'). split; [|exact (proj1 (proj2 S))].
  exact (Arena3Thm.v_prefix_sim pfx V peq contains is_bit_set plen lcp pzero (tbl am) l' v' OR).
Qed.

(** [find_exact q]: answers exactly when the view stores the key of [q]; the location it returns is
    the one [find q] returns, a real node whose [prefix()]/[value()] are the stored entry with that
    key, and its iteration yields the entries of the view covered by [q]. *)
Theorem arena_C12_find_exact am l q es : areach am -> a_vreach (tbl am) l -> ok q ->
  a_v_iter (tbl am) l = Ok es ->
  exists o, a_v_find_exact (tbl am) l q = Ok o /\ a_vm_find_exact (tbl am) l q = Ok o /\
    (o <> None <-> exists e, In e es /\ key e = bits q) /\
    match o with
    | Some l' => a_vreach (tbl am) l' /\ a_v_find (tbl am) l q = Ok (Some l') /\
                 a_v_iter (tbl am) l' = Ok (filter (under (bits q)) es) /\
                 exists p x, a_v_prefix (tbl am) l' = Ok p /\ a_v_value (tbl am) l' = Ok (Some x) /\
                             In (p, x) es /\ bits p = bits q
    | None => True
    end.
Proof.
  intros H HL Hq IT0. destruct (located am l es H HL IT0) as (v & WF & LR & -> & NEXT).
  destruct (Arena3Thm.v_find_exact_ok pfx V peq contains is_bit_set plen lcp pzero (tbl am) l v q LR) as (o & E & OR).
  exists o. split; [exact E|]. split; [rewrite (Arena3Thm.a_vm_find_exact_eq pfx V peq contains is_bit_set plen); exact E|].
  pose proof (ViewsExtra.v_find_exact_iff pfx V peq contains is_bit_set plen lcp pzero mcmp bits ok LAWS v q WF Hq) as IFF.
  split.
  { rewrite <- IFF. destruct o, (v_find_exact v q); cbn in OR; try contradiction; split; congruence. }
  destruct o as [l'|]; [|exact Logic.I]. destruct (v_find_exact v q) as [v'|] eqn:EV; cbn in OR; [|contradiction].
  destruct (NEXT l' v' (AS_find_exact _ _ _ q Hq E) OR) as (HL' & IT').
  pose proof (ViewsExtra.v_find_exact_find pfx V peq contains is_bit_set plen lcp pzero mcmp bits ok LAWS v q v' WF Hq EV) as EF.
  destruct (ViewsExtra.v_find_exact_full pfx V peq contains is_bit_set plen lcp pzero mcmp bits ok LAWS v q v' WF Hq EV)
    as (_ & _ & KB & (x & VX & INX) & _).
  pose proof (ViewsExtra.v_find_filter pfx V peq contains is_bit_set plen lcp pzero mcmp bits ok LAWS v q WF Hq) as F.
  rewrite EF in F.
  split; [exact HL'|].
  split; [exact (same_answer l' v' (Arena3Thm.v_find_ok pfx V peq contains is_bit_set plen lcp pzero (tbl am) l v q LR) EF OR)|].
  split; [rewrite IT', F; reflexivity|].
  exists (v_prefix v'), x.
  split; [exact (Arena3Thm.v_prefix_sim pfx V peq contains is_bit_set plen lcp pzero (tbl am) l' v' OR)|].
  split; [rewrite (Arena3Thm.v_value_sim pfx V peq contains is_bit_set plen lcp pzero (tbl am) l' v' OR), VX; reflexivity|].
  auto.
Qed.

(** [find_lpm q]: [None] exactly when no entry of the view covers [q]; [Some l'] sits on THE longest
    entry [e] of the view that covers [q] ([is_lpm]): [prefix_value()] is [e], it is the location
    [find_exact (prefix of e)] returns, and its iteration yields the entries of the view under [e]. *)
Theorem arena_C12_find_lpm am l q es : areach am -> a_vreach (tbl am) l -> ok q ->
  a_v_iter (tbl am) l = Ok es ->
  exists o, a_v_find_lpm (tbl am) l q = Ok o /\ a_vm_find_lpm (tbl am) l q = Ok o /\
    match o with
    | Some l' => a_vreach (tbl am) l' /\
                 exists e, is_lpm es q e /\ a_v_prefix_value (tbl am) l' = Ok (Some e) /\
                           a_v_find_exact (tbl am) l (fst e) = Ok (Some l') /\
                           a_v_iter (tbl am) l' = Ok (filter (under (bits (fst e))) es)
    | None => no_cover es q
    end.
Proof.
  intros H HL Hq IT0. destruct (located am l es H HL IT0) as (v & WF & LR & -> & NEXT).
  destruct (Arena3Thm.v_find_lpm_ok pfx V peq contains is_bit_set plen lcp pzero (tbl am) l v q LR) as (o & E & OR).
  exists o. split; [exact E|]. split; [rewrite (Arena3Thm.a_vm_find_lpm_eq pfx V peq contains is_bit_set plen); exact E|].
  pose proof (ViewsThm.v_find_lpm_spec pfx V peq contains is_bit_set plen lcp pzero mcmp bits ok LAWS v q WF Hq) as S.
  destruct o as [l'|]; destruct (Views.v_find_lpm pfx V peq contains is_bit_set plen v q) as [v'|] eqn:EV; cbn in OR; try contradiction; [|exact S].
  destruct (NEXT l' v' (AS_find_lpm _ _ _ q Hq E) OR) as (HL' & IT').
  destruct (ViewsExtra.v_find_lpm_full pfx V peq contains is_bit_set plen lcp pzero mcmp bits ok LAWS v q v' WF Hq EV)
    as (e & LP & PV & EX).
  pose proof (ViewsExtra.v_lpm_key_ok pfx V pzero bits ok v q e WF LP) as Hk.
  pose proof (ViewsExtra.v_find_exact_find pfx V peq contains is_bit_set plen lcp pzero mcmp bits ok LAWS v (fst e) v' WF Hk EX) as EF.
  pose proof (ViewsExtra.v_find_filter pfx V peq contains is_bit_set plen lcp pzero mcmp bits ok LAWS v (fst e) WF Hk) as F.
  rewrite EF in F.
  split; [exact HL'|]. exists e. split; [exact LP|].
  split; [rewrite (Arena3Thm.v_prefix_value_sim pfx V peq contains is_bit_set plen lcp pzero (tbl am) l' v' OR), PV; reflexivity|].
  split; [exact (same_answer l' v' (Arena3Thm.v_find_exact_ok pfx V peq contains is_bit_set plen lcp pzero (tbl am) l v (fst e) LR) EX OR)|].
  rewrite IT', F. reflexivity.
Qed.

(** [left()] ([s = false]) / [right()] ([s = true]) at a reachable location with prefix [p] whose
    iteration yields [es]: [None] only if no entry continues with bit [s] after [p]; [Some l'] is a
    reachable location whose iteration yields exactly the entries whose key extends [bits p ++ [s]]. *)
Theorem arena_C11_side am l (s : bool) p es : areach am -> a_vreach (tbl am) l ->
  a_v_prefix (tbl am) l = Ok p -> a_v_iter (tbl am) l = Ok es ->
  exists o, (if s then a_v_right (tbl am) l else a_v_left (tbl am) l) = Ok o /\
    match o with
    | Some l' => a_vreach (tbl am) l' /\ a_v_iter (tbl am) l' = Ok (filter (under (bits p ++ [s])) es)
    | None => filter (under (bits p ++ [s])) es = []
    end.
Proof.
  intros H HL PR IT0. destruct (located am l es H HL IT0) as (v & WF & LR & -> & NEXT).
  rewrite (Arena3Thm.v_prefix_sim pfx V peq contains is_bit_set plen lcp pzero (tbl am) l v LR) in PR. injection PR as <-.
  pose proof (ViewsExtra.v_side_filter pfx V peq contains is_bit_set plen lcp pzero mcmp bits ok LAWS v s WF) as F.
  unfold ViewsThm.side_prefix in F.
  destruct (v_side_sim (tbl am) l v s LR) as (o & E & OR & ST).
  exists o. split; [exact E|].
  destruct o as [l'|], (if s then v_right v else v_left v) as [v'|]; cbn in OR; try contradiction; [|exact F].
  destruct (NEXT l' v' (ST l' eq_refl) OR) as (HL' & IT').
  split; [exact HL'|]. rewrite IT', F. reflexivity.
Qed.

(** [view_at q] / [view_mut_at q] of a reachable map whose [iter()] yields [es] = [find q] at the root
    location: [None] only if the map stores nothing under [q]; otherwise a location whose prefix has
    the key of [q] and whose iteration yields exactly the entries of the map covered by [q], in the
    map's own order. *)
Theorem arena_C11_view_at am q es : areach am -> ok q -> a_entries am = Ok es ->
  exists o, a_v_find (tbl am) (LNode 0%N) q = Ok o /\ a_vm_find (tbl am) (LNode 0%N) q = Ok o /\
    match o with
    | Some l' => a_vreach (tbl am) l' /\ a_v_iter (tbl am) l' = Ok (filter (under (bits q)) es) /\
                 exists p, a_v_prefix (tbl am) l' = Ok p /\ bits p = bits q
    | None => filter (under (bits q)) es = []
    end.
Proof.
  intros H Hq E. exact (arena_C12_find am (LNode 0%N) q es H (AR_root _) Hq E).
Qed.

(** C03 for views: the iteration of ANY reachable location returns [Ok] of a list that is strictly
    ascending in the lexicographic key order and stores no key twice *)
Theorem arena_C03_view_iter am l : areach am -> a_vreach (tbl am) l ->
  exists es, a_v_iter (tbl am) l = Ok es /\ StronglySorted (TrieWf.key_lt pfx V bits) es /\ NoDup (map key es).
Proof.
  intros H HL. destruct (setup am l H HL) as (m & mm & R & M & W & I & WF & LR & IT).
  exists (v_entries (vm_view (root m) mm)). split; [exact IT|].
  destruct WF as (_ & (b & Hb) & _).
  pose proof (TrieWf.entries_sorted pfx V bits ok b _ Hb) as S.
  split; [exact S|exact (IterExtra.sorted_nodup_keys pfx V bits _ S)].
Qed.

Theorem arena_C11_whole_map am : a_v_iter (tbl am) (LNode 0%N) = a_entries am.
Proof. reflexivity. Qed.

End AV.

(** * An 8-bit example (non-vacuity): the hypotheses are met by a concrete arena and locations *)
From PT Require Import PrefixN PrefixLaws.
Module ArenaViewsExample.
Import ArenaTest.
Open Scope N_scope.

(** 1/1, 1010/4, 1011/4 and 01/2: the node 101/3 is a value-less branching node; 10/2 lies on the edge above it *)
Definition hv : list (aop2 P N) :=
  [AOld (AIns (p 128 1) 1); AOld (AIns (p 160 4) 2); AOld (AIns (p 176 4) 3); AOld (AIns (p 64 2) 4)].
Definition amv : amap P N := Arena2Test.am_of (Arena2Test.arun2 hv).
Definition okN := (fun q : P => valid 8 q = true).

Example hv_reachable : areach P N PEQ CON BIT LEN LCP ZERO okN amv.
Proof.
  exists hv. split; [repeat constructor|]. vm_compute. reflexivity.
Qed.

(** [view_at(10/2)] is the VIRTUAL location above slot 3 (the branch 101/3); from there [left()] is
    empty, [right()] is the branch; [find_lpm(1010_1010/8)] from the root sits on 1010/4 *)
Example hv_observed :
  a_entries P N amv = Ok [(p 64 2, 4); (p 128 1, 1); (p 160 4, 2); (p 176 4, 3)] /\
  Arena3.a_v_find P N PEQ CON BIT LEN LCP (tbl amv) (LNode 0) (p 128 2) = Ok (Some (LVirt (p 128 2) 3)) /\
  a_v_iter P N (tbl amv) (LVirt (p 128 2) 3) = Ok [(p 160 4, 2); (p 176 4, 3)] /\
  Arena3.a_v_left P N BIT LEN (tbl amv) (LVirt (p 128 2) 3) = Ok None /\
  Arena3.a_v_right P N BIT LEN (tbl amv) (LVirt (p 128 2) 3) = Ok (Some (LNode 3)) /\
  Arena3.a_v_find_lpm P N PEQ CON BIT LEN (tbl amv) (LNode 0) (p 170 8) = Ok (Some (LNode 2)) /\
  Arena3.a_v_find_exact P N PEQ CON BIT LEN (tbl amv) (LVirt (p 128 2) 3) (p 176 4) = Ok (Some (LNode 4)).
Proof. vm_compute. repeat split; reflexivity. Qed.

Example hv_locations :
  a_vreach P N PEQ CON BIT LEN LCP okN (tbl amv) (LVirt (p 128 2) 3) /\
  a_vreach P N PEQ CON BIT LEN LCP okN (tbl amv) (LNode 4).
Proof.
  assert (A : a_vreach P N PEQ CON BIT LEN LCP okN (tbl amv) (LVirt (p 128 2) 3)).
  { eapply AR_step; [apply AR_root|]. apply (AS_find _ _ _ _ _ _ _ _ _ _ _ (p 128 2)); [reflexivity|].
    exact (proj1 (proj2 hv_observed)). }
  split; [exact A|]. eapply AR_step; [exact A|].
  apply (AS_find_exact _ _ _ _ _ _ _ _ _ _ _ (p 176 4)); [reflexivity|].
  exact (proj2 (proj2 (proj2 (proj2 (proj2 (proj2 hv_observed)))))).
Qed.

Example hv_by_theorem :
  exists o, Arena3.a_v_find P N PEQ CON BIT LEN LCP (tbl amv) (LVirt (p 128 2) 3) (p 176 4) = Ok o /\
    match o with
    | Some l' => a_v_iter P N (tbl amv) l' =
                 Ok (filter (ViewsExtra.under P N (pbits 8) (pbits 8 (p 176 4))) [(p 160 4, 2); (p 176 4, 3)])
    | None => True
    end.
Proof.
  destruct (arena_C12_find P N PEQ CON BIT LEN LCP ZERO (PrefixN.mcmp 8) (pbits 8) okN
              (PrefixLaws.pn_laws 8 Generic ltac:(discriminate)) amv (LVirt (p 128 2) 3) (p 176 4)
              [(p 160 4, 2); (p 176 4, 3)] hv_reachable (proj1 hv_locations) eq_refl
              (proj1 (proj2 (proj2 hv_observed)))) as (o & E & _ & S).
  exists o. split; [exact E|]. destruct o as [l'|]; [exact (proj1 (proj2 S))|exact I].
Qed.

End ArenaViewsExample.

Print Assumptions arena_C12_find.
Print Assumptions arena_C12_find_exact.
Print Assumptions arena_C12_find_lpm.
Print Assumptions arena_C11_side.
Print Assumptions arena_C11_view_at.
Print Assumptions arena_C03_view_iter.
Print Assumptions ArenaViewsExample.hv_locations.
Print Assumptions ArenaViewsExample.hv_by_theorem.
