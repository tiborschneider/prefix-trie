(** C05 - C08 about the ARENA transcription of the eight set-operation iterators, for ANY pair of view
    locations — not only the two roots ([ArenaProps.arena_C05_C08_union] etc.).

    [lL] is any location obtained by navigation ([ArenaViews.a_vreach]: any sequence of [find] /
    [find_exact] / [find_lpm] / [left] / [right] of either family, so stored, value-less branching and
    VIRTUAL roots, equal / nested / disjoint positions) on a reachable arena with values [L]; [lR]
    likewise on a reachable arena with values [R] (the same arena is allowed when [L = R]); [esL], [esR]
    are what the two views' own iterations yield.  The arena iterators run at the two slots
    [loc_idx lL], [loc_idx lR] — exactly what the Rust constructors do ([self.loc.idx()],
    [other.loc.idx()]) — and their outputs meet the specifications of [UnionThm] / [InterDiffThm]
    against [esL] and [esR]. *)
From Coq Require Import List ZArith.
From PT Require Import Bits Laws Trie Views SetOps TrieWf ViewsThm UnionThm InterDiffThm Arena ArenaThm Arena3 Arena3Thm ArenaProps ArenaViews.
Import ListNotations.

Section ASV.
Variables (pfx L R : Type).
Variables (peq contains : pfx -> pfx -> bool) (is_bit_set : pfx -> N -> bool)
          (plen : pfx -> N) (lcp : pfx -> pfx -> pfx) (pzero : pfx)
          (mcmp : pfx -> pfx -> comparison).
Variable bits : pfx -> list bool.
Variable ok : pfx -> Prop.
Hypothesis LAWS : prefix_laws pfx peq contains is_bit_set plen lcp pzero mcmp bits ok.

Notation areachL := (areach pfx L peq contains is_bit_set plen lcp pzero ok).
Notation areachR := (areach pfx R peq contains is_bit_set plen lcp pzero ok).
Notation vreachL := (ArenaViews.a_vreach pfx L peq contains is_bit_set plen lcp ok).
Notation vreachR := (ArenaViews.a_vreach pfx R peq contains is_bit_set plen lcp ok).
Notation viterL := (ArenaViews.a_v_iter pfx L).
Notation viterR := (ArenaViews.a_v_iter pfx R).
Notation a_union := (Arena3.a_union pfx L R contains is_bit_set plen mcmp).
Notation a_union_mut := (Arena3.a_union_mut pfx L R contains is_bit_set plen mcmp).
Notation a_intersection := (Arena3.a_intersection pfx L R contains is_bit_set plen mcmp).
Notation a_intersection_mut := (Arena3.a_intersection_mut pfx L R contains is_bit_set plen mcmp).
Notation a_difference := (Arena3.a_difference pfx L R contains is_bit_set plen mcmp).
Notation a_difference_mut := (Arena3.a_difference_mut pfx L R contains is_bit_set plen mcmp).
Notation a_covering_difference := (Arena3.a_covering_difference pfx L R contains is_bit_set plen mcmp).
Notation a_covering_difference_mut := (Arena3.a_covering_difference_mut pfx L R contains is_bit_set plen mcmp).

Lemma operand (T : Type) (am : Arena.amap pfx T) l es :
  areach pfx T peq contains is_bit_set plen lcp pzero ok am ->
  ArenaViews.a_vreach pfx T peq contains is_bit_set plen lcp ok (tbl am) l ->
  ArenaViews.a_v_iter pfx T (tbl am) l = Ok es ->
  exists t : Trie.tree pfx T, ArenaThm.rep pfx T (tbl am) (Some (Arena3.loc_idx l)) t /\
    (tsize t <= length (tbl am))%nat /\ (exists b, TrieWf.wf_under pfx T bits ok b t) /\ es = entries t.
Proof.
  intros H HL IT0.
  destruct (ArenaViews.setup pfx T peq contains is_bit_set plen lcp pzero mcmp bits ok LAWS am l H HL)
    as (m & mm & Rp & M & W & I & WF & LR & IT).
  rewrite IT in IT0. injection IT0 as <-.
  exists (vm_tree (root m) mm).
  split.
  { exact (proj1 (proj1 I)). }
  split.
  { exact (ArenaViews.vm_tree_fits pfx T peq contains is_bit_set plen lcp pzero am m mm Rp M). }
  split.
  { destruct WF as (_ & B & _). unfold vm_view in B. destruct (mvirt pfx mm); exact B. }
  unfold ViewsThm.v_entries, vm_view. destruct (mvirt pfx mm); reflexivity.
Qed.

Lemma setops_views_setup amL amR lL lR esL esR :
  areachL amL -> areachR amR -> vreachL (tbl amL) lL -> vreachR (tbl amR) lR ->
  viterL (tbl amL) lL = Ok esL -> viterR (tbl amR) lR = Ok esR ->
  exists (tl : Trie.tree pfx L) (tr : Trie.tree pfx R) ba bb,
    TrieWf.wf_under pfx L bits ok ba tl /\ TrieWf.wf_under pfx R bits ok bb tr /\
    esL = entries tl /\ esR = entries tr /\
    Arena3Thm.setops_agree pfx L R contains is_bit_set plen pzero mcmp (tbl amL) (tbl amR) tl tr (Arena3.loc_idx lL) (Arena3.loc_idx lR).
Proof.
  intros HL HR VL VR EL ER.
  destruct (operand L amL lL esL HL VL EL) as (tl & RL & SL & (ba & WL) & ->).
  destruct (operand R amR lR esR HR VR ER) as (tr & RR & SR & (bb & WR) & ->).
  exists tl, tr, ba, bb. split; [exact WL|]. split; [exact WR|]. split; [reflexivity|]. split; [reflexivity|].
  exact (Arena3Thm.setops_sim pfx L R peq contains is_bit_set plen lcp pzero mcmp (tbl amL) (tbl amR) tl tr _ _ RL RR SL SR).
Qed.

(** C05 + C08 (union side) at any two view locations *)
Theorem arena_views_union amL amR lL lR esL esR :
  areachL amL -> areachR amR -> vreachL (tbl amL) lL -> vreachR (tbl amR) lR ->
  viterL (tbl amL) lL = Ok esL -> viterR (tbl amR) lR = Ok esR ->
  exists out outm,
    a_union (tbl amL) (tbl amR) (Arena3.loc_idx lL) (Arena3.loc_idx lR) = Ok out /\
    UnionThm.union_spec pfx L R bits esL esR out /\
    a_union_mut (tbl amL) (tbl amR) (Arena3.loc_idx lL) (Arena3.loc_idx lR) = Ok outm /\
    map (fun it => match it with
                   | ILeft _ _ _ p l _ => (p, Some l, None)
                   | IRight _ _ _ p _ r => (p, None, Some r)
                   | IBoth _ _ _ p l r => (p, Some l, Some r)
                   end) out
    = map (fun '(p, l, r) => (p, option_map snd l, option_map snd r)) outm.
Proof.
  intros HL HR VL VR EL ER.
  destruct (setops_views_setup amL amR lL lR esL esR HL HR VL VR EL ER) as (tl & tr & ba & bb & WL & WR & -> & -> & AG).
  exact (ArenaProps.union_at pfx L R peq contains is_bit_set plen lcp pzero mcmp bits ok LAWS _ _ tl tr ba bb _ _ WL WR AG).
Qed.

(** C06 at any two view locations *)
Theorem arena_views_intersection amL amR lL lR esL esR :
  areachL amL -> areachR amR -> vreachL (tbl amL) lL -> vreachR (tbl amR) lR ->
  viterL (tbl amL) lL = Ok esL -> viterR (tbl amR) lR = Ok esR ->
  exists out outm,
    a_intersection (tbl amL) (tbl amR) (Arena3.loc_idx lL) (Arena3.loc_idx lR) = Ok out /\
    InterDiffThm.inter_spec pfx L R bits esL esR out /\
    a_intersection_mut (tbl amL) (tbl amR) (Arena3.loc_idx lL) (Arena3.loc_idx lR) = Ok outm /\
    out = map (fun '(p, (_, l), (_, r)) => (p, l, r)) outm.
Proof.
  intros HL HR VL VR EL ER.
  destruct (setops_views_setup amL amR lL lR esL esR HL HR VL VR EL ER) as (tl & tr & ba & bb & WL & WR & -> & -> & AG).
  exact (ArenaProps.intersection_at pfx L R peq contains is_bit_set plen lcp pzero mcmp bits ok LAWS _ _ tl tr ba bb _ _ WL WR AG).
Qed.

(** C07 + C08 (difference side) at any two view locations *)
Theorem arena_views_difference amL amR lL lR esL esR :
  areachL amL -> areachR amR -> vreachL (tbl amL) lL -> vreachR (tbl amR) lR ->
  viterL (tbl amL) lL = Ok esL -> viterR (tbl amR) lR = Ok esR ->
  exists out outm,
    a_difference (tbl amL) (tbl amR) (Arena3.loc_idx lL) (Arena3.loc_idx lR) = Ok out /\
    InterDiffThm.diff_spec pfx L R bits esL esR out /\
    map fst out = filter (fun e => negb (existsb (fun e' => beq (bits (fst e')) (bits (fst e))) esR)) esL /\
    a_difference_mut (tbl amL) (tbl amR) (Arena3.loc_idx lL) (Arena3.loc_idx lR) = Ok outm /\
    out = map (fun '(p, (_, l), ann) => (p, l, ann)) outm.
Proof.
  intros HL HR VL VR EL ER.
  destruct (setops_views_setup amL amR lL lR esL esR HL HR VL VR EL ER) as (tl & tr & ba & bb & WL & WR & -> & -> & AG).
  exact (ArenaProps.difference_at pfx L R peq contains is_bit_set plen lcp pzero mcmp bits ok LAWS _ _ tl tr ba bb _ _ WL WR AG).
Qed.

(** C07 (covering difference) at any two view locations *)
Theorem arena_views_covering_difference amL amR lL lR esL esR :
  areachL amL -> areachR amR -> vreachL (tbl amL) lL -> vreachR (tbl amR) lR ->
  viterL (tbl amL) lL = Ok esL -> viterR (tbl amR) lR = Ok esR ->
  exists out outm,
    a_covering_difference (tbl amL) (tbl amR) (Arena3.loc_idx lL) (Arena3.loc_idx lR) = Ok out /\
    InterDiffThm.cdiff_spec pfx L R bits esL esR out /\
    a_covering_difference_mut (tbl amL) (tbl amR) (Arena3.loc_idx lL) (Arena3.loc_idx lR) = Ok outm /\
    out = map (fun '(p, (_, l)) => (p, l)) outm.
Proof.
  intros HL HR VL VR EL ER.
  destruct (setops_views_setup amL amR lL lR esL esR HL HR VL VR EL ER) as (tl & tr & ba & bb & WL & WR & -> & -> & AG).
  exact (ArenaProps.covering_difference_at pfx L R peq contains is_bit_set plen lcp pzero mcmp bits ok LAWS _ _ tl tr ba bb _ _ WL WR AG).
Qed.

End ASV.

Print Assumptions arena_views_union.
Print Assumptions arena_views_intersection.
Print Assumptions arena_views_difference.
Print Assumptions arena_views_covering_difference.
