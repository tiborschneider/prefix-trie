(** Key congruence, for the descents that do not insert: lookups, selections ([get_lpm*],
    [get_spm*], [cover], [children*]), removals and in-place updates, and the navigation of
    read-only and mutable views.  Each of them uses its query [q] only through the tests
    [peq p q], [contains p q], [contains q p], [to_right p q], [to_right q p] and [plen q] against
    node prefixes [p].  Under the prefix laws each of these depends on [bits q] only.  Hence two
    valid representations [q], [q'] of one key ([bits q = bits q']) drive every such walker along
    the same path and give the SAME result — literally equal, for every tree all of whose node
    prefixes are valid ([nodes_ok], implied by [wf_under]).  Among these the only place where the
    query itself is stored in a result is the virtual view of [find]/[view_at] ([VVirt q c]): there
    the two results are related by [view_sim] (same subtree, same kind, virtual prefixes with equal
    bits), and every view operation maps [view_sim]-related views to equal / [view_sim]-related
    results.  The inserting calls ([Trie.ins] stores [q] in the tree) are not treated here but in
    [Refine2.step_key_only] and [Refine2.insert_stores_repr_full]. *)
From Coq Require Import List NArith ZArith Bool.
From PT Require Import Bits Laws Trie Views TrieWf Lookup2 MutTrav.
Import ListNotations.

Section KC.
Variables (pfx V : Type).
Variables (peq contains : pfx -> pfx -> bool) (is_bit_set : pfx -> N -> bool)
          (plen : pfx -> N) (lcp : pfx -> pfx -> pfx) (pzero : pfx)
          (mcmp : pfx -> pfx -> comparison).
Variable bits : pfx -> list bool.
Variable ok : pfx -> Prop.
Hypothesis LAWS : prefix_laws pfx peq contains is_bit_set plen lcp pzero mcmp bits ok.

Notation tree := (tree pfx V).
Notation view := (view pfx V).
Notation to_right := (to_right pfx is_bit_set plen).
Notation wf_under := (wf_under pfx V bits ok).
Notation wf_root := (wf_root pfx V bits ok).
Notation get_node := (get_node pfx V peq contains is_bit_set plen).
Notation get := (get pfx V peq contains is_bit_set plen).
Notation get_key_value := (get_key_value pfx V peq contains is_bit_set plen).
Notation contains_key := (contains_key pfx V peq contains is_bit_set plen).
Notation lpm_walk := (lpm_walk pfx V peq contains is_bit_set plen).
Notation lpmp_walk := (lpmp_walk pfx V peq contains is_bit_set plen).
Notation lpmm_walk := (lpmm_walk pfx V peq contains is_bit_set plen).
Notation get_lpm := (get_lpm pfx V peq contains is_bit_set plen).
Notation get_lpm_prefix := (get_lpm_prefix pfx V peq contains is_bit_set plen).
Notation get_lpm_mut := (get_lpm_mut pfx V peq contains is_bit_set plen).
Notation spm_walk := (spm_walk pfx V peq contains is_bit_set plen).
Notation get_spm := (get_spm pfx V peq contains is_bit_set plen).
Notation get_spm_prefix := (get_spm_prefix pfx V peq contains is_bit_set plen).
Notation cover_walk := (cover_walk pfx V peq contains is_bit_set plen).
Notation cover_loop := (cover_loop pfx V peq contains is_bit_set plen).
Notation cover_next := (cover_next pfx V peq contains is_bit_set plen).
Notation cover_drain := (cover_drain pfx V peq contains is_bit_set plen).
Notation cover_rest := (Lookup2.cover_rest pfx V peq contains is_bit_set plen).
Notation cover_walk_unfold := (Lookup2.cover_walk_unfold pfx V peq contains is_bit_set plen).
Notation children_start := (children_start pfx V peq contains is_bit_set plen).
Notation children := (children pfx V peq contains is_bit_set plen).
Notation children_mut := (children_mut pfx V peq contains is_bit_set plen).
Notation into_children := (into_children pfx V peq contains is_bit_set plen).
Notation modify := (modify pfx V peq contains is_bit_set plen).
Notation rem := (rem pfx V peq contains is_bit_set plen).
Notation remove := (remove pfx V peq contains is_bit_set plen).
Notation remove_keep_tree := (remove_keep_tree pfx V peq contains is_bit_set plen).
Notation occ_remove := (occ_remove pfx V peq contains is_bit_set plen).
Notation update_value := (update_value pfx V peq contains is_bit_set plen).
Notation rc := (rc pfx V peq contains is_bit_set plen).
Notation remove_children := (remove_children pfx V peq contains is_bit_set plen pzero).
Notation h_get := (h_get pfx V peq contains is_bit_set plen).
Notation entry := (entry pfx V peq contains is_bit_set plen).
Notation find_walk := (find_walk pfx V peq contains is_bit_set plen).
Notation v_find := (v_find pfx V peq contains is_bit_set plen).
Notation view_at := (view_at pfx V peq contains is_bit_set plen).
Notation find_exact_walk := (find_exact_walk pfx V peq contains is_bit_set plen).
Notation v_find_exact := (v_find_exact pfx V peq contains is_bit_set plen).
Notation find_lpm_walk := (find_lpm_walk pfx V peq contains is_bit_set plen).
Notation v_find_lpm := (v_find_lpm pfx V peq contains is_bit_set plen).
Notation v_left := (v_left pfx V is_bit_set plen pzero).
Notation v_right := (v_right pfx V is_bit_set plen pzero).
Notation v_prefix := (v_prefix pfx V pzero).
Notation find_walk_m := (find_walk_m pfx V peq contains is_bit_set plen).
Notation vm_find := (vm_find pfx V peq contains is_bit_set plen).
Notation find_exact_walk_m := (find_exact_walk_m pfx V peq contains is_bit_set plen).
Notation vm_find_exact := (vm_find_exact pfx V peq contains is_bit_set plen).
Notation find_lpm_walk_m := (find_lpm_walk_m pfx V peq contains is_bit_set plen).
Notation vm_find_lpm := (vm_find_lpm pfx V peq contains is_bit_set plen).
Notation vm_left := (vm_left pfx V is_bit_set plen pzero).
Notation vm_right := (vm_right pfx V is_bit_set plen pzero).
Notation vm_split := (vm_split pfx V is_bit_set plen pzero).
Notation vm_has_left := (vm_has_left pfx V is_bit_set plen pzero).
Notation vm_has_right := (vm_has_right pfx V is_bit_set plen pzero).
Notation vm_prefix := (vm_prefix pfx V pzero).

Fixpoint nodes_ok (t : tree) : Prop :=
  match t with
  | Leaf => True
  | Node _ p _ l r => ok p /\ nodes_ok l /\ nodes_ok r
  end.

Lemma wf_nodes_ok b t : wf_under b t -> nodes_ok t.
Proof.
  revert b. induction t as [|i p v l IHl r IHr]; intros b H; cbn; [exact I|].
  destruct H as [Hp [_ [Hl Hr]]]. split; [exact Hp|]. split; [eapply IHl | eapply IHr]; eassumption.
Qed.

Lemma wf_root_nodes_ok t : wf_root t -> nodes_ok t.
Proof. destruct t as [|i p v l r]; [intros []|]. intros [_ H]. eapply wf_nodes_ok; exact H. Qed.

Lemma nodes_ok_subtree t pa : nodes_ok t -> nodes_ok (subtree t pa).
Proof.
  revert t. induction pa as [|b pa IH]; intros t H; [destruct t; exact H|].
  destruct t as [|i p v l r]; [exact I|]. cbn [subtree]. destruct H as [_ [Hl Hr]].
  apply IH. destruct b; assumption.
Qed.

Lemma bool_iff_eq (a b : bool) : (a = true <-> b = true) -> a = b.
Proof. destruct a, b; intros [H1 H2]; try reflexivity; [symmetry; apply H1 | apply H2]; reflexivity. Qed.

Lemma spec_congr (f : pfx -> pfx -> bool) (Rl : list bool -> list bool -> Prop) :
  (forall a b, ok a -> ok b -> (f a b = true <-> Rl (bits a) (bits b))) ->
  forall a a' b b', ok a -> ok a' -> ok b -> ok b' -> bits a = bits a' -> bits b = bits b' ->
  f a b = f a' b'.
Proof.
  intros H a a' b b' Ha Ha' Hb Hb' Ea Eb. apply bool_iff_eq.
  rewrite (H a b Ha Hb), (H a' b' Ha' Hb'), Ea, Eb. tauto.
Qed.

Section Q.
Variables q q' : pfx.
Hypothesis Hq : ok q.
Hypothesis Hq' : ok q'.
Hypothesis E : bits q = bits q'.

Lemma plen_congr : plen q = plen q'.
Proof. rewrite (plen_bits _ _ _ _ _ _ _ _ _ _ LAWS q Hq), (plen_bits _ _ _ _ _ _ _ _ _ _ LAWS q' Hq'), E. reflexivity. Qed.

Lemma peq_congr p : ok p -> peq p q = peq p q'.
Proof. intros Hp. exact (spec_congr peq eq (peq_spec _ _ _ _ _ _ _ _ _ _ LAWS) p p q q' Hp Hp Hq Hq' eq_refl E). Qed.

Lemma peq_congr_l p : ok p -> peq q p = peq q' p.
Proof. intros Hp. exact (spec_congr peq eq (peq_spec _ _ _ _ _ _ _ _ _ _ LAWS) q q' p p Hq Hq' Hp Hp E eq_refl). Qed.

Lemma contains_congr p : ok p -> contains p q = contains p q'.
Proof.
  intros Hp.
  exact (spec_congr contains prefix_of (contains_spec _ _ _ _ _ _ _ _ _ _ LAWS) p p q q' Hp Hp Hq Hq' eq_refl E).
Qed.

Lemma contains_congr_l p : ok p -> contains q p = contains q' p.
Proof.
  intros Hp.
  exact (spec_congr contains prefix_of (contains_spec _ _ _ _ _ _ _ _ _ _ LAWS) q q' p p Hq Hq' Hp Hp E eq_refl).
Qed.

Lemma to_right_congr p : to_right p q = to_right p q'.
Proof.
  unfold Trie.to_right.
  rewrite (bit_spec _ _ _ _ _ _ _ _ _ _ LAWS q _ Hq), (bit_spec _ _ _ _ _ _ _ _ _ _ LAWS q' _ Hq'), E.
  reflexivity.
Qed.

Lemma to_right_congr_l p : to_right q p = to_right q' p.
Proof. unfold Trie.to_right. rewrite plen_congr. reflexivity. Qed.

(** [kc_child c Hc IH], with [Hc : nodes_ok c]: case on the selected child [c]; in the [Node] case
    turn each test of its prefix [cp] against [q'] ([contains cp q'], [contains q' cp], [peq cp q'],
    [to_right q' cp]: whichever the walker performs) into the test against [q], then close by [IH] *)
Ltac kc_child c Hc IH :=
  let ci := fresh "ci" in let cp := fresh "cp" in let cv := fresh "cv" in
  let cl := fresh "cl" in let cr := fresh "cr" in let Hcp := fresh "Hcp" in
  cbv beta match;
  destruct c as [|ci cp cv cl cr]; [reflexivity|];
  assert (Hcp : ok cp) by (exact (proj1 Hc));
  cbv beta match;
  rewrite <- ?(contains_congr cp Hcp), <- ?(contains_congr_l cp Hcp), <- ?(peq_congr cp Hcp),
    <- ?(to_right_congr_l cp);
  rewrite <- ?(IH Hc);
  reflexivity.
(** after [cbn [walker]] in the [Node i p v l r] case: turn every test of the root against [q']
    into the test against [q], then treat the selected child *)
Ltac kc_walk p Hp l Hl IHl r Hr IHr :=
  rewrite <- ?(peq_congr p Hp), <- ?(to_right_congr p);
  destruct (to_right p q); [kc_child r Hr IHr | kc_child l Hl IHl].

Theorem get_node_congr t : nodes_ok t -> get_node t q = get_node t q'.
Proof.
  induction t as [|i p v l IHl r IHr]; intros H; [reflexivity|]. destruct H as [Hp [Hl Hr]].
  cbn [Trie.get_node]. kc_walk p Hp l Hl IHl r Hr IHr.
Qed.

Theorem lpm_walk_congr t : nodes_ok t -> forall best, lpm_walk t q best = lpm_walk t q' best.
Proof.
  induction t as [|i p v l IHl r IHr]; intros H best; [reflexivity|]. destruct H as [Hp [Hl Hr]].
  cbn [Trie.lpm_walk]. kc_walk p Hp l Hl IHl r Hr IHr.
Qed.

Theorem lpmp_walk_congr t : nodes_ok t -> forall best, lpmp_walk t q best = lpmp_walk t q' best.
Proof.
  induction t as [|i p v l IHl r IHr]; intros H best; [reflexivity|]. destruct H as [Hp [Hl Hr]].
  cbn [Trie.lpmp_walk]. kc_walk p Hp l Hl IHl r Hr IHr.
Qed.

Theorem lpmm_walk_congr t : nodes_ok t -> forall best, lpmm_walk t q best = lpmm_walk t q' best.
Proof.
  induction t as [|i p v l IHl r IHr]; intros H best; [reflexivity|]. destruct H as [Hp [Hl Hr]].
  cbn [Trie.lpmm_walk]. kc_walk p Hp l Hl IHl r Hr IHr.
Qed.

Theorem spm_walk_congr t : nodes_ok t -> spm_walk t q = spm_walk t q'.
Proof.
  induction t as [|i p v l IHl r IHr]; intros H; [reflexivity|]. destruct H as [Hp [Hl Hr]].
  cbn [Trie.spm_walk]. kc_walk p Hp l Hl IHl r Hr IHr.
Qed.

Theorem cover_walk_congr t : nodes_ok t -> cover_walk t q = cover_walk t q'.
Proof.
  induction t as [|i p v l IHl r IHr]; intros H; [reflexivity|]. destruct H as [Hp [Hl Hr]].
  cbn [Trie.cover_walk]. kc_walk p Hp l Hl IHl r Hr IHr.
Qed.

Theorem cover_loop_congr t : nodes_ok t -> cover_loop t q = cover_loop t q'.
Proof.
  induction t as [|i p v l IHl r IHr]; intros H; [reflexivity|]. destruct H as [Hp [Hl Hr]].
  cbn [Trie.cover_loop]. kc_walk p Hp l Hl IHl r Hr IHr.
Qed.

Theorem children_start_congr t : nodes_ok t -> children_start t q = children_start t q'.
Proof.
  induction t as [|i p v l IHl r IHr]; intros H; [reflexivity|]. destruct H as [Hp [Hl Hr]].
  cbn [Trie.children_start]. kc_walk p Hp l Hl IHl r Hr IHr.
Qed.

Theorem modify_congr t h : nodes_ok t -> modify t q h = modify t q' h.
Proof.
  induction t as [|i p v l IHl r IHr]; intros H; [reflexivity|]. destruct H as [Hp [Hl Hr]].
  cbn [Trie.modify]. kc_walk p Hp l Hl IHl r Hr IHr.
Qed.

Theorem rem_congr t : nodes_ok t -> forall hp a, rem hp t q a = rem hp t q' a.
Proof.
  induction t as [|i p v l IHl r IHr]; intros H hp a; [reflexivity|]. destruct H as [Hp [Hl Hr]].
  cbn [Trie.rem]. kc_walk p Hp l Hl IHl r Hr IHr.
Qed.

Theorem rc_congr t : nodes_ok t -> forall a, rc t q a = rc t q' a.
Proof.
  induction t as [|i p v l IHl r IHr]; intros H a; [reflexivity|]. destruct H as [Hp [Hl Hr]].
  cbn [Trie.rc]. kc_walk p Hp l Hl IHl r Hr IHr.
Qed.

Theorem find_exact_walk_congr t : nodes_ok t -> find_exact_walk t q = find_exact_walk t q'.
Proof.
  induction t as [|i p v l IHl r IHr]; intros H; [reflexivity|]. destruct H as [Hp [Hl Hr]].
  cbn [Views.find_exact_walk]. kc_walk p Hp l Hl IHl r Hr IHr.
Qed.

Theorem find_lpm_walk_congr t : nodes_ok t -> forall best, find_lpm_walk t q best = find_lpm_walk t q' best.
Proof.
  induction t as [|i p v l IHl r IHr]; intros H best; [reflexivity|]. destruct H as [Hp [Hl Hr]].
  cbn [Views.find_lpm_walk]. kc_walk p Hp l Hl IHl r Hr IHr.
Qed.

Theorem find_walk_m_congr t : nodes_ok t -> find_walk_m t q = find_walk_m t q'.
Proof.
  induction t as [|i p v l IHl r IHr]; intros H; [reflexivity|]. destruct H as [Hp [Hl Hr]].
  cbn [Views.find_walk_m]. kc_walk p Hp l Hl IHl r Hr IHr.
Qed.

Theorem find_exact_walk_m_congr t : nodes_ok t -> find_exact_walk_m t q = find_exact_walk_m t q'.
Proof.
  induction t as [|i p v l IHl r IHr]; intros H; [reflexivity|]. destruct H as [Hp [Hl Hr]].
  cbn [Views.find_exact_walk_m]. kc_walk p Hp l Hl IHl r Hr IHr.
Qed.

Theorem find_lpm_walk_m_congr t :
  nodes_ok t -> forall cur best, find_lpm_walk_m t q cur best = find_lpm_walk_m t q' cur best.
Proof.
  induction t as [|i p v l IHl r IHr]; intros H cur best; [reflexivity|]. destruct H as [Hp [Hl Hr]].
  cbn [Views.find_lpm_walk_m]. kc_walk p Hp l Hl IHl r Hr IHr.
Qed.

Theorem get_congr t : nodes_ok t -> get t q = get t q'.
Proof. intros H. unfold Trie.get. rewrite (get_node_congr t H). reflexivity. Qed.

Theorem get_key_value_congr t : nodes_ok t -> get_key_value t q = get_key_value t q'.
Proof. intros H. unfold Trie.get_key_value. rewrite (get_node_congr t H). reflexivity. Qed.

Theorem contains_key_congr t : nodes_ok t -> contains_key t q = contains_key t q'.
Proof. intros H. unfold Trie.contains_key. rewrite (get_node_congr t H). reflexivity. Qed.

Theorem get_lpm_congr t : nodes_ok t -> get_lpm t q = get_lpm t q'.
Proof. intros H. exact (lpm_walk_congr t H None). Qed.

Theorem get_lpm_prefix_congr t : nodes_ok t -> get_lpm_prefix t q = get_lpm_prefix t q'.
Proof. intros H. exact (lpmp_walk_congr t H None). Qed.

Theorem get_lpm_mut_congr t : nodes_ok t -> get_lpm_mut t q = get_lpm_mut t q'.
Proof. intros H. exact (lpmm_walk_congr t H None). Qed.

Theorem get_spm_congr t : nodes_ok t -> get_spm t q = get_spm t q'.
Proof. intros H. unfold Trie.get_spm. rewrite (spm_walk_congr t H). reflexivity. Qed.

Theorem get_spm_prefix_congr t : nodes_ok t -> get_spm_prefix t q = get_spm_prefix t q'.
Proof. intros H. unfold Trie.get_spm_prefix. rewrite (get_spm_congr t H). reflexivity. Qed.

(** one call of [Cover::next], from every state whose current node lies in a valid tree: same
    item, same successor state *)
Theorem cover_next_congr T st :
  nodes_ok T -> (match st with CStart => True | CAt t => nodes_ok t end) ->
  cover_next T st q = cover_next T st q'.
Proof.
  intros HT Hst. unfold Trie.cover_next. destruct st as [|t].
  - rewrite (cover_loop_congr T HT). reflexivity.
  - rewrite (cover_loop_congr t Hst). reflexivity.
Qed.

Lemma cover_loop_nodes_ok t : nodes_ok t -> nodes_ok (snd (cover_loop t q)).
Proof.
  induction t as [|i p v l IHl r IHr]; intros H; [exact I|]. pose proof H as [Hp [Hl Hr]].
  cbn [Trie.cover_loop]. destruct (peq p q); [exact H|].
  destruct (to_right p q).
  - destruct r as [|ci cp cv cl cr]; [exact H|]. destruct (contains cp q); [|exact H].
    destruct cv; [exact Hr | exact (IHr Hr)].
  - destruct l as [|ci cp cv cl cr]; [exact H|]. destruct (contains cp q); [|exact H].
    destruct cv; [exact Hl | exact (IHl Hl)].
Qed.

Lemma cover_rest_congr t : nodes_ok t -> cover_rest t q = cover_rest t q'.
Proof.
  intros H. apply (app_inv_head (match t with Leaf => [] | Node _ p v _ _ => own pfx V p v end)).
  pose proof (cover_walk_congr t H) as C. rewrite !cover_walk_unfold in C. destruct t; exact C.
Qed.

(** the iterator yields a prefix of what is pending, and that does not depend on the representation *)
Theorem cover_drain_congr fuel T st :
  nodes_ok T -> (match st with CStart => True | CAt t => nodes_ok t end) ->
  cover_drain fuel T st q = cover_drain fuel T st q'.
Proof.
  intros HT Hst. rewrite !(Lookup2.cover_drain_firstn pfx V peq contains is_bit_set plen). f_equal.
  destruct st as [|t]; [exact (cover_walk_congr T HT) | exact (cover_rest_congr t Hst)].
Qed.

(** [Entry::get] of [entry(q)] *)
Theorem entry_get_congr (m : pmap pfx V) :
  nodes_ok (root m) -> h_get m (entry m q) = h_get m (entry m q').
Proof.
  intros H. unfold Trie.h_get, Trie.entry. rewrite <- (get_node_congr (root m) H).
  destruct (get_node (root m) q) as [[[i p] [x|]]|]; cbn; try reflexivity. apply get_congr. exact H.
Qed.

(** ** The families, as Properties/C18 states them *)

Theorem lpm_variants_congr t : nodes_ok t ->
  get_lpm t q = get_lpm t q' /\ get_lpm_prefix t q = get_lpm_prefix t q' /\
  get_lpm_mut t q = get_lpm_mut t q'.
Proof.
  intros H. exact (conj (get_lpm_congr t H) (conj (get_lpm_prefix_congr t H) (get_lpm_mut_congr t H))).
Qed.

Theorem spm_cover_congr t : nodes_ok t ->
  get_spm t q = get_spm t q' /\ get_spm_prefix t q = get_spm_prefix t q' /\
  cover_walk t q = cover_walk t q' /\
  (forall fuel, cover_drain fuel t CStart q = cover_drain fuel t CStart q') /\
  cover_next t CStart q = cover_next t CStart q' /\
  (forall pa, cover_next t (CAt (subtree t pa)) q = cover_next t (CAt (subtree t pa)) q') /\
  (forall pa fuel, cover_drain fuel t (CAt (subtree t pa)) q = cover_drain fuel t (CAt (subtree t pa)) q').
Proof.
  intros H. pose proof (fun pa => nodes_ok_subtree t pa H) as Hs.
  split; [exact (get_spm_congr t H)|]. split; [exact (get_spm_prefix_congr t H)|].
  split; [exact (cover_walk_congr t H)|]. split; [exact (fun fuel => cover_drain_congr fuel t CStart H I)|].
  split; [exact (cover_next_congr t CStart H I)|].
  split; [exact (fun pa => cover_next_congr t (CAt (subtree t pa)) H (Hs pa))|].
  exact (fun pa fuel => cover_drain_congr fuel t (CAt (subtree t pa)) H (Hs pa)).
Qed.

Theorem children_congr t : nodes_ok t -> children t q = children t q'.
Proof. intros H. unfold Trie.children. rewrite (children_start_congr t H). reflexivity. Qed.

Theorem children_mut_congr t : nodes_ok t -> children_mut t q = children_mut t q'.
Proof. intros H. unfold Trie.children_mut. rewrite (children_start_congr t H). reflexivity. Qed.

Theorem into_children_congr t : nodes_ok t -> into_children t q = into_children t q'.
Proof. intros H. unfold Trie.into_children. rewrite (children_start_congr t H). reflexivity. Qed.

Theorem children_all_congr t : nodes_ok t ->
  children_start t q = children_start t q' /\ children t q = children t q' /\
  children_mut t q = children_mut t q' /\ into_children t q = into_children t q'.
Proof.
  intros H. exact (conj (children_start_congr t H) (conj (children_congr t H)
                     (conj (children_mut_congr t H) (into_children_congr t H)))).
Qed.

(** removals and in-place updates: the SAME resulting map (tree, free list, arena length,
    counter) and the same returned value *)
Theorem remove_congr (m : pmap pfx V) : nodes_ok (root m) -> remove m q = remove m q'.
Proof. intros H. unfold Trie.remove. rewrite (rem_congr (root m) H). reflexivity. Qed.

Theorem remove_keep_tree_congr (m : pmap pfx V) :
  nodes_ok (root m) -> remove_keep_tree m q = remove_keep_tree m q'.
Proof.
  intros H. unfold Trie.remove_keep_tree. rewrite (get_congr (root m) H), (modify_congr (root m) _ H).
  reflexivity.
Qed.

Theorem occ_remove_congr (m : pmap pfx V) : nodes_ok (root m) -> occ_remove m q = occ_remove m q'.
Proof.
  intros H. unfold Trie.occ_remove. rewrite (get_congr (root m) H), (modify_congr (root m) _ H).
  reflexivity.
Qed.

Theorem update_value_congr (m : pmap pfx V) g :
  nodes_ok (root m) -> update_value m q g = update_value m q' g.
Proof. intros H. unfold Trie.update_value. rewrite (modify_congr (root m) _ H). reflexivity. Qed.

Theorem remove_children_congr (m : pmap pfx V) :
  nodes_ok (root m) -> remove_children m q = remove_children m q'.
Proof.
  intros H. unfold Trie.remove_children. rewrite <- plen_congr, (rc_congr (root m) H). reflexivity.
Qed.

Theorem removals_congr (m : pmap pfx V) : nodes_ok (root m) ->
  remove m q = remove m q' /\ remove_keep_tree m q = remove_keep_tree m q' /\
  occ_remove m q = occ_remove m q' /\ remove_children m q = remove_children m q' /\
  (forall g, update_value m q g = update_value m q' g) /\
  get_node (root m) q = get_node (root m) q'.
Proof.
  intros H. exact (conj (remove_congr m H) (conj (remove_keep_tree_congr m H) (conj (occ_remove_congr m H)
                     (conj (remove_children_congr m H)
                        (conj (fun g => update_value_congr m g H) (get_node_congr (root m) H)))))).
Qed.

End Q.

(** [view_sim v v']: the same location — the same real node (the same subtree), both real or both
    virtual, and in the virtual case two valid representations of one key *)
Inductive view_sim : view -> view -> Prop :=
| VS_node t : view_sim (VNode t) (VNode t)
| VS_virt p p' t : ok p -> ok p' -> bits p = bits p' -> view_sim (VVirt p t) (VVirt p' t).

Definition osim (o o' : option view) : Prop :=
  match o, o' with
  | None, None => True
  | Some v, Some v' => view_sim v v'
  | _, _ => False
  end.

(** a view into a valid tree *)
Definition view_ok (v : view) : Prop :=
  nodes_ok (v_tree v) /\ match v with VNode _ => True | VVirt p _ => ok p end.

Lemma view_sim_refl v : view_ok v -> view_sim v v.
Proof. destruct v as [t|p t]; intros [_ H]; constructor; [exact H | exact H | reflexivity]. Qed.

Lemma view_sim_sym v v' : view_sim v v' -> view_sim v' v.
Proof. intros [t|p p' t Hp Hp' E]; constructor; [exact Hp' | exact Hp | symmetry; exact E]. Qed.

Lemma view_sim_trans v1 v2 v3 : view_sim v1 v2 -> view_sim v2 v3 -> view_sim v1 v3.
Proof.
  intros H1 H2. destruct H1 as [t|p p' t Hp Hp' E]; inversion H2; subst; constructor; try assumption.
  congruence.
Qed.

Lemma view_sim_ok v v' : view_sim v v' -> view_ok v -> view_ok v'.
Proof. intros [t|p p' t Hp Hp' E] [H _]; split; try exact H; try exact I; exact Hp'. Qed.

Theorem view_sim_observers v v' :
  view_sim v v' ->
  v_tree v = v_tree v' /\ v_is_virtual v = v_is_virtual v' /\
  bits (v_prefix v) = bits (v_prefix v') /\ plen (v_prefix v) = plen (v_prefix v') /\
  v_value v = v_value v' /\ v_prefix_value v = v_prefix_value v' /\ v_iter v = v_iter v'.
Proof.
  intros [t|p p' t Hp Hp' E]; cbn; repeat split; try reflexivity; try exact E.
  exact (plen_congr p p' Hp Hp' E).
Qed.

Lemma view_sim_intro v v' :
  v_tree v = v_tree v' -> v_is_virtual v = v_is_virtual v' -> bits (v_prefix v) = bits (v_prefix v') ->
  view_ok v -> view_ok v' -> view_sim v v'.
Proof.
  destruct v as [t|p t], v' as [t'|p' t']; cbn; intros Et Ev Eb [_ Hp] [_ Hp']; try discriminate; subst t'.
  - constructor.
  - constructor; assumption.
Qed.

Lemma view_sim_node_eq t v' : view_sim (VNode t) v' -> v' = VNode t.
Proof. intros H. inversion H. reflexivity. Qed.

Theorem v_left_congr v v' : view_sim v v' -> v_left v = v_left v'.
Proof.
  intros [t|p p' t Hp Hp' E]; [reflexivity|]. cbn [Views.v_left].
  rewrite (to_right_congr_l p p' Hp Hp' E). reflexivity.
Qed.

Theorem v_right_congr v v' : view_sim v v' -> v_right v = v_right v'.
Proof.
  intros [t|p p' t Hp Hp' E]; [reflexivity|]. cbn [Views.v_right].
  rewrite (to_right_congr_l p p' Hp Hp' E). reflexivity.
Qed.

(** the same location: the same path, both real or both virtual with two valid representations
    of one key *)
Definition vm_sim (m m' : vmut pfx) : Prop :=
  mpath pfx m = mpath pfx m' /\
  match mvirt pfx m, mvirt pfx m' with
  | None, None => True
  | Some p, Some p' => ok p /\ ok p' /\ bits p = bits p'
  | _, _ => False
  end.
Definition ovm_sim (o o' : option (vmut pfx)) : Prop :=
  match o, o' with
  | None, None => True
  | Some m, Some m' => vm_sim m m'
  | _, _ => False
  end.

Lemma vm_sim_real m m' : vm_sim m m' -> mvirt pfx m = None -> m' = m.
Proof.
  destruct m as [pa vi], m' as [pa' vi']. unfold vm_sim. cbn. intros [<- H] ->.
  destruct vi'; [contradiction | reflexivity].
Qed.

Lemma vm_sim_view T m m' : vm_sim m m' -> view_sim (vm_view T m) (vm_view T m').
Proof.
  destruct m as [pa vi], m' as [pa' vi']. unfold vm_sim, Views.vm_view, Views.vm_tree. cbn.
  intros [<- H]. destruct vi as [p|], vi' as [p'|]; try contradiction; [|constructor].
  destruct H as [Hp [Hp' E]]. constructor; assumption.
Qed.

Lemma ovm_sim_view T o o' : ovm_sim o o' -> osim (option_map (vm_view T) o) (option_map (vm_view T) o').
Proof. destruct o, o'; try exact (fun H => H). apply vm_sim_view. Qed.

(** Navigation is stated relative to a fixed tree [T]: a mutable view is a path into [T] and a
    flag, so validity ([nodes_ok T]) is a fact about [T] alone and holds at every location
    ([nodes_ok_subtree]), whereas a read-only view carries its own subtree, whose validity would
    have to be re-established after every call.  A read-only view is the image under [vm_view] of
    the location [as_vm v] over its own tree, related views are images of related locations, and
    the read-only calls are the images of the mutable ones ([MutTrav.vm_*_sim]); so the read-only
    statements about [find], [find_lpm] and whole navigations are transported from the mutable
    ones. *)
Definition as_vm (v : view) : vmut pfx :=
  mkvmut pfx [] (match v with VNode _ => None | VVirt p _ => Some p end).

Lemma as_vm_view v : vm_view (v_tree v) (as_vm v) = v.
Proof. destruct v as [t|p t]; destruct t; reflexivity. Qed.

Lemma as_vm_sim v v' : view_sim v v' -> vm_sim (as_vm v) (as_vm v') /\ v_tree v' = v_tree v.
Proof. intros [t|p p' t Hp Hp' E]; repeat split; assumption. Qed.

Section WV.
Variables q q' : pfx.
Hypothesis Hq : ok q.
Hypothesis Hq' : ok q'.
Hypothesis E : bits q = bits q'.

(** ([q] against [q'] on the mutable side; [MutTrav.vm_find_sim], mutable against read-only, is
    another statement) *)
Theorem vm_find_sim T m m' :
  nodes_ok T -> vm_sim m m' -> ovm_sim (vm_find T m q) (vm_find T m' q').
Proof.
  intros HT [Ep Hv]. unfold Views.vm_find, Views.vm_tree. rewrite <- Ep.
  pose proof (nodes_ok_subtree T (mpath pfx m) HT) as Hn.
  destruct (subtree T (mpath pfx m)) as [|i p x l r] eqn:S; [exact I|].
  assert (Hp : ok p) by (exact (proj1 Hn)).
  rewrite <- (contains_congr_l q q' Hq Hq' E p Hp), <- (peq_congr q q' Hq Hq' E p Hp).
  destruct (contains q p && negb (peq p q)); [split; [reflexivity | cbn; tauto]|].
  rewrite <- (find_walk_m_congr q q' Hq Hq' E _ Hn).
  destruct (find_walk_m (Node i p x l r) q) as [[pa vi]|]; [|exact I].
  split; [reflexivity|]. cbn. destruct vi; tauto.
Qed.

Theorem vm_find_exact_congr T m m' :
  nodes_ok T -> vm_sim m m' -> vm_find_exact T m q = vm_find_exact T m' q'.
Proof.
  intros HT [Ep Hv]. unfold Views.vm_find_exact, Views.vm_tree. rewrite <- Ep.
  rewrite <- (find_exact_walk_m_congr q q' Hq Hq' E _ (nodes_ok_subtree T (mpath pfx m) HT)). reflexivity.
Qed.

Theorem vm_find_lpm_congr T m m' :
  nodes_ok T -> vm_sim m m' -> vm_find_lpm T m q = vm_find_lpm T m' q'.
Proof.
  intros HT [Ep Hv]. unfold Views.vm_find_lpm, Views.vm_tree. rewrite <- Ep.
  pose proof (nodes_ok_subtree T (mpath pfx m) HT) as Hn.
  destruct (subtree T (mpath pfx m)) as [|i p x l r] eqn:S; [reflexivity|].
  assert (Hp : ok p) by (exact (proj1 Hn)).
  rewrite <- (contains_congr q q' Hq Hq' E p Hp), <- (find_lpm_walk_m_congr q q' Hq Hq' E _ Hn). reflexivity.
Qed.

(** the loop of [TrieView::find]: the mutable loop, which returns a path and a flag but not the
    query, gives the same answer for [q] and [q'] *)
Theorem find_walk_sim t : nodes_ok t -> osim (find_walk t q) (find_walk t q').
Proof.
  intros H. rewrite !find_walk_m_sim, <- (find_walk_m_congr q q' Hq Hq' E t H).
  destruct (find_walk_m t q) as [[pa [|]]|]; [constructor; assumption | constructor | exact I].
Qed.

Theorem v_find_sim v v' : view_sim v v' -> nodes_ok (v_tree v) -> osim (v_find v q) (v_find v' q').
Proof.
  intros Hs Hn. destruct (as_vm_sim v v' Hs) as [Hm Et].
  rewrite <- (as_vm_view v), <- (as_vm_view v'), Et, <- !(MutTrav.vm_find_sim pfx V peq contains is_bit_set plen).
  apply ovm_sim_view, vm_find_sim; assumption.
Qed.

(** [AsView::view_at] *)
Theorem view_at_sim T : nodes_ok T -> osim (view_at T q) (view_at T q').
Proof. intros H. unfold Views.view_at. apply v_find_sim; [constructor | exact H]. Qed.

(** [find_exact] and [find_lpm] only return real nodes: equal results *)
Theorem v_find_exact_congr v v' :
  view_sim v v' -> nodes_ok (v_tree v) -> v_find_exact v q = v_find_exact v' q'.
Proof.
  intros Hs Hn. destruct (view_sim_observers v v' Hs) as [Et _].
  unfold Views.v_find_exact. rewrite <- Et. apply find_exact_walk_congr; assumption.
Qed.

Theorem v_find_lpm_congr v v' :
  view_sim v v' -> nodes_ok (v_tree v) -> v_find_lpm v q = v_find_lpm v' q'.
Proof.
  intros Hs Hn. destruct (as_vm_sim v v' Hs) as [Hm Et].
  rewrite <- (as_vm_view v), <- (as_vm_view v'), Et, <- !(MutTrav.vm_find_lpm_sim pfx V peq contains is_bit_set plen).
  f_equal. apply vm_find_lpm_congr; assumption.
Qed.

End WV.

Theorem vm_ops_congr (T : tree) m m' :
  vm_sim m m' ->
  vm_tree T m = vm_tree T m' /\
  vm_left T m = vm_left T m' /\ vm_right T m = vm_right T m' /\ vm_split T m = vm_split T m' /\
  vm_has_left T m = vm_has_left T m' /\ vm_has_right T m = vm_has_right T m' /\
  bits (vm_prefix T m) = bits (vm_prefix T m') /\
  vm_value T m = vm_value T m' /\ vm_remove T m = vm_remove T m' /\
  (forall x, vm_set T m x = vm_set T m' x) /\
  (forall g, vm_value_mut T m g = vm_value_mut T m' g) /\
  vm_iter_mut T m = vm_iter_mut T m'.
Proof.
  destruct m as [pa vi], m' as [pa' vi']. unfold vm_sim. cbn [mpath mvirt]. intros [<- H].
  destruct vi as [p|], vi' as [p'|]; try contradiction.
  - destruct H as [Hp [Hp' E]].
    unfold Views.vm_tree, Views.vm_left, Views.vm_right, Views.vm_split, Views.vm_has_left, Views.vm_has_right,
      Views.vm_prefix, Views.vm_value, Views.vm_remove, Views.vm_set, Views.vm_value_mut, Views.vm_iter_mut,
      Views.vm_tree.
    cbn [mpath mvirt]. rewrite !(to_right_congr_l p p' Hp Hp' E). repeat split; try reflexivity. exact E.
  - repeat split; reflexivity.
Qed.

(** ** Whole navigations: any sequence of [find]/[find_exact]/[find_lpm]/[left]/[right] calls, from a
    read-only view ([vnav]) and from a mutable view over a fixed tree ([vmnav]).  Function-and-syntax
    twins of the relations [ViewsExtra.v_reach] / [MutTravExtra.vm_derived] that the other property
    files use: a congruence statement has to pair the calls of two navigations, hence the syntax. *)
Inductive vstep := SFind (q : pfx) | SFindExact (q : pfx) | SFindLpm (q : pfx) | SLeft | SRight.

Definition vstep_run (v : view) (s : vstep) : option view :=
  match s with
  | SFind q => v_find v q
  | SFindExact q => v_find_exact v q
  | SFindLpm q => v_find_lpm v q
  | SLeft => v_left v
  | SRight => v_right v
  end.

Fixpoint vnav (v : view) (ss : list vstep) : option view :=
  match ss with
  | [] => Some v
  | s :: ss' => match vstep_run v s with Some v' => vnav v' ss' | None => None end
  end.

(** the same call, with two valid representations of one key *)
Definition vstep_sim (s s' : vstep) : Prop :=
  match s, s' with
  | SFind q, SFind q' | SFindExact q, SFindExact q' | SFindLpm q, SFindLpm q' =>
    ok q /\ ok q' /\ bits q = bits q'
  | SLeft, SLeft | SRight, SRight => True
  | _, _ => False
  end.

Definition mstep_run (T : tree) (m : vmut pfx) (s : vstep) : option (vmut pfx) :=
  match s with
  | SFind q => vm_find T m q
  | SFindExact q => vm_find_exact T m q
  | SFindLpm q => vm_find_lpm T m q
  | SLeft => vm_left T m
  | SRight => vm_right T m
  end.

Fixpoint vmnav (T : tree) (m : vmut pfx) (ss : list vstep) : option (vmut pfx) :=
  match ss with
  | [] => Some m
  | s :: ss' => match mstep_run T m s with Some m' => vmnav T m' ss' | None => None end
  end.

Lemma ovm_sim_of_eq_real o o' :
  o = o' -> (forall m, o = Some m -> mvirt pfx m = None) -> ovm_sim o o'.
Proof.
  intros <- H. destruct o as [m|]; [|exact I]. cbn. split; [reflexivity|].
  rewrite (H m eq_refl). exact I.
Qed.

Lemma mstep_run_sim T m m' s s' :
  nodes_ok T -> vm_sim m m' -> vstep_sim s s' -> ovm_sim (mstep_run T m s) (mstep_run T m' s').
Proof.
  intros HT Hs Hss.
  destruct s as [q|q|q| |], s' as [q'|q'|q'| |]; cbn in Hss; try contradiction; cbn [mstep_run].
  - destruct Hss as [Hq [Hq' E]]. apply vm_find_sim; assumption.
  - destruct Hss as [Hq [Hq' E]]. apply ovm_sim_of_eq_real; [apply vm_find_exact_congr; assumption|].
    intros x K. exact (proj2 (vm_find_exact_below K)).
  - destruct Hss as [Hq [Hq' E]]. apply ovm_sim_of_eq_real; [apply vm_find_lpm_congr; assumption|].
    intros x K. exact (proj2 (vm_find_lpm_below K)).
  - apply ovm_sim_of_eq_real; [exact (proj1 (proj2 (vm_ops_congr T m m' Hs)))|].
    intros x K. exact (proj2 (vm_left_below K)).
  - apply ovm_sim_of_eq_real; [exact (proj1 (proj2 (proj2 (vm_ops_congr T m m' Hs))))|].
    intros x K. exact (proj2 (vm_right_below K)).
Qed.

Theorem vmnav_sim T ss : forall ss' m m',
  nodes_ok T -> vm_sim m m' -> Forall2 vstep_sim ss ss' -> ovm_sim (vmnav T m ss) (vmnav T m' ss').
Proof.
  induction ss as [|s ss IH]; intros ss' m m' HT Hs HF; inversion HF as [|? s' ? ss1 Hss HF']; subst.
  - exact Hs.
  - cbn [vmnav]. pose proof (mstep_run_sim T m m' s s' HT Hs Hss) as Ho.
    destruct (mstep_run T m s) as [w1|], (mstep_run T m' s') as [w2|]; cbn in Ho; try contradiction; [|exact I].
    apply IH; assumption.
Qed.

Lemma mstep_view T m s : option_map (vm_view T) (mstep_run T m s) = vstep_run (vm_view T m) s.
Proof.
  destruct s; [apply MutTrav.vm_find_sim | apply MutTrav.vm_find_exact_sim | apply MutTrav.vm_find_lpm_sim
              | apply MutTrav.vm_left_sim | apply MutTrav.vm_right_sim].
Qed.

Lemma vstep_run_sim v v' s s' :
  view_ok v -> view_sim v v' -> vstep_sim s s' ->
  osim (vstep_run v s) (vstep_run v' s') /\
  match vstep_run v s with None => True | Some w => view_ok w end.
Proof.
  intros [Hn _] Hs Hss. destruct (as_vm_sim v v' Hs) as [Hm Et].
  assert (Ho : osim (vstep_run v s) (vstep_run v' s')).
  { rewrite <- (as_vm_view v), <- (as_vm_view v'), Et, <- !mstep_view. apply ovm_sim_view, mstep_run_sim; assumption. }
  split; [exact Ho|]. rewrite <- (as_vm_view v), <- mstep_view in Ho |- *.
  destruct (mstep_run _ (as_vm v) s) as [m1|]; [|exact I]. destruct (vstep_run v' s') as [w|]; [|destruct Ho].
  cbn [option_map]. split; [rewrite v_tree_vm_view; apply nodes_ok_subtree; exact Hn|].
  cbn in Ho. unfold vm_view in *. destruct (mvirt _ m1); [|exact I]. inversion Ho; assumption.
Qed.

Lemma vmnav_view T ss : forall m, option_map (vm_view T) (vmnav T m ss) = vnav (vm_view T m) ss.
Proof.
  induction ss as [|s ss IH]; intros m; [reflexivity|]. cbn [vmnav vnav]. rewrite <- mstep_view.
  destruct (mstep_run T m s) as [m1|]; [apply IH | reflexivity].
Qed.

Theorem vnav_sim ss : forall ss' v v',
  view_ok v -> view_sim v v' -> Forall2 vstep_sim ss ss' -> osim (vnav v ss) (vnav v' ss').
Proof.
  intros ss' v v' [Hn _] Hs HF. destruct (as_vm_sim v v' Hs) as [Hm Et].
  rewrite <- (as_vm_view v), <- (as_vm_view v'), Et, <- !vmnav_view.
  apply ovm_sim_view, vmnav_sim; assumption.
Qed.

End KC.

Print Assumptions get_node_congr.
Print Assumptions lpm_walk_congr.
Print Assumptions lpmp_walk_congr.
Print Assumptions lpmm_walk_congr.
Print Assumptions spm_walk_congr.
Print Assumptions cover_walk_congr.
Print Assumptions cover_loop_congr.
Print Assumptions children_start_congr.
Print Assumptions modify_congr.
Print Assumptions rem_congr.
Print Assumptions rc_congr.
Print Assumptions find_exact_walk_congr.
Print Assumptions find_lpm_walk_congr.
Print Assumptions find_walk_m_congr.
Print Assumptions find_exact_walk_m_congr.
Print Assumptions find_lpm_walk_m_congr.
Print Assumptions get_congr.
Print Assumptions get_key_value_congr.
Print Assumptions contains_key_congr.
Print Assumptions get_lpm_congr.
Print Assumptions get_lpm_prefix_congr.
Print Assumptions get_lpm_mut_congr.
Print Assumptions get_spm_congr.
Print Assumptions get_spm_prefix_congr.
Print Assumptions cover_next_congr.
Print Assumptions cover_drain_congr.
Print Assumptions entry_get_congr.
Print Assumptions children_congr.
Print Assumptions children_mut_congr.
Print Assumptions into_children_congr.
Print Assumptions remove_congr.
Print Assumptions remove_keep_tree_congr.
Print Assumptions occ_remove_congr.
Print Assumptions update_value_congr.
Print Assumptions remove_children_congr.
Print Assumptions view_sim_observers.
Print Assumptions find_walk_sim.
Print Assumptions v_find_sim.
Print Assumptions view_at_sim.
Print Assumptions v_find_exact_congr.
Print Assumptions v_find_lpm_congr.
Print Assumptions v_left_congr.
Print Assumptions v_right_congr.
Print Assumptions vnav_sim.
Print Assumptions vm_find_sim.
Print Assumptions vm_find_exact_congr.
Print Assumptions vm_find_lpm_congr.
Print Assumptions vm_ops_congr.
Print Assumptions vmnav_sim.
