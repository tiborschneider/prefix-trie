(** The mutators of [Trie.v] against the entry list, keyed by [bits]: each preserves well-formedness
    and changes the entries as its [*_spec] says ([insert], [vacant_insert], the Entry writes,
    [remove], [remove_keep_tree], [remove_children], [clear], [from_list]).  The inductions go along
    [TrieWf.descent_ind]; [ins]/[modify]/[rc] produce a [post] (rules [post_same], [post_reached],
    [post_child]), [rem] a sequence of removal steps [shr] (also what [_retain] produces, Retain.v;
    Slots.v, Canon.v and Arena2Thm.v prove what such steps preserve).  [hang]: what [ins] puts where
    the descent stops.  [skel]/[skelb]: what value-only writes keep.  [a_remove]/
    [a_remove_children]: the list functions the removals equal. *)
From Coq Require Import List NArith ZArith Bool Arith Lia Sorted Permutation.
From PT Require Import Bits BitsThm Laws Trie TrieWf Lookup.
Import ListNotations.

Section MU.
Variables (pfx V : Type).
Variables (peq contains : pfx -> pfx -> bool) (is_bit_set : pfx -> N -> bool)
          (plen : pfx -> N) (lcp : pfx -> pfx -> pfx) (pzero : pfx)
          (mcmp : pfx -> pfx -> comparison).
Variable bits : pfx -> list bool.
Variable ok : pfx -> Prop.
Hypothesis LAWS : prefix_laws pfx peq contains is_bit_set plen lcp pzero mcmp bits ok.

Notation tree := (Trie.tree pfx V).
Notation to_right := (Trie.to_right pfx is_bit_set plen).
Notation wf_under := (TrieWf.wf_under pfx V bits ok).
Notation wf_root := (TrieWf.wf_root pfx V bits ok).
Notation key := (TrieWf.key pfx V bits).
Notation key_lt := (TrieWf.key_lt pfx V bits).
Notation child_of := (TrieWf.child_of pfx V).
Notation root_covers := (Lookup.root_covers pfx V bits).
Notation get_node := (Trie.get_node pfx V peq contains is_bit_set plen).
Notation get := (Trie.get pfx V peq contains is_bit_set plen).
Notation with_child := (Trie.with_child pfx V).
Notation tpfx := (Trie.tpfx pfx V pzero).
Notation ins := (Trie.ins pfx V peq contains is_bit_set plen lcp).
Notation vins := (Trie.vins pfx V peq contains is_bit_set plen lcp).
Notation modify := (Trie.modify pfx V peq contains is_bit_set plen).
Notation remove_self := (Trie.remove_self pfx V).
Notation absorb := (Trie.absorb pfx V).
Notation rem := (Trie.rem pfx V peq contains is_bit_set plen).
Notation rc := (Trie.rc pfx V peq contains is_bit_set plen).
Notation insert := (Trie.insert pfx V peq contains is_bit_set plen lcp).
Notation remove := (Trie.remove pfx V peq contains is_bit_set plen).
Notation remove_keep_tree := (Trie.remove_keep_tree pfx V peq contains is_bit_set plen).
Notation remove_children := (Trie.remove_children pfx V peq contains is_bit_set plen pzero).
Notation clear := (Trie.clear pfx V pzero).
Notation empty := (Trie.empty pfx V pzero).
Notation vacant_insert := (Trie.vacant_insert pfx V peq contains is_bit_set plen lcp).
Notation occ_insert := (Trie.occ_insert pfx V peq contains is_bit_set plen).
Notation occ_remove := (Trie.occ_remove pfx V peq contains is_bit_set plen).
Notation update_value := (Trie.update_value pfx V peq contains is_bit_set plen).
Notation from_list := (Trie.from_list pfx V peq contains is_bit_set plen lcp pzero).

Local Notation peq_true := (TrieWf.peq_true pfx peq contains is_bit_set plen lcp pzero mcmp bits ok LAWS).
Local Notation peq_false := (TrieWf.peq_false pfx peq contains is_bit_set plen lcp pzero mcmp bits ok LAWS).
Local Notation peq_refl_bits := (TrieWf.peq_refl_bits pfx peq contains is_bit_set plen lcp pzero mcmp bits ok LAWS).
Local Notation contains_true := (TrieWf.contains_true pfx peq contains is_bit_set plen lcp pzero mcmp bits ok LAWS).
Local Notation contains_false := (TrieWf.contains_false pfx peq contains is_bit_set plen lcp pzero mcmp bits ok LAWS).
Local Notation to_right_spec := (TrieWf.to_right_spec pfx peq contains is_bit_set plen lcp pzero mcmp bits ok LAWS).
Local Notation descent_side := (TrieWf.descent_side pfx peq contains is_bit_set plen lcp pzero mcmp bits ok LAWS).
Local Notation subtree_no_cover := (TrieWf.subtree_no_cover pfx V peq contains is_bit_set plen lcp pzero mcmp bits ok LAWS).
Local Notation other_side_incomparable :=
  (TrieWf.other_side_incomparable pfx V peq contains is_bit_set plen lcp pzero mcmp bits ok LAWS).
Local Notation descent_ind := (TrieWf.descent_ind pfx V peq contains is_bit_set plen).
Local Notation wf_weaken := (TrieWf.wf_weaken pfx V bits ok).
Local Notation wf_self := (TrieWf.wf_self pfx V bits ok).
Local Notation wf_child := (TrieWf.wf_child pfx V bits ok).
Local Notation wf_root_sorted := (TrieWf.wf_root_sorted pfx V bits ok).
Local Notation entries_under := (TrieWf.entries_under pfx V bits ok).
Local Notation entries_sorted := (TrieWf.entries_sorted pfx V bits ok).
Local Notation get_node_sound := (Lookup.get_node_sound pfx V peq contains is_bit_set plen lcp pzero mcmp bits ok LAWS).
Local Notation get_node_complete := (Lookup.get_node_complete pfx V peq contains is_bit_set plen lcp pzero mcmp bits ok LAWS).

Lemma child_of_with_child_id i p v l r s : with_child i p v l r s (child_of l r s) = Node i p v l r.
Proof. destruct s; reflexivity. Qed.

Lemma with_child_root i p v l r s c' :
  exists l' r', with_child i p v l r s c' = Node i p v l' r'.
Proof. destruct s; cbn; eauto. Qed.

Lemma with_child_wf b i p v l r s c' :
  wf_under b (Node i p v l r) -> wf_under (bits p ++ [s]) c' -> wf_under b (with_child i p v l r s c').
Proof. intros [H0 [H1 [H2 H3]]] Hc. destruct s; cbn; auto. Qed.

Lemma in_with_child i p v l r s c' (e : pfx * V) :
  In e (entries (with_child i p v l r s c')) <->
  (v = Some (snd e) /\ fst e = p) \/ In e (entries c') \/ In e (entries (child_of l r (negb s))).
Proof.
  destruct s; cbn [Trie.with_child negb TrieWf.child_of].
  - rewrite (in_entries_node pfx V i p v l c' true e). cbn [TrieWf.child_of negb]. reflexivity.
  - rewrite (in_entries_node pfx V i p v c' r false e). cbn [TrieWf.child_of negb]. reflexivity.
Qed.

Lemma with_child_spec b i p v l r s c' (A K : pfx * V -> Prop) :
  wf_under b (Node i p v l r) ->
  (forall x, v = Some x -> K (p, x)) ->
  (forall e, In e (entries (child_of l r (negb s))) -> K e) ->
  wf_under (bits p ++ [s]) c' ->
  (forall e, In e (entries c') <-> A e \/ (In e (entries (child_of l r s)) /\ K e)) ->
  wf_under b (with_child i p v l r s c') /\
  forall e, In e (entries (with_child i p v l r s c')) <-> A e \/ (In e (entries (Node i p v l r)) /\ K e).
Proof.
  intros Hwf Hown Hoth Hwc Hc'. split; [apply with_child_wf; assumption|].
  intros e. rewrite in_with_child, (in_entries_node pfx V i p v l r s e), Hc'.
  assert (Ho : v = Some (snd e) /\ fst e = p -> K e).
  { intros [Hv Hp]. destruct e as [p0 x0]. cbn in Hv, Hp. subst p0. apply Hown. exact Hv. }
  specialize (Hoth e). clear - Ho Hoth. tauto.
Qed.

Lemma wf_root_inv t q : wf_root t -> wf_under [] t /\ root_covers t q /\ t <> Leaf /\ bits (tpfx t) = [].
Proof.
  destruct t as [|i p v l r]; [intros []|]. intros [Eb Hwf].
  split; [exact Hwf|]. split; [cbn; rewrite Eb; apply prefix_of_nil|]. split; [discriminate | exact Eb].
Qed.

Lemma wf_root_intro t : wf_under [] t -> t <> Leaf -> bits (tpfx t) = [] -> wf_root t.
Proof. destruct t; [congruence|]. cbn. auto. Qed.

Lemma wf_rebound b b' i p v l r :
  wf_under b (Node i p v l r) -> prefix_of b' (bits p) -> wf_under b' (Node i p v l r).
Proof. intros [H0 [H1 H2]] H. cbn. auto. Qed.

Lemma not_covered_neq (k q : list bool) : ~ prefix_of q k -> k <> q.
Proof. intros H E. apply H. rewrite E. apply prefix_of_refl. Qed.

Lemma below_key_neq bnd s t (e : pfx * V) :
  wf_under (bnd ++ [s]) t -> In e (entries t) -> key e <> bnd.
Proof.
  intros Hwf Hin E. eapply below_neq; [|exact E]. eapply entries_under; eassumption.
Qed.

Definition ins_post (b : list bool) (t : tree) (q : pfx) (x : V) (t' : tree) : Prop :=
  wf_under b t' /\ t' <> Leaf /\ bits (tpfx t') = bits (tpfx t) /\ tid t' = tid t /\
  (forall e, In e (entries t') <-> e = (q, x) \/ (In e (entries t) /\ key e <> bits q)).

Definition rc_post (b : list bool) (t : tree) (q : pfx) (t' : tree) : Prop :=
  wf_under b t' /\
  (forall e, In e (entries t') <-> In e (entries t) /\ ~ prefix_of (bits q) (key e)) /\
  (forall i p v l r, t = Node i p v l r -> exists l' r', t' = Node i p v l' r').

(** [t'] in the place of [t] under the bound [b]: well-formed there, holding [A] beside the
    [K]-part of [t].  It is stated relative to the bound, not to the tree around, so that the frame
    of a parent takes it in without looking at [t'] ([post_child]: it is enough that [K] keeps what
    the query does not cover).  [ins_post], [mod_post], [rc_post] are this pair and a clause about
    the root node; along a descent it arises in three ways: nothing changes ([post_same]), the node
    reached gets a new own entry ([post_reached]), a child is replaced ([post_child]). *)
Definition post (b : list bool) (t t' : tree) (A K : pfx * V -> Prop) : Prop :=
  wf_under b t' /\ forall e, In e (entries t') <-> A e \/ (In e (entries t) /\ K e).

Lemma post_same b t (A K : pfx * V -> Prop) :
  wf_under b t -> (forall e, ~ A e) -> (forall e, In e (entries t) -> K e) -> post b t t A K.
Proof. intros Hwf HA HK. split; [exact Hwf|]. intros e. specialize (HA e). specialize (HK e). tauto. Qed.

(** the node with the query's key gets a new own entry, at the same key *)
Lemma post_reached b i p v l r q p' v' :
  wf_under b (Node i p v l r) -> bits p = bits q -> ok p' -> bits p' = bits p ->
  post b (Node i p v l r) (Node i p' v' l r)
       (fun e => v' = Some (snd e) /\ fst e = p') (fun e => key e <> bits q).
Proof.
  intros Hwf Hk Hp' Hk'. pose proof Hwf as [_ [Hb [Hl Hr]]].
  split; [cbn [TrieWf.wf_under]; rewrite Hk'; auto|]. intros e.
  rewrite (in_entries_node pfx V i p' v' l r true e), (in_entries_node pfx V i p v l r true e), <- Hk.
  cbn [TrieWf.child_of negb].
  pose proof (below_key_neq (bits p) false l e Hl) as Hl'.
  pose proof (below_key_neq (bits p) true r e Hr) as Hr'.
  assert (Hown : fst e = p -> key e = bits p) by (intros <-; reflexivity).
  clear - Hl' Hr' Hown. tauto.
Qed.

Section Below.
Variables (b : list bool) (i : N) (p : pfx) (v : option V) (l r : tree) (q : pfx).
Hypotheses (Hwf : wf_under b (Node i p v l r)) (Hq : ok q)
           (Hc : prefix_of (bits p) (bits q)) (E : peq p q = false).

(** the child on the query's side is replaced.  The node's own entry and the other side are not
    covered by the query, so every [K] used by a mutator keeps them. *)
Lemma post_child c' (A K : pfx * V -> Prop) :
  (forall e, ~ prefix_of (bits q) (key e) -> K e) ->
  post (bits p ++ [to_right p q]) (child_of l r (to_right p q)) c' A K ->
  post b (Node i p v l r) (with_child i p v l r (to_right p q) c') A K.
Proof.
  intros HK [Hwc Hc']. pose proof Hwf as [Hp _]. apply with_child_spec; try assumption.
  - intros x _. apply HK. intros H. apply (peq_false p q Hp Hq E). apply prefix_of_antisym; assumption.
  - intros e He. apply HK. eapply other_side_incomparable; eassumption.
Qed.

Lemma ins_post_child x c' :
  post (bits p ++ [to_right p q]) (child_of l r (to_right p q)) c'
       (fun e => e = (q, x)) (fun e => key e <> bits q) ->
  ins_post b (Node i p v l r) q x (with_child i p v l r (to_right p q) c').
Proof.
  intros H. destruct (post_child c' _ _ (fun e => not_covered_neq (key e) (bits q)) H) as [W1 W2].
  destruct (with_child_root i p v l r (to_right p q) c') as [l' [r' Ew]].
  unfold ins_post. rewrite Ew in *. cbn [Trie.tpfx Trie.tid].
  split; [exact W1|]. split; [discriminate|]. split; [reflexivity|]. split; [reflexivity | exact W2].
Qed.

Lemma rc_post_child c' :
  post (bits p ++ [to_right p q]) (child_of l r (to_right p q)) c'
       (fun _ => False) (fun e => ~ prefix_of (bits q) (key e)) ->
  rc_post b (Node i p v l r) q (with_child i p v l r (to_right p q) c').
Proof.
  intros H. destruct (post_child c' _ _ (fun e N => N) H) as [W1 W2].
  split; [exact W1|]. split; [intros e; rewrite W2; tauto|].
  intros i0 p0 v0 l0 r0 E0. inversion E0; subst. apply with_child_root.
Qed.

Lemma rc_post_drop :
  (forall e, In e (entries (child_of l r (to_right p q))) -> prefix_of (bits q) (key e)) ->
  rc_post b (Node i p v l r) q (with_child i p v l r (to_right p q) Leaf).
Proof.
  intros Hall. apply rc_post_child. split; [exact I|].
  intros e. specialize (Hall e). cbn [entries In]. tauto.
Qed.

Lemma rc_post_same :
  (forall e, In e (entries (child_of l r (to_right p q))) -> ~ prefix_of (bits q) (key e)) ->
  rc_post b (Node i p v l r) q (Node i p v l r).
Proof.
  intros Hno. rewrite <- (child_of_with_child_id i p v l r (to_right p q)) at 2.
  apply rc_post_child, post_same; [eapply wf_child; exact Hwf | tauto | exact Hno].
Qed.

End Below.

(** what [ins] hangs in the place of the subtree [c] above which the descent stops: a new leaf
    (NewLeaf), a new node above [c] (NewChild), or a branch node over [c] and a new leaf
    (NewBranch) *)
Definition hang (c : tree) (q : pfx) (x : V) (a : alloc) : tree * alloc :=
  match c with
  | Leaf => let '(n, a1) := new_node a true in (Node n q (Some x) Leaf Leaf, a1)
  | Node _ cp _ _ _ =>
    if contains q cp then
      let '(n, a1) := new_node a true in
      ((if to_right q cp then Node n q (Some x) Leaf c else Node n q (Some x) c Leaf), a1)
    else
      let bp := lcp q cp in
      let '(b, a1) := new_node a false in
      let '(n, a2) := new_node a1 true in
      let nn := Node n q (Some x) Leaf Leaf in
      ((if to_right bp q then Node b bp None c nn else Node b bp None nn c), a2)
  end.

Lemma ins_node i p v l r q x a :
  ins (Node i p v l r) q x a =
  if peq p q then (Node i q (Some x) l r, v, inc_if_none v a) else
  let s := to_right p q in
  let c := child_of l r s in
  match c with
  | Leaf => let '(n, a1) := new_node a true in
            (with_child i p v l r s (Node n q (Some x) Leaf Leaf), None, a1)
  | Node _ cp _ _ _ =>
    if contains cp q then let '(c', o, a') := ins c q x a in (with_child i p v l r s c', o, a')
    else if contains q cp then
      let '(n, a1) := new_node a true in
      let nn := if to_right q cp then Node n q (Some x) Leaf c else Node n q (Some x) c Leaf in
      (with_child i p v l r s nn, None, a1)
    else
      let bp := lcp q cp in
      let '(b, a1) := new_node a false in
      let '(n, a2) := new_node a1 true in
      let nn := Node n q (Some x) Leaf Leaf in
      let bn := if to_right bp q then Node b bp None c nn else Node b bp None nn c in
      (with_child i p v l r s bn, None, a2)
  end.
Proof. reflexivity. Qed.

Lemma vins_node i p v l r q x a :
  vins (Node i p v l r) q x a =
  if peq p q then (Node i q (Some x) l r, add_count 1 a) else
  let s := to_right p q in
  let c := child_of l r s in
  match c with
  | Leaf => let '(n, a1) := new_node a true in
            (with_child i p v l r s (Node n q (Some x) Leaf Leaf), a1)
  | Node _ cp _ _ _ =>
    if contains cp q then let '(c', a') := vins c q x a in (with_child i p v l r s c', a')
    else if contains q cp then
      let '(n, a1) := new_node a true in
      let nn := if to_right q cp then Node n q (Some x) Leaf c else Node n q (Some x) c Leaf in
      (with_child i p v l r s nn, a1)
    else
      let bp := lcp q cp in
      let '(b, a1) := new_node a false in
      let '(n, a2) := new_node a1 true in
      let nn := Node n q (Some x) Leaf Leaf in
      let bn := if to_right bp q then Node b bp None c nn else Node b bp None nn c in
      (with_child i p v l r s bn, a2)
  end.
Proof. reflexivity. Qed.

Lemma ins_reached i p v l r q x a :
  peq p q = true -> ins (Node i p v l r) q x a = (Node i q (Some x) l r, v, inc_if_none v a).
Proof. intros E. cbn [Trie.ins]. rewrite E. reflexivity. Qed.

Lemma ins_stop i p v l r q x a :
  peq p q = false ->
  match child_of l r (to_right p q) with Leaf => True | Node _ cp _ _ _ => contains cp q = false end ->
  ins (Node i p v l r) q x a =
  let '(nn, a') := hang (child_of l r (to_right p q)) q x a in
  (with_child i p v l r (to_right p q) nn, None, a').
Proof.
  intros E Hs. cbn [Trie.ins]. fold (child_of l r (to_right p q)). rewrite E. unfold hang.
  destruct (child_of l r (to_right p q)) as [|ci cp cv cl cr]; [destruct (new_node a true); reflexivity|].
  rewrite Hs. destruct (contains q cp); [destruct (new_node a true); reflexivity|].
  destruct (new_node a false) as [b0 a1]. destruct (new_node a1 true). reflexivity.
Qed.

Lemma ins_enter i p v l r q x a {ci cp cv cl cr} :
  peq p q = false -> child_of l r (to_right p q) = Node ci cp cv cl cr -> contains cp q = true ->
  ins (Node i p v l r) q x a =
  let '(c', o, a') := ins (Node ci cp cv cl cr) q x a in (with_child i p v l r (to_right p q) c', o, a').
Proof.
  intros E Ec C. cbn [Trie.ins]. fold (child_of l r (to_right p q)). rewrite E, Ec, C. reflexivity.
Qed.

(** NewChild: the new node is placed between the parent and the old child *)
Lemma new_child_spec bnd ci cp cv cl cr q x n :
  let c := Node ci cp cv cl cr in
  wf_under bnd c -> ok q -> prefix_of bnd (bits q) ->
  contains cp q = false -> contains q cp = true ->
  let nn := if to_right q cp then Node n q (Some x) Leaf c else Node n q (Some x) c Leaf in
  wf_under bnd nn /\ forall e, In e (entries nn) <-> e = (q, x) \/ In e (entries c).
Proof.
  intros c Hwf Hq Hb C1 C2 nn.
  pose proof Hwf as [Hcp _].
  assert (Hcov : prefix_of (bits q) (bits cp)) by (apply contains_true; assumption).
  assert (Hne : peq q cp = false).
  { destruct (peq q cp) eqn:E; [|reflexivity]. exfalso.
    eapply contains_false; [exact Hcp | exact Hq | exact C1|].
    rewrite (peq_true q cp Hq Hcp E). apply prefix_of_refl. }
  pose proof (descent_side q cp Hq Hcp Hcov Hne) as Hside.
  assert (Hc' : wf_under (bits q ++ [to_right q cp]) c) by (eapply wf_rebound; eassumption).
  subst nn. destruct (to_right q cp); split.
  - cbn [TrieWf.wf_under]. auto.
  - intros e. cbn [entries]. cbn [app In]. intuition.
  - cbn [TrieWf.wf_under]. auto.
  - intros e. fold c. cbn [entries]. rewrite app_nil_r. cbn [app In]. intuition.
Qed.

(** NewBranch: a value-less branch node at the common prefix *)
Lemma new_branch_spec bnd ci cp cv cl cr q x n b0 :
  let c := Node ci cp cv cl cr in
  wf_under bnd c -> ok q -> prefix_of bnd (bits q) ->
  contains cp q = false -> contains q cp = false ->
  let bp := lcp q cp in
  let nn := Node n q (Some x) Leaf Leaf in
  let bn := if to_right bp q then Node b0 bp None c nn else Node b0 bp None nn c in
  wf_under bnd bn /\ forall e, In e (entries bn) <-> e = (q, x) \/ In e (entries c).
Proof.
  intros c Hwf Hq Hb C1 C2 bp nn bn.
  pose proof Hwf as [Hcp [Hbcp _]].
  assert (Hbp : ok bp) by (apply (lcp_ok _ _ _ _ _ _ _ _ _ _ LAWS); assumption).
  assert (Ebp : bits bp = common (bits q) (bits cp)) by (apply (lcp_spec _ _ _ _ _ _ _ _ _ _ LAWS); assumption).
  pose proof (contains_false cp q Hcp Hq C1) as N1.
  pose proof (contains_false q cp Hq Hcp C2) as N2.
  destruct (common_split (bits q) (bits cp) N2 N1) as [s [S1 S2]]. rewrite <- Ebp in S1, S2.
  assert (Es : to_right bp q = s).
  { rewrite to_right_spec by assumption. apply ext_bit. exact S1. }
  assert (Hbb : prefix_of bnd (bits bp)) by (rewrite Ebp; apply common_greatest; assumption).
  assert (Hc' : wf_under (bits bp ++ [negb s]) c) by (eapply wf_rebound; eassumption).
  assert (Hnn : wf_under (bits bp ++ [s]) nn) by (cbn; auto).
  subst bn. rewrite Es. destruct s; cbn [negb] in *; split.
  - cbn [TrieWf.wf_under]. auto.
  - intros e. unfold nn. cbn [entries]. cbn [app In]. rewrite in_app_iff. cbn [In]. intuition.
  - cbn [TrieWf.wf_under]. auto.
  - intros e. unfold nn. cbn [entries]. cbn [app In]. intuition.
Qed.

Lemma hang_spec bnd c q x a :
  wf_under bnd c -> ok q -> prefix_of bnd (bits q) ->
  match c with Leaf => True | Node _ cp _ _ _ => contains cp q = false end ->
  wf_under bnd (fst (hang c q x a)) /\
  forall e, In e (entries (fst (hang c q x a))) <-> e = (q, x) \/ In e (entries c).
Proof.
  intros Hwf Hq Hb Hs. unfold hang. destruct c as [|ci cp cv cl cr].
  - destruct (new_node a true) as [n a1]. cbn. split; [auto|]. intros e. split; [intros [<-|[]]|intros [->|[]]]; auto.
  - destruct (contains q cp) eqn:C2.
    + destruct (new_node a true) as [n a1]. exact (new_child_spec bnd ci cp cv cl cr q x n Hwf Hq Hb Hs C2).
    + destruct (new_node a false) as [b0 a1]. destruct (new_node a1 true) as [n a2].
      exact (new_branch_spec bnd ci cp cv cl cr q x n b0 Hwf Hq Hb Hs C2).
Qed.

Lemma get_node_node i p v l r q :
  get_node (Node i p v l r) q =
  if peq p q then Some (i, p, v) else
  let c := child_of l r (to_right p q) in
  match c with
  | Node _ cp _ _ _ => if contains cp q then get_node c q else None
  | Leaf => None
  end.
Proof. reflexivity. Qed.

Lemma get_node_stop i p v l r q :
  peq p q = false ->
  match child_of l r (to_right p q) with Leaf => True | Node _ cp _ _ _ => contains cp q = false end ->
  get_node (Node i p v l r) q = None.
Proof.
  intros E Hs. rewrite get_node_node, E. cbv zeta.
  destruct (child_of l r (to_right p q)); [|rewrite Hs]; reflexivity.
Qed.

Lemma ins_ret t q x a : snd (fst (ins t q x a)) = get t q.
Proof.
  unfold Trie.get.
  induction t as [|i p v l r E|i p v l r E Hs|i p v l r ci cp cv cl cr E Ec C IH] using (descent_ind q).
  - reflexivity.
  - rewrite ins_reached, get_node_node, E by assumption. reflexivity.
  - rewrite ins_stop, get_node_stop by assumption. destruct (hang (child_of l r (to_right p q)) q x a). reflexivity.
  - rewrite (ins_enter i p v l r q x a E Ec C), get_node_node, E. cbv zeta. rewrite Ec, C.
    destruct (ins (Node ci cp cv cl cr) q x a) as [[c' o] a']. exact IH.
Qed.

Lemma ins_tree_spec q x a t : forall b,
  wf_under b t -> ok q -> root_covers t q -> t <> Leaf ->
  ins_post b t q x (fst (fst (ins t q x a))).
Proof.
  induction t as [|i p v l r E|i p v l r E Hs|i p v l r ci cp cv cl cr E Ec C IH] using (descent_ind q);
    intros b Hwf Hq Hrc Hnl; [congruence|..].
  all: pose proof Hwf as [Hp _]; cbn in Hrc.
  all: pose proof (wf_child b i p v l r (to_right p q) Hwf) as Hc.
  - (* Reached *)
    rewrite ins_reached by assumption. cbn [fst]. pose proof (peq_true p q Hp Hq E) as Hk.
    destruct (post_reached b i p v l r q q (Some x) Hwf Hk Hq (eq_sym Hk)) as [W1 W2].
    unfold ins_post. cbn [Trie.tpfx Trie.tid].
    split; [exact W1|]. split; [discriminate|]. split; [symmetry; exact Hk|]. split; [reflexivity|].
    intros [p0 x0]. rewrite W2. cbn [fst snd].
    split; (intros [H|H]; [left | right; exact H]); [destruct H; congruence | inversion H; auto].
  - (* a new subtree is hung in the place of the child, none of whose entries has [q]'s key *)
    rewrite ins_stop by assumption.
    destruct (hang_spec _ _ q x a Hc Hq (descent_side p q Hp Hq Hrc E) Hs) as [W1 W2].
    destruct (hang (child_of l r (to_right p q)) q x a) as [nn a1]. cbn [fst] in *.
    apply (ins_post_child b i p v l r q Hwf Hq Hrc E). split; [exact W1|]. intros e. rewrite W2.
    assert (Hnc : In e (entries (child_of l r (to_right p q))) -> key e <> bits q).
    { intros He E0. eapply subtree_no_cover; [exact Hc | exact Hq | exact Hs | exact He | rewrite E0; apply prefix_of_refl]. }
    tauto.
  - (* Enter *)
    rewrite (ins_enter i p v l r q x a E Ec C). rewrite Ec in Hc.
    pose proof Hc as [Hcp _].
    destruct (IH _ Hc Hq (contains_true cp q Hcp Hq C)) as [W1 [_ [_ [_ W2]]]]; [discriminate|].
    destruct (ins (Node ci cp cv cl cr) q x a) as [[c' o] a']. cbn [fst] in *.
    apply (ins_post_child b i p v l r q Hwf Hq Hrc E). rewrite Ec. exact (conj W1 W2).
Qed.

Theorem ins_spec b t q x a t' o a' :
  wf_under b t -> ok q -> root_covers t q -> t <> Leaf ->
  ins t q x a = (t', o, a') ->
  ins_post b t q x t' /\ o = get t q.
Proof.
  intros Hwf Hq Hrc Hnl H.
  pose proof (ins_tree_spec q x a t b Hwf Hq Hrc Hnl) as P. pose proof (ins_ret t q x a) as R.
  rewrite H in P, R. split; [exact P | exact R].
Qed.

Lemma ins_wf_root t q x a t' o a' :
  wf_root t -> ok q -> ins t q x a = (t', o, a') -> wf_root t'.
Proof.
  intros Hr Hq H. destruct (wf_root_inv _ q Hr) as [Hwf [Hrc [Hnl Hb]]].
  destruct (ins_spec [] _ q x _ _ _ _ Hwf Hq Hrc Hnl H) as [[P1 [P2 [P3 _]]] _]. apply wf_root_intro; congruence.
Qed.

(** [vins] is [ins] up to the counter, which it also bumps where [ins] finds a value *)
Lemma vins_ins t q x a :
  vins t q x a =
  let '(t', o, a') := ins t q x a in (t', match o with Some _ => add_count 1 a' | None => a' end).
Proof.
  induction t as [|i p v l r E|i p v l r E Hs|i p v l r ci cp cv cl cr E Ec C IH] using (descent_ind q).
  - reflexivity.
  - rewrite ins_reached by assumption. cbn [Trie.vins]. rewrite E. destruct v; reflexivity.
  - (* [VacantEntry::_insert] repeats the placement of [insert] *)
    rewrite ins_stop by assumption. cbn [Trie.vins]. fold (child_of l r (to_right p q)). rewrite E. unfold hang.
    destruct (child_of l r (to_right p q)) as [|ci cp cv cl cr]; [destruct (new_node a true); reflexivity|].
    rewrite Hs. destruct (contains q cp); [destruct (new_node a true); reflexivity|].
    destruct (new_node a false) as [b0 a1]. destruct (new_node a1 true). reflexivity.
  - rewrite (ins_enter i p v l r q x a E Ec C). cbn [Trie.vins]. fold (child_of l r (to_right p q)).
    rewrite E, Ec, C, IH. destruct (ins (Node ci cp cv cl cr) q x a) as [[c' o] a']. reflexivity.
Qed.

Lemma vins_tree t q x a : fst (vins t q x a) = fst (fst (ins t q x a)).
Proof. rewrite vins_ins. destruct (ins t q x a) as [[t' o] a']. reflexivity. Qed.

Theorem vins_spec b t q x a t' a' :
  wf_under b t -> ok q -> root_covers t q -> t <> Leaf ->
  vins t q x a = (t', a') -> ins_post b t q x t'.
Proof.
  intros Hwf Hq Hrc Hnl H.
  pose proof (ins_tree_spec q x a t b Hwf Hq Hrc Hnl) as P. rewrite <- vins_tree, H in P. exact P.
Qed.

Lemma vins_wf_root t q x a t' a' :
  wf_root t -> ok q -> vins t q x a = (t', a') -> wf_root t'.
Proof.
  intros Hr Hq H. destruct (wf_root_inv _ q Hr) as [Hwf [Hrc [Hnl Hb]]].
  destruct (vins_spec [] _ q x _ _ _ Hwf Hq Hrc Hnl H) as [P1 [P2 [P3 _]]]. apply wf_root_intro; congruence.
Qed.


Lemma wf_sub_weaken b p s (c : tree) : prefix_of b (bits p) -> wf_under (bits p ++ [s]) c -> wf_under b c.
Proof.
  intros Hb Hc. eapply wf_weaken; [|exact Hc]. eapply prefix_of_trans; [exact Hb | apply prefix_of_app].
Qed.

(** what [remove_self] leaves at the node's position, whatever the tree: the node without its
    value, or one of its children (a [Leaf] included) *)
Lemma remove_self_cases {hp i p v l r a t' fl a'} :
  remove_self hp i p v l r a = (t', fl, a') ->
  (t' = Node i p None l r \/ t' = l \/ t' = r) /\ entries t' = entries l ++ entries r /\
  (fl = true -> t' = Leaf /\ l = Leaf /\ r = Leaf) /\
  (hp = false -> t' = Node i p None l r).
Proof.
  unfold Trie.remove_self. destruct l as [|li lp lv ll lr], r as [|ri rp rv rl rr], hp; cbn [is_node];
    intros [= <- <- _]; cbn [entries app]; rewrite ?app_nil_r; repeat split; auto; discriminate.
Qed.

Lemma remove_self_spec {b hp i p v l r a t' fl a'} :
  wf_under b (Node i p v l r) -> remove_self hp i p v l r a = (t', fl, a') ->
  wf_under b t' /\ entries t' = entries l ++ entries r /\
  (fl = true -> t' = Leaf /\ l = Leaf /\ r = Leaf) /\
  (hp = false -> t' = Node i p None l r).
Proof.
  intros Hwf H. destruct (remove_self_cases H) as [S R]. split; [|exact R]. destruct Hwf as [Hp [Hb [Hl Hr]]].
  destruct S as [->|[->| ->]]; [cbn; tauto | eapply wf_sub_weaken; eassumption..].
Qed.

(** ... and [absorb]: the parent without the child, or the sibling *)
Lemma absorb_cases {hp i p v l r s a t' a'} :
  absorb hp i p v l r s a = (t', a') ->
  (t' = with_child i p v l r s Leaf \/ t' = child_of l r (negb s)) /\
  entries t' = entries (with_child i p v l r s Leaf) /\
  (hp = false -> t' = with_child i p v l r s Leaf).
Proof.
  unfold Trie.absorb. destruct (hp && is_none v) eqn:B; intros [= <- _]; [|auto].
  apply andb_prop in B. destruct B as [-> B]. destruct v; [discriminate|].
  split; [right; destruct s; reflexivity|]. split; [|discriminate].
  destruct s; cbn [Trie.with_child entries app]; rewrite ?app_nil_r; reflexivity.
Qed.

Lemma absorb_spec b hp i p v l r s a t' a'' :
  wf_under b (Node i p v l r) ->
  absorb hp i p v l r s a = (t', a'') ->
  wf_under b t' /\
  (forall e, In e (entries t') <-> In e (entries (with_child i p v l r s Leaf))) /\
  (hp = false -> t' = with_child i p v l r s Leaf).
Proof.
  intros Hwf H. destruct (absorb_cases H) as (S & En & R). split; [|split; [rewrite En; reflexivity | exact R]].
  destruct S as [->| ->]; [apply with_child_wf; [exact Hwf | exact I]|].
  eapply wf_sub_weaken; [apply Hwf | eapply wf_child; exact Hwf].
Qed.

Lemma rem_node hp i p v l r q a :
  rem hp (Node i p v l r) q a =
  if peq p q then let '(t', fl, a') := remove_self hp i p v l r a in (t', fl, v, a') else
  let s := to_right p q in
  let c := child_of l r s in
  match c with
  | Leaf => (Node i p v l r, false, None, a)
  | Node _ cp _ _ _ =>
    if contains cp q then
      let '(c', fl, o, a') := rem true c q a in
      if fl then let '(t', a'') := absorb hp i p v l r s a' in (t', false, o, a'')
      else (with_child i p v l r s c', false, o, a')
    else (Node i p v l r, false, None, a)
  end.
Proof. reflexivity. Qed.

Lemma rem_stop hp i p v l r q a :
  peq p q = false ->
  match child_of l r (to_right p q) with Leaf => True | Node _ cp _ _ _ => contains cp q = false end ->
  rem hp (Node i p v l r) q a = (Node i p v l r, false, None, a).
Proof.
  intros E Hs. rewrite rem_node, E. cbv zeta.
  destruct (child_of l r (to_right p q)); [|rewrite Hs]; reflexivity.
Qed.

Lemma rem_ret t q a : forall hp, snd (fst (rem hp t q a)) = get t q.
Proof.
  unfold Trie.get.
  induction t as [|i p v l r E|i p v l r E Hs|i p v l r ci cp cv cl cr E Ec C IH] using (descent_ind q);
    intros hp; [reflexivity| |rewrite rem_stop, get_node_stop by assumption; reflexivity|];
    rewrite rem_node, get_node_node, E.
  - destruct (remove_self hp i p v l r a) as [[t' fl] a']. reflexivity.
  - cbv zeta. rewrite Ec, C. specialize (IH true).
    destruct (rem true (Node ci cp cv cl cr) q a) as [[[c' fl] o] a']. cbn [fst snd] in IH.
    destruct fl; [destruct (absorb hp i p v l r (to_right p q) a')|]; exact IH.
Qed.

Definition rem_post (b : list bool) (hp : bool) (t : tree) (q : pfx) (t' : tree) (fl : bool) : Prop :=
  wf_under b t' /\
  (forall e, In e (entries t') <-> In e (entries t) /\ key e <> bits q) /\
  (fl = true -> t' = Leaf) /\
  (hp = false -> t <> Leaf -> exists v' l' r', t' = Node (tid t) (tpfx t) v' l' r').

(** What a removing operation can do to a subtree.  [_remove_node] (mod.rs) acts in two places:
    at the node itself, which gives up its value and, if it has a parent and at most one child, its
    place ([shr_self] = [remove_self]); and in the frame of a parent, which links the rebuilt child
    again or, if the child was unlinked as a leaf, repairs itself ([shr_child]: [with_child] or
    [absorb]).  [remove] and [_retain] are sequences ([shr_refl], [shr_trans]) of these steps.
    [hp]: the subtree has a parent; [fl]: it was unlinked as a leaf, which its parent's frame has to
    absorb; [rm]: the entries taken out. *)
Inductive shr : bool -> tree -> alloc -> tree -> bool -> alloc -> list (pfx * V) -> Prop :=
| shr_refl hp t a : shr hp t a t false a []
| shr_self hp i p v l r a t' fl a' :
    remove_self hp i p v l r a = (t', fl, a') -> shr hp (Node i p v l r) a t' fl a' (own pfx V p v)
| shr_child hp i p v l r s c' fl a a' rm t'' a'' :
    shr true (child_of l r s) a c' fl a' rm ->
    (if fl then absorb hp i p v l r s a' else (with_child i p v l r s c', a')) = (t'', a'') ->
    shr hp (Node i p v l r) a t'' false a'' rm
| shr_trans hp t a t1 a1 rm1 t2 fl a2 rm2 :
    shr hp t a t1 false a1 rm1 -> shr hp t1 a1 t2 fl a2 rm2 -> shr hp t a t2 fl a2 (rm1 ++ rm2).

Lemma shr_flag {hp t a t' fl a' rm} : shr hp t a t' fl a' rm -> fl = true -> t' = Leaf.
Proof.
  induction 1 as [| hp i p v l r a t' fl a' RS | |]; try discriminate; [|assumption].
  apply (remove_self_cases RS).
Qed.

Lemma shr_wf {hp t a t' fl a' rm} : shr hp t a t' fl a' rm -> forall b, wf_under b t -> wf_under b t'.
Proof.
  induction 1 as [| hp i p v l r a t' fl a' RS | hp i p v l r s c' fl a a' rm t'' a'' H IH E
                  | hp t a t1 a1 rm1 t2 fl a2 rm2 H1 IH1 H2 IH2]; intros b Hwf; auto.
  - apply (remove_self_spec Hwf RS).
  - pose proof (IH _ (wf_child b i p v l r s Hwf)) as Hc. destruct fl.
    + apply (absorb_spec b hp i p v l r s a' t'' a'' Hwf E).
    + inversion E; subst. apply with_child_wf; assumption.
Qed.

(** a node without parent stays in place *)
Lemma shr_root {hp t a t' fl a' rm} : shr hp t a t' fl a' rm -> hp = false ->
  forall i p v l r, t = Node i p v l r -> exists v' l' r', t' = Node i p v' l' r'.
Proof.
  induction 1 as [| hp i p v l r a t' fl a' RS | hp i p v l r s c' fl a a' rm t'' a'' H IH E
                  | hp t a t1 a1 rm1 t2 fl a2 rm2 H1 IH1 H2 IH2];
    intros -> i0 p0 v0 l0 r0 E0; [eauto|inversion E0; subst..|].
  - destruct (remove_self_cases RS) as (_ & _ & _ & ->); eauto.
  - exists v0. destruct fl; [rewrite (proj2 (proj2 (absorb_cases E)) eq_refl)|inversion E]; apply with_child_root.
  - destruct (IH1 eq_refl _ _ _ _ _ E0) as (v1 & l1 & r1 & E1). exact (IH2 eq_refl _ _ _ _ _ E1).
Qed.

Lemma perm_with_child i p v l r s c' (rm : list (pfx * V)) :
  Permutation (entries (child_of l r s)) (entries c' ++ rm) ->
  Permutation (entries (Node i p v l r)) (entries (with_child i p v l r s c') ++ rm).
Proof.
  intros P. destruct s; cbn [Trie.with_child TrieWf.child_of entries] in *; rewrite <- !app_assoc.
  - apply Permutation_app_head, Permutation_app_head. exact P.
  - apply Permutation_app_head. rewrite P, <- !app_assoc. apply Permutation_app_head, Permutation_app_comm.
Qed.

(** stated for lists, so that sequences and frames compose without a side condition; [NoDup] of
    the entry list is needed only where membership in [t'] is read off *)
Lemma shr_perm {hp t a t' fl a' rm} : shr hp t a t' fl a' rm -> Permutation (entries t) (entries t' ++ rm).
Proof.
  induction 1 as [| hp i p v l r a t' fl a' RS | hp i p v l r s c' fl a a' rm t'' a'' H IH E
                  | hp t a t1 a1 rm1 t2 fl a2 rm2 H1 IH1 H2 IH2].
  - rewrite app_nil_r. reflexivity.
  - rewrite (proj1 (proj2 (remove_self_cases RS))). apply Permutation_app_comm.
  - pose proof (perm_with_child i p v l r s c' rm IH) as P. destruct fl.
    + rewrite (proj1 (proj2 (absorb_cases E))). rewrite (shr_flag H eq_refl) in P. exact P.
    + inversion E; subst. exact P.
  - rewrite IH1, IH2, <- app_assoc. apply Permutation_app_head, Permutation_app_comm.
Qed.

(** a child that was rebuilt, or unlinked from a parent that does not collapse *)
Lemma shr_kid hp i p v l r s c' fl a a' rm :
  shr true (child_of l r s) a c' fl a' rm -> fl && (hp && is_none v) = false ->
  shr hp (Node i p v l r) a (with_child i p v l r s c') false a' rm.
Proof.
  intros H B. eapply shr_child; [exact H|]. destruct fl; [|reflexivity].
  rewrite (shr_flag H eq_refl). unfold Trie.absorb. cbn [andb] in B. rewrite B. reflexivity.
Qed.

Lemma shr_kids hp i p v l r l' r' fl fr a a1 a2 rl rr :
  shr true l a l' fl a1 rl -> shr true r a1 r' fr a2 rr ->
  fl && (hp && is_none v) = false -> fr && (hp && is_none v) = false ->
  shr hp (Node i p v l r) a (Node i p v l' r') false a2 (rl ++ rr).
Proof.
  intros Sl Sr Bl Br. eapply shr_trans.
  - exact (shr_kid hp i p v l r false l' fl _ _ _ Sl Bl).
  - exact (shr_kid hp i p v l' r true r' fr _ _ _ Sr Br).
Qed.

Lemma rem_shr {q a t} : forall {hp t' fl o a'}, rem hp t q a = (t', fl, o, a') ->
  shr hp t a t' fl a' (match get_node t q with Some (_, p, v) => own pfx V p v | None => [] end).
Proof.
  induction t as [|i p v l r E|i p v l r E Hs|i p v l r ci cp cv cl cr E Ec C IH] using (descent_ind q);
    intros hp t' fl o a' H.
  - cbn in H. inversion H; subst. apply shr_refl.
  - rewrite rem_node, E in H. rewrite get_node_node, E.
    destruct (remove_self hp i p v l r a) as [[t1 fl1] a1] eqn:RS. inversion H; subst. apply shr_self. exact RS.
  - rewrite rem_stop in H by assumption. rewrite get_node_stop by assumption. inversion H; subst. apply shr_refl.
  - rewrite rem_node, E in H. rewrite get_node_node, E. cbv zeta in *. rewrite Ec, C in *.
    destruct (rem true (Node ci cp cv cl cr) q a) as [[[c' fl1] o1] a1] eqn:R.
    assert (F : (if fl1 then absorb hp i p v l r (to_right p q) a1 else (with_child i p v l r (to_right p q) c', a1)) = (t', a')
                /\ fl = false)
      by (destruct fl1; [destruct (absorb hp i p v l r (to_right p q) a1)|]; inversion H; auto).
    destruct F as [F ->]. eapply shr_child; [rewrite Ec; exact (IH _ _ _ _ _ R) | exact F].
Qed.

(** among the entries, the one at the node [get_node] finds is the one with the query's key *)
Lemma in_found b t q e :
  wf_under b t -> ok q -> root_covers t q -> In e (entries t) ->
  (In e (match get_node t q with Some (_, p, v) => own pfx V p v | None => [] end) <-> key e = bits q).
Proof.
  intros Hwf Hq Hrc He. destruct e as [p x]. split.
  - destruct (get_node t q) as [[[j pj] vj]|] eqn:G; [|intros []]. intros Ho. apply (in_own pfx V) in Ho.
    destruct Ho as [_ <-]. exact (proj1 (get_node_sound _ _ _ _ _ _ Hwf Hq G)).
  - intros Hk. destruct (get_node_complete t b q p x Hwf Hq Hrc He Hk) as [j ->]. left. reflexivity.
Qed.

Lemma rem_tree_spec q a t : forall hp b,
  wf_under b t -> ok q -> root_covers t q ->
  rem_post b hp t q (fst (fst (fst (rem hp t q a)))) (snd (fst (fst (rem hp t q a)))).
Proof.
  intros hp b Hwf Hq Hrc. destruct (rem hp t q a) as [[[t' fl] o] a'] eqn:R. cbn [fst snd]. pose proof (rem_shr R) as S.
  split; [exact (shr_wf S b Hwf)|]. split; [|split; [exact (shr_flag S)|]].
  - (* the entry taken out is the one [get_node] finds, and keys are unique *)
    pose proof (shr_perm S) as P.
    pose proof (sorted_nodup pfx V bits _ (entries_sorted _ _ Hwf)) as Nt.
    destruct (nodup_app_inv _ _ (Permutation_NoDup P Nt)) as (_ & _ & D).
    intros e. split.
    + intros He. assert (Ht : In e (entries t)) by (apply (Permutation_in _ (Permutation_sym P)), in_or_app; auto).
      split; [exact Ht|]. intros Hk. apply (D e He), (in_found b t q e Hwf Hq Hrc Ht), Hk.
    + intros [He Hk]. pose proof He as Ht. apply (Permutation_in _ P), in_app_or in He. destruct He as [He|He]; [exact He|].
      destruct (Hk (proj1 (in_found b t q e Hwf Hq Hrc Ht) He)).
  - intros Hp Hn. destruct t as [|i p v l r]; [congruence|]. exact (shr_root S Hp _ _ _ _ _ eq_refl).
Qed.

Theorem rem_spec b hp t q a t' fl o a' :
  wf_under b t -> ok q -> root_covers t q ->
  rem hp t q a = (t', fl, o, a') ->
  rem_post b hp t q t' fl /\ o = get t q.
Proof.
  intros Hwf Hq Hrc H.
  pose proof (rem_tree_spec q a t hp b Hwf Hq Hrc) as P. pose proof (rem_ret t q a hp) as R.
  rewrite H in P, R. split; [exact P | exact R].
Qed.

Lemma rem_wf_root t q a t' fl o a' :
  wf_root t -> ok q -> rem false t q a = (t', fl, o, a') -> wf_root t'.
Proof.
  intros Hr Hq H. destruct (wf_root_inv _ q Hr) as [Hwf [Hrc [Hnl Hb]]].
  destruct (rem_spec [] false _ q a t' fl o a' Hwf Hq Hrc H) as [[P1 [_ [_ P4]]] _].
  destruct (P4 eq_refl Hnl) as [v' [l' [r' ->]]]. apply wf_root_intro; [exact P1 | discriminate | exact Hb].
Qed.

Lemma modify_node i p v l r q h :
  modify (Node i p v l r) q h =
  if peq p q then let '(p', v') := h p v in Node i p' v' l r else
  let s := to_right p q in
  let c := child_of l r s in
  match c with
  | Node _ cp _ _ _ => if contains cp q then with_child i p v l r s (modify c q h) else Node i p v l r
  | Leaf => Node i p v l r
  end.
Proof. reflexivity. Qed.

(** [h] may change the representation of the reached prefix, not its key *)
Definition keeps_key (q : pfx) (h : pfx -> option V -> pfx * option V) : Prop :=
  forall p v p' v', ok p -> bits p = bits q -> h p v = (p', v') -> ok p' /\ bits p' = bits p.

(** the entry produced at the reached node *)
Definition mod_new (t : tree) (q : pfx) (h : pfx -> option V -> pfx * option V) (e : pfx * V) : Prop :=
  exists i p v, get_node t q = Some (i, p, v) /\ h p v = (fst e, Some (snd e)).

Definition mod_post (b : list bool) (t : tree) (q : pfx) h (t' : tree) : Prop :=
  wf_under b t' /\
  (forall e, In e (entries t') <-> mod_new t q h e \/ (In e (entries t) /\ key e <> bits q)) /\
  (forall i p v l r, t = Node i p v l r ->
     exists p' v' l' r', t' = Node i p' v' l' r' /\ bits p' = bits p).

Lemma get_node_none b t q :
  wf_under b t -> ok q -> root_covers t q -> get_node t q = None ->
  forall e, In e (entries t) -> key e <> bits q.
Proof.
  intros Hwf Hq Hrc G e Hin Hk. apply (in_found b t q e Hwf Hq Hrc Hin) in Hk. rewrite G in Hk. exact Hk.
Qed.

Lemma modify_stop i p v l r q h :
  peq p q = false ->
  match child_of l r (to_right p q) with Leaf => True | Node _ cp _ _ _ => contains cp q = false end ->
  modify (Node i p v l r) q h = Node i p v l r.
Proof.
  intros E Hs. rewrite modify_node, E. cbv zeta.
  destruct (child_of l r (to_right p q)); [|rewrite Hs]; reflexivity.
Qed.

Lemma modify_enter i p v l r q h {ci cp cv cl cr} :
  peq p q = false -> child_of l r (to_right p q) = Node ci cp cv cl cr -> contains cp q = true ->
  modify (Node i p v l r) q h = with_child i p v l r (to_right p q) (modify (Node ci cp cv cl cr) q h).
Proof. intros E Ec C. rewrite modify_node, E. cbv zeta. rewrite Ec, C. reflexivity. Qed.

Lemma modify_wf t : forall b q h,
  (forall p v, ok p -> ok (fst (h p v)) /\ bits (fst (h p v)) = bits p) ->
  wf_under b t -> wf_under b (modify t q h).
Proof.
  intros b q h Hh. revert b.
  induction t as [|i p v l r E|i p v l r E Hs|i p v l r ci cp cv cl cr E Ec C IH] using (descent_ind q);
    intros b Hwf; [exact I| |rewrite modify_stop by assumption; exact Hwf|].
  - rewrite modify_node, E. destruct Hwf as [Hp Hwf]. destruct (Hh p v Hp) as [A B].
    destruct (h p v) as [p' v']. cbn [fst] in A, B. cbn [TrieWf.wf_under]. rewrite B. auto.
  - rewrite (modify_enter i p v l r q h E Ec C). apply with_child_wf; [exact Hwf|].
    apply IH. rewrite <- Ec. eapply wf_child; exact Hwf.
Qed.

(** the shape of the tree: slots and stored prefixes, values forgotten *)
Fixpoint skel (t : tree) : Trie.tree pfx unit :=
  match t with
  | Leaf => Leaf
  | Node i p _ l r => Node i p None (skel l) (skel r)
  end.

(** the shape with every prefix replaced by its key *)
Fixpoint skelb (t : tree) : Trie.tree (list bool) unit :=
  match t with
  | Leaf => Leaf
  | Node i p _ l r => Node i (bits p) None (skelb l) (skelb r)
  end.

Lemma skel_skelb t1 t2 : skel t1 = skel t2 -> skelb t1 = skelb t2.
Proof.
  revert t2. induction t1 as [|i p v l IHl r IHr]; intros [|i2 p2 v2 l2 r2] H; cbn in *; try congruence.
  inversion H; subst. f_equal; auto.
Qed.

Lemma skel_modify t : forall q h, (forall p v, fst (h p v) = p) -> skel (modify t q h) = skel t.
Proof.
  intros q h Hh.
  induction t as [|i p v l r E|i p v l r E Hs|i p v l r ci cp cv cl cr E Ec C IH] using (descent_ind q);
    [reflexivity| |rewrite modify_stop by assumption; reflexivity|].
  - rewrite modify_node, E. specialize (Hh p v). destruct (h p v) as [p' v']. cbn in Hh. subst p'. reflexivity.
  - rewrite (modify_enter i p v l r q h E Ec C). revert Ec IH.
    destruct (to_right p q); cbn [TrieWf.child_of Trie.with_child skel]; intros -> ->; reflexivity.
Qed.

Lemma skelb_modify t : forall b q h, wf_under b t -> ok q -> keeps_key q h -> skelb (modify t q h) = skelb t.
Proof.
  intros b q h Hwf Hq Hh. revert b Hwf.
  induction t as [|i p v l r E|i p v l r E Hs|i p v l r ci cp cv cl cr E Ec C IH] using (descent_ind q);
    intros b Hwf; [reflexivity| |rewrite modify_stop by assumption; reflexivity|].
  - rewrite modify_node, E. destruct Hwf as [Hp _].
    pose proof (peq_true p q Hp Hq E) as Hk. destruct (h p v) as [p' v'] eqn:Eh.
    destruct (Hh p v p' v' Hp Hk Eh) as [_ B]. cbn [skelb]. rewrite B. reflexivity.
  - rewrite (modify_enter i p v l r q h E Ec C).
    pose proof (wf_child b i p v l r (to_right p q) Hwf) as Hc. rewrite Ec in Hc. specialize (IH _ Hc).
    revert Ec IH. destruct (to_right p q); cbn [TrieWf.child_of Trie.with_child skelb]; intros -> ->; reflexivity.
Qed.

Theorem modify_spec t b q h :
  wf_under b t -> ok q -> root_covers t q -> keeps_key q h ->
  mod_post b t q h (modify t q h).
Proof.
  intros Hwf Hq Hrc Hh.
  assert (P : post b t (modify t q h) (mod_new t q h) (fun e => key e <> bits q)).
  { revert b Hwf Hrc. unfold mod_new.
    induction t as [|i p v l r E|i p v l r E Hs|i p v l r ci cp cv cl cr E Ec C IH] using (descent_ind q);
      intros b Hwf Hrc.
    { apply post_same; [exact I | intros e (i & p & v & G & _); discriminate | intros e []]. }
    all: pose proof Hwf as [Hp _]; cbn in Hrc.
    - (* Reached *)
      rewrite modify_node, get_node_node, E.
      pose proof (peq_true p q Hp Hq E) as Hk.
      destruct (h p v) as [p' v'] eqn:Eh.
      destruct (Hh p v p' v' Hp Hk Eh) as [Hp' Hk'].
      destruct (post_reached b i p v l r q p' v' Hwf Hk Hp' Hk') as [W1 W2].
      split; [exact W1|]. intros e. rewrite W2.
      assert (Hnew : v' = Some (snd e) /\ fst e = p' <->
                     exists i0 p0 v0, Some (i, p, v) = Some (i0, p0, v0) /\ h p0 v0 = (fst e, Some (snd e))).
      { split.
        - intros [-> <-]. exists i, p, v. split; [reflexivity | exact Eh].
        - intros [i0 [p0 [v0 [A B]]]]. inversion A; subst. rewrite Eh in B. inversion B; subst. auto. }
      clear - Hnew. tauto.
    - (* the descent finds no node: no entry has the query's key *)
      pose proof (get_node_stop i p v l r q E Hs) as G. rewrite modify_stop, G by assumption.
      apply post_same; [exact Hwf | intros e (i0 & p0 & v0 & A & _); discriminate|].
      exact (get_node_none b _ q Hwf Hq Hrc G).
    - (* Enter *)
      pose proof (wf_child b i p v l r (to_right p q) Hwf) as Hc. rewrite Ec in Hc.
      rewrite (modify_enter i p v l r q h E Ec C), get_node_node, E. cbv zeta. rewrite Ec, C.
      apply (post_child b i p v l r q Hwf Hq Hrc E); [intros e; apply not_covered_neq | rewrite Ec].
      exact (IH _ Hc (contains_true cp q (proj1 Hc) Hq C)). }
  destruct P as [P1 P2]. split; [exact P1|]. split; [exact P2|].
  (* the root node: from the shape *)
  intros i p v l r ->. pose proof (skelb_modify _ b q h Hwf Hq Hh) as S.
  destruct (modify (Node i p v l r) q h) as [|i' p' v' l' r']; [discriminate|]. inversion S. eauto 6.
Qed.

Lemma modify_wf_root t q h : wf_root t -> ok q -> keeps_key q h -> wf_root (modify t q h).
Proof.
  intros Hr Hq Hh. destruct (wf_root_inv _ q Hr) as [Hwf [Hrc [Hnl Hb]]].
  destruct (modify_spec _ [] q h Hwf Hq Hrc Hh) as [P1 [_ P3]].
  destruct t as [|i p v l r]; [congruence|]. destruct (P3 _ _ _ _ _ eq_refl) as [p' [v' [l' [r' [E Ek]]]]].
  rewrite E in *. apply wf_root_intro; [exact P1 | discriminate | cbn in *; congruence].
Qed.

Lemma rc_node i p v l r q a :
  rc (Node i p v l r) q a =
  if peq p q then (Node i p v l r, a) else
  let s := to_right p q in
  let c := child_of l r s in
  match c with
  | Leaf => (Node i p v l r, a)
  | Node _ cp _ _ _ =>
    if contains cp q then
      if peq cp q then (with_child i p v l r s Leaf, free_all pfx V c a)
      else let '(c', a') := rc c q a in (with_child i p v l r s c', a')
    else if contains q cp then (with_child i p v l r s Leaf, free_all pfx V c a)
    else (Node i p v l r, a)
  end.
Proof. reflexivity. Qed.

(** the root of the subtree is not the query itself.  [rc] returns the tree unchanged when it is
    ([remove_children] diverts that case to [clear]), so the specification needs this. *)
Definition root_strict (t : tree) (q : pfx) : Prop :=
  match t with Leaf => True | Node _ p _ _ _ => bits p <> bits q end.

Lemma rc_tree_spec q a t : forall b,
  wf_under b t -> ok q -> root_covers t q -> root_strict t q ->
  rc_post b t q (fst (rc t q a)).
Proof.
  induction t as [|i p v l r E|i p v l r E Hs|i p v l r ci cp cv cl cr E Ec C IH] using (descent_ind q);
    intros b Hwf Hq Hrc Hrs.
  { cbn. split; [exact I|]. split; [intros e; cbn; tauto | intros; discriminate]. }
  all: pose proof Hwf as [Hp _]; cbn in Hrc, Hrs.
  { exfalso. apply Hrs. apply peq_true; assumption. }
  all: rewrite rc_node, E; cbv zeta.
  all: pose proof (wf_child b i p v l r (to_right p q) Hwf) as Hc.
  - destruct (child_of l r (to_right p q)) as [|ci cp cv cl cr] eqn:Ec;
      [cbn [fst]; apply (rc_post_same b i p v l r q Hwf Hq Hrc E); rewrite Ec; intros e []|].
    pose proof Hc as [Hcp _].
    assert (Hund : forall e, In e (entries (Node ci cp cv cl cr)) -> prefix_of (bits cp) (key e)).
    { intros e He. eapply entries_under; [eapply wf_self; exact Hc | exact He]. }
    rewrite Hs. destruct (contains q cp) eqn:C2; cbn [fst].
    + apply (rc_post_drop b i p v l r q Hwf Hq Hrc E). rewrite Ec. intros e He.
      eapply prefix_of_trans; [apply contains_true; eassumption | apply Hund; exact He].
    + apply (rc_post_same b i p v l r q Hwf Hq Hrc E). rewrite Ec. intros e He Hcov.
      destruct (prefix_of_comparable _ _ _ Hcov (Hund e He)) as [A|A].
      * eapply contains_false; [exact Hq | exact Hcp | exact C2 | exact A].
      * eapply contains_false; [exact Hcp | exact Hq | exact Hs | exact A].
  - rewrite Ec in *. rewrite C. pose proof Hc as [Hcp _].
    destruct (peq cp q) eqn:E2.
    + cbn [fst]. apply (rc_post_drop b i p v l r q Hwf Hq Hrc E). rewrite Ec. intros e He.
      rewrite <- (peq_true cp q Hcp Hq E2). eapply entries_under; [eapply wf_self; exact Hc | exact He].
    + specialize (IH _ Hc Hq (contains_true cp q Hcp Hq C) (peq_false cp q Hcp Hq E2)).
      destruct (rc (Node ci cp cv cl cr) q a) as [c' a']. cbn [fst] in *.
      destruct IH as [W1 [W2 _]]. apply (rc_post_child b i p v l r q Hwf Hq Hrc E). rewrite Ec.
      split; [exact W1 | intros e; rewrite W2; tauto].
Qed.

Theorem rc_spec b t q a t' a' :
  wf_under b t -> ok q -> root_covers t q -> root_strict t q ->
  rc t q a = (t', a') -> rc_post b t q t'.
Proof.
  intros Hwf Hq Hrc Hrs H. pose proof (rc_tree_spec q a t b Hwf Hq Hrc Hrs) as P.
  rewrite H in P. exact P.
Qed.

(** why [root_strict] is needed: at a node whose key IS the query, [rc] changes nothing, so a
    value stored there survives although the query covers it *)
Lemma rc_reached_unchanged i p x l r q a :
  ok p -> ok q -> bits p = bits q ->
  rc (Node i p (Some x) l r) q a = (Node i p (Some x) l r, a) /\
  In (p, x) (entries (fst (rc (Node i p (Some x) l r) q a))) /\ prefix_of (bits q) (key (p, x)).
Proof.
  intros Hp Hq Hk. rewrite rc_node, (peq_refl_bits p q Hp Hq Hk). cbn [fst].
  split; [reflexivity|]. split; [apply (in_entries_own pfx V) | unfold TrieWf.key; cbn [fst]; rewrite Hk; apply prefix_of_refl].
Qed.

Theorem empty_spec : wf_root (root empty) /\ entries (root empty) = [].
Proof.
  split; [|reflexivity]. cbn.
  pose proof (zero_spec _ _ _ _ _ _ _ _ _ _ LAWS) as Z. pose proof (zero_ok _ _ _ _ _ _ _ _ _ _ LAWS) as K.
  rewrite Z. repeat split; try exact K; try apply prefix_of_nil.
Qed.

Theorem clear_spec m : wf_root (root (clear m)) /\ entries (root (clear m)) = [].
Proof. exact empty_spec. Qed.

Theorem insert_spec m q x m' o :
  wf_root (root m) -> ok q -> insert m q x = (m', o) ->
  wf_root (root m') /\
  (forall e, In e (entries (root m')) <-> e = (q, x) \/ (In e (entries (root m)) /\ key e <> bits q)) /\
  o = get (root m) q.
Proof.
  intros Hr Hq H. unfold Trie.insert in H.
  destruct (ins (root m) q x (al m)) as [[t' o'] a'] eqn:I. inversion H; subst. cbn [root].
  destruct (wf_root_inv _ q Hr) as [Hwf [Hrc [Hnl Hb]]].
  destruct (ins_spec [] _ q x _ _ _ _ Hwf Hq Hrc Hnl I) as [[P1 [P2 [P3 [_ P5]]]] P6].
  split; [apply wf_root_intro; congruence|]. split; assumption.
Qed.

Theorem vacant_insert_spec m q x :
  wf_root (root m) -> ok q ->
  wf_root (root (vacant_insert m q x)) /\
  (forall e, In e (entries (root (vacant_insert m q x))) <->
             e = (q, x) \/ (In e (entries (root m)) /\ key e <> bits q)).
Proof.
  intros Hr Hq. unfold Trie.vacant_insert.
  destruct (vins (root m) q x (al m)) as [t' a'] eqn:I. cbn [root].
  destruct (wf_root_inv _ q Hr) as [Hwf [Hrc [Hnl Hb]]].
  destruct (vins_spec [] _ q x _ _ _ Hwf Hq Hrc Hnl I) as [P1 [P2 [P3 [_ P5]]]].
  split; [apply wf_root_intro; congruence | exact P5].
Qed.

Theorem remove_spec m q m' o :
  wf_root (root m) -> ok q -> remove m q = (m', o) ->
  wf_root (root m') /\
  (forall e, In e (entries (root m')) <-> In e (entries (root m)) /\ key e <> bits q) /\
  o = get (root m) q.
Proof.
  intros Hr Hq H. unfold Trie.remove in H.
  destruct (rem false (root m) q (al m)) as [[[t' fl] o'] a'] eqn:R. inversion H; subst. cbn [root].
  destruct (wf_root_inv _ q Hr) as [Hwf [Hrc [Hnl Hb]]].
  destruct (rem_spec [] false _ q _ _ _ _ _ Hwf Hq Hrc R) as [[P1 [P2 _]] P3].
  split; [eapply rem_wf_root; eassumption|]. split; assumption.
Qed.

Lemma keeps_key_take q : keeps_key q (fun p _ => (p, None)).
Proof. intros p v p' v' Hp _ H. inversion H; subst. auto. Qed.
Lemma keeps_key_put q x : ok q -> keeps_key q (fun _ _ => (q, Some x)).
Proof. intros Hq p v p' v' Hp Hk H. inversion H; subst. auto. Qed.
Lemma keeps_key_map q (g : V -> V) : keeps_key q (fun p v => (p, option_map g v)).
Proof. intros p v p' v' Hp _ H. inversion H; subst. auto. Qed.

Theorem remove_keep_tree_spec m q m' o :
  wf_root (root m) -> ok q -> remove_keep_tree m q = (m', o) ->
  wf_root (root m') /\
  (forall e, In e (entries (root m')) <-> In e (entries (root m)) /\ key e <> bits q) /\
  o = get (root m) q /\
  skel (root m') = skel (root m).
Proof.
  intros Hr Hq H. unfold Trie.remove_keep_tree in H. inversion H; subst. cbn [root].
  split; [apply modify_wf_root; [exact Hr | exact Hq | apply keeps_key_take]|].
  split; [|split; [reflexivity | apply skel_modify; reflexivity]].
  intros e. destruct (wf_root_inv _ q Hr) as [Hwf [Hrc _]].
  destruct (modify_spec (root m) [] q _ Hwf Hq Hrc (keeps_key_take q)) as [_ [P2 _]].
  rewrite P2. split; [intros [[i [p [v [_ A]]]]|A]; [discriminate | exact A] | auto].
Qed.

Theorem occ_remove_spec m q m' o :
  wf_root (root m) -> ok q -> occ_remove m q = (m', o) ->
  wf_root (root m') /\
  (forall e, In e (entries (root m')) <-> In e (entries (root m)) /\ key e <> bits q) /\
  o = get (root m) q /\
  skel (root m') = skel (root m).
Proof. exact (remove_keep_tree_spec m q m' o). Qed.

Theorem occ_insert_spec m q x y m' o :
  wf_root (root m) -> ok q -> get (root m) q = Some y -> occ_insert m q x = (m', o) ->
  wf_root (root m') /\
  (forall e, In e (entries (root m')) <-> e = (q, x) \/ (In e (entries (root m)) /\ key e <> bits q)) /\
  o = Some y /\
  skelb (root m') = skelb (root m).
Proof.
  intros Hr Hq G H. unfold Trie.occ_insert in H. inversion H; subst. cbn [root].
  destruct (wf_root_inv _ q Hr) as [Hwf [Hrc _]].
  split; [apply modify_wf_root; [exact Hr | exact Hq | apply keeps_key_put; exact Hq]|].
  split; [|split; [exact G | eapply skelb_modify; [exact Hwf | exact Hq | apply keeps_key_put; exact Hq]]].
  intros e. destruct (modify_spec (root m) [] q _ Hwf Hq Hrc (keeps_key_put q x Hq)) as [_ [P2 _]].
  rewrite P2. unfold mod_new.
  assert (A : (exists i p v, get_node (root m) q = Some (i, p, v) /\ (q, Some x) = (fst e, Some (snd e))) <-> e = (q, x)).
  { split.
    - intros [i [p [v [_ B]]]]. destruct e. cbn in B. congruence.
    - intros ->. unfold Trie.get in G. destruct (get_node (root m) q) as [[[i p] v]|]; [|discriminate].
      exists i, p, v. split; reflexivity. }
  tauto.
Qed.

Theorem update_value_spec m q g :
  wf_root (root m) -> ok q ->
  wf_root (root (update_value m q g)) /\
  (forall e, In e (entries (root (update_value m q g))) <->
             (In e (entries (root m)) /\ key e <> bits q) \/
             (exists y, In (fst e, y) (entries (root m)) /\ key e = bits q /\ snd e = g y)) /\
  skel (root (update_value m q g)) = skel (root m).
Proof.
  intros Hr Hq. unfold Trie.update_value. cbn [root].
  destruct (wf_root_inv _ q Hr) as [Hwf [Hrc _]].
  split; [apply modify_wf_root; [exact Hr | exact Hq | apply keeps_key_map]|].
  split; [|apply skel_modify; reflexivity].
  intros e. destruct (modify_spec (root m) [] q _ Hwf Hq Hrc (keeps_key_map q g)) as [_ [P2 _]].
  rewrite P2. unfold mod_new.
  assert (A : (exists i p v, get_node (root m) q = Some (i, p, v) /\ (p, option_map g v) = (fst e, Some (snd e))) <->
              (exists y, In (fst e, y) (entries (root m)) /\ key e = bits q /\ snd e = g y)).
  { split.
    - intros [i [p [v [G B]]]]. inversion B; subst. destruct v as [y|]; [|discriminate].
      destruct (get_node_sound _ _ _ _ _ _ Hwf Hq G) as [S1 S2]. exists y.
      split; [apply S2; reflexivity|]. split; [exact S1 | cbn in *; congruence].
    - intros [y [Hin [Hk Hs]]].
      destruct (get_node_complete _ _ _ _ _ Hwf Hq Hrc Hin Hk) as [i G].
      exists i, (fst e), (Some y). split; [exact G|]. cbn. rewrite Hs. reflexivity. }
  tauto.
Qed.

Theorem remove_children_spec m q :
  wf_root (root m) -> ok q ->
  wf_root (root (remove_children m q)) /\
  (forall e, In e (entries (root (remove_children m q))) <->
             In e (entries (root m)) /\ ~ prefix_of (bits q) (key e)).
Proof.
  intros Hr Hq. unfold Trie.remove_children.
  pose proof (plen_bits _ _ _ _ _ _ _ _ _ _ LAWS q Hq) as Hlen.
  destruct (plen q =? 0)%N eqn:Z.
  - apply N.eqb_eq in Z. assert (Eq : bits q = []) by (destruct (bits q); [reflexivity | cbn in Hlen; lia]).
    destruct (clear_spec m) as [C1 C2]. split; [exact C1|]. intros e. rewrite C2, Eq.
    split; [intros [] | intros [_ A]; apply A; apply prefix_of_nil].
  - apply N.eqb_neq in Z. destruct (rc (root m) q (al m)) as [t' a'] eqn:R. cbn [root].
    destruct (wf_root_inv _ q Hr) as [Hwf [Hrc [Hnl Hb]]].
    assert (Hrs : root_strict (root m) q).
    { destruct (root m) as [|i p v l r]; [exact I|]. cbn in *. rewrite Hb. intros E. rewrite <- E in Hlen. cbn in Hlen. lia. }
    destruct (rc_spec [] _ q _ _ _ Hwf Hq Hrc Hrs R) as [P1 [P2 P3]].
    split; [|exact P2].
    destruct (root m) as [|i p v l r]; [congruence|]. destruct (P3 _ _ _ _ _ eq_refl) as [l' [r' ->]].
    cbn in Hb. split; [exact Hb | exact P1].
Qed.

(** * [from_list]: the last element with a given key wins *)

Lemma fold_insert_spec l : forall m,
  wf_root (root m) -> (forall e, In e l -> ok (fst e)) ->
  wf_root (root (fold_left (fun m e => fst (insert m (fst e) (snd e))) l m)) /\
  forall e, In e (entries (root (fold_left (fun m e => fst (insert m (fst e) (snd e))) l m))) <->
    (exists l1 l2, l = l1 ++ e :: l2 /\ forall e', In e' l2 -> key e' <> key e) \/
    (In e (entries (root m)) /\ forall e', In e' l -> key e' <> key e).
Proof.
  induction l as [|a l IH]; intros m Hr Hok.
  - cbn [fold_left]. split; [exact Hr|]. intros e. split.
    + intros He. right. split; [exact He | intros e' []].
    + intros [[l1 [l2 [E _]]]|[He _]]; [|exact He]. exfalso. eapply app_cons_not_nil; exact E.
  - cbn [fold_left].
    destruct (insert m (fst a) (snd a)) as [m1 o] eqn:I. cbn [fst].
    assert (Ha : ok (fst a)) by (apply Hok; left; reflexivity).
    destruct (insert_spec m (fst a) (snd a) m1 o Hr Ha I) as [R1 [R2 _]].
    destruct (IH m1 R1) as [W1 W2]; [intros e He; apply Hok; right; exact He|].
    split; [exact W1|]. intros e. rewrite W2, R2. rewrite <- (surjective_pairing a).
    change (bits (fst a)) with (key a). split.
    + intros [[l1 [l2 [E H2]]]|[[E|[He Hne]] Hall]].
      * left. exists (a :: l1), l2. split; [rewrite E; reflexivity | exact H2].
      * left. exists [], l. split; [rewrite E; reflexivity | exact Hall].
      * right. split; [exact He|]. intros e' [<-|He']; [congruence | apply Hall; exact He'].
    + intros [[l1 [l2 [E H2]]]|[He Hall]].
      * destruct l1 as [|a1 l1]; cbn [app] in E; inversion E; subst.
        -- right. split; [left; reflexivity | exact H2].
        -- left. exists l1, l2. split; [reflexivity | exact H2].
      * right. split; [|intros e' He'; apply Hall; right; exact He'].
        right. split; [exact He|]. intros E. apply (Hall a); [left; reflexivity | symmetry; exact E].
Qed.

Theorem from_list_spec l :
  (forall e, In e l -> ok (fst e)) ->
  wf_root (root (from_list l)) /\
  forall e, In e (entries (root (from_list l))) <->
            exists l1 l2, l = l1 ++ e :: l2 /\ forall e', In e' l2 -> key e' <> key e.
Proof.
  intros Hok. unfold Trie.from_list.
  destruct (fold_insert_spec l empty (proj1 empty_spec) Hok) as [W1 W2].
  split; [exact W1|]. intros e. rewrite W2. split; [intros [A|[[] _]]; exact A | auto].
Qed.

Lemma nbeq_spec (a b : list bool) : negb (beq a b) = true <-> a <> b.
Proof.
  rewrite negb_true_iff. split.
  - intros H E. apply beq_spec in E. congruence.
  - intros H. destruct (beq a b) eqn:E; [|reflexivity]. apply beq_spec in E. contradiction.
Qed.

Lemma nprefix_spec (a b : list bool) : negb (is_prefix a b) = true <-> ~ prefix_of a b.
Proof.
  rewrite negb_true_iff. split.
  - intros H E. apply is_prefix_spec in E. congruence.
  - intros H. destruct (is_prefix a b) eqn:E; [|reflexivity]. apply is_prefix_spec in E. contradiction.
Qed.

(** [Refine.a_without] and [Refine.a_remove_children] are the same two terms, written with
    [Refine.akey]; Refine.v uses the theorems below at those names by conversion *)
Definition a_remove (A : list (pfx * V)) (q : pfx) : list (pfx * V) :=
  filter (fun e => negb (beq (key e) (bits q))) A.
Definition a_remove_children (A : list (pfx * V)) (q : pfx) : list (pfx * V) :=
  filter (fun e => negb (is_prefix (bits q) (key e))) A.

Lemma in_a_remove A q e : In e (a_remove A q) <-> In e A /\ key e <> bits q.
Proof. unfold a_remove. rewrite filter_In, nbeq_spec. reflexivity. Qed.
Lemma in_a_remove_children A q e : In e (a_remove_children A q) <-> In e A /\ ~ prefix_of (bits q) (key e).
Proof. unfold a_remove_children. rewrite filter_In, nprefix_spec. reflexivity. Qed.

Lemma entries_ext t (A : list (pfx * V)) :
  wf_root t -> StronglySorted key_lt A -> (forall e, In e (entries t) <-> In e A) -> entries t = A.
Proof.
  intros Hr HA H. destruct (wf_root_inv t pzero Hr) as [Hwf _].
  apply (sorted_ext pfx V bits); [eapply entries_sorted; exact Hwf | exact HA | exact H].
Qed.

Theorem remove_refines m q :
  wf_root (root m) -> ok q ->
  entries (root (fst (remove m q))) = a_remove (entries (root m)) q.
Proof.
  intros Hr Hq. destruct (remove m q) as [m' o] eqn:R. cbn [fst].
  destruct (remove_spec m q m' o Hr Hq R) as [P1 [P2 _]].
  apply (filter_char pfx V bits); [apply wf_root_sorted; exact Hr | apply wf_root_sorted; exact P1|].
  intros e. rewrite P2, nbeq_spec. reflexivity.
Qed.

Theorem remove_keep_tree_refines m q :
  wf_root (root m) -> ok q ->
  entries (root (fst (remove_keep_tree m q))) = a_remove (entries (root m)) q.
Proof.
  intros Hr Hq. destruct (remove_keep_tree m q) as [m' o] eqn:R. cbn [fst].
  destruct (remove_keep_tree_spec m q m' o Hr Hq R) as [P1 [P2 _]].
  apply (filter_char pfx V bits); [apply wf_root_sorted; exact Hr | apply wf_root_sorted; exact P1|].
  intros e. rewrite P2, nbeq_spec. reflexivity.
Qed.

Theorem occ_remove_refines m q :
  wf_root (root m) -> ok q ->
  entries (root (fst (occ_remove m q))) = a_remove (entries (root m)) q.
Proof. exact (remove_keep_tree_refines m q). Qed.

Theorem remove_children_refines m q :
  wf_root (root m) -> ok q ->
  entries (root (remove_children m q)) = a_remove_children (entries (root m)) q.
Proof.
  intros Hr Hq. destruct (remove_children_spec m q Hr Hq) as [P1 P2].
  apply (filter_char pfx V bits); [apply wf_root_sorted; exact Hr | apply wf_root_sorted; exact P1|].
  intros e. rewrite P2, nprefix_spec. reflexivity.
Qed.

Theorem clear_refines m : entries (root (clear m)) = [].
Proof. reflexivity. Qed.

(** [remove] and [remove_keep_tree] are observationally the same on the entry list *)
Corollary remove_keep_tree_same_entries m q :
  wf_root (root m) -> ok q ->
  entries (root (fst (remove_keep_tree m q))) = entries (root (fst (remove m q))).
Proof. intros Hr Hq. rewrite remove_refines, remove_keep_tree_refines by assumption. reflexivity. Qed.

End MU.

Print Assumptions ins_spec.
Print Assumptions vins_spec.
Print Assumptions rem_spec.
Print Assumptions modify_spec.
Print Assumptions rc_spec.
Print Assumptions empty_spec.
Print Assumptions clear_spec.
Print Assumptions insert_spec.
Print Assumptions vacant_insert_spec.
Print Assumptions remove_spec.
Print Assumptions remove_keep_tree_spec.
Print Assumptions occ_remove_spec.
Print Assumptions occ_insert_spec.
Print Assumptions update_value_spec.
Print Assumptions remove_children_spec.
Print Assumptions from_list_spec.
Print Assumptions remove_refines.
Print Assumptions remove_keep_tree_refines.
Print Assumptions occ_remove_refines.
Print Assumptions remove_children_refines.
Print Assumptions clear_refines.
