(** Canonical shape: if only insertion, removal, retain and clear are used, the shape of the tree
    (keys, has-value flags, structure) is a function of the stored key set alone.

    - [canon_unique] / [canonical_unique]: two canonical well-formed trees with the same key set
      have the same shape.
    - [ins]/[vins]/[rem]/[ret] (and the map-level [insert], [vacant_insert], [remove], [retain],
      [clear], [empty], [from_list]) preserve canonicity.  None of these preservation proofs needs
      well-formedness, [ok q] or [root_covers]: they are purely structural.
    - corollaries: insertion order is irrelevant for the shape; [remove] exactly reverts an
      [insert] of a fresh key.  Here they take the conclusions of the [Mutate] specifications as
      hypotheses, so that they too rest on no prefix law; [HistoryExtra.canonical_shape_from_list]
      and [HistoryExtra.remove_reverts_insert_wf] are the self-contained forms. *)
From Coq Require Import List NArith Bool.
From PT Require Import Bits BitsThm Laws Trie TrieWf Mutate Retain.
Import ListNotations.

(** the observable shape: keys (bit strings), has-value flags, structure; no slot ids, values,
    host bits *)
Inductive shape := SLeaf | SNode (k : list bool) (has : bool) (l r : shape).

Section CN.
Variables (pfx V : Type).
Variables (peq contains : pfx -> pfx -> bool) (is_bit_set : pfx -> N -> bool)
          (plen : pfx -> N) (lcp : pfx -> pfx -> pfx) (pzero : pfx)
          (mcmp : pfx -> pfx -> comparison).
Variable bits : pfx -> list bool.
Variable ok : pfx -> Prop.
(* No proof below uses [LAWS] (nor [mcmp]): uniqueness needs only [wf_under]/[wf_root], and the
   preservation proofs are purely structural.  It is declared because [tauto] generalises a lemma
   over every section variable that no hypothesis mentions; with [LAWS] in the context the theorems
   are generalised only over the variables their statements mention. *)
Hypothesis LAWS : prefix_laws pfx peq contains is_bit_set plen lcp pzero mcmp bits ok.

Notation tree := (Trie.tree pfx V).
Notation pmap := (Trie.pmap pfx V).
Notation to_right := (Trie.to_right pfx is_bit_set plen).
Notation wf_under := (TrieWf.wf_under pfx V bits ok).
Notation wf_root := (TrieWf.wf_root pfx V bits ok).
Notation key := (TrieWf.key pfx V bits).
Notation child_of := (TrieWf.child_of pfx V).
Notation with_child := (Trie.with_child pfx V).
Notation ins := (Trie.ins pfx V peq contains is_bit_set plen lcp).
Notation vins := (Trie.vins pfx V peq contains is_bit_set plen lcp).
Notation remove_self := (Trie.remove_self pfx V).
Notation absorb := (Trie.absorb pfx V).
Notation rem := (Trie.rem pfx V peq contains is_bit_set plen).
Notation ret := (Trie.ret pfx V).
Notation insert := (Trie.insert pfx V peq contains is_bit_set plen lcp).
Notation remove := (Trie.remove pfx V peq contains is_bit_set plen).
Notation retain := (Trie.retain pfx V).
Notation clear := (Trie.clear pfx V pzero).
Notation empty := (Trie.empty pfx V pzero).
Notation vacant_insert := (Trie.vacant_insert pfx V peq contains is_bit_set plen lcp).
Notation from_list := (Trie.from_list pfx V peq contains is_bit_set plen lcp pzero).

Local Notation descent_ind := (TrieWf.descent_ind pfx V peq contains is_bit_set plen).
Local Notation hang := (Mutate.hang pfx V contains is_bit_set plen lcp).
Local Notation ins_reached := (Mutate.ins_reached pfx V peq contains is_bit_set plen lcp).
Local Notation ins_stop := (Mutate.ins_stop pfx V peq contains is_bit_set plen lcp).
Local Notation ins_enter := (Mutate.ins_enter pfx V peq contains is_bit_set plen lcp).
Local Notation vins_tree := (Mutate.vins_tree pfx V peq contains is_bit_set plen lcp).
Local Notation wf_self := (TrieWf.wf_self pfx V bits ok).
Local Notation wf_child := (TrieWf.wf_child pfx V bits ok).
Local Notation entries_under := (TrieWf.entries_under pfx V bits ok).
Local Notation in_entries_child := (TrieWf.in_entries_child pfx V).
Local Notation in_entries_own := (TrieWf.in_entries_own pfx V).
Local Notation in_entries_node := (TrieWf.in_entries_node pfx V).

(** every value-less node below the root has two (non-Leaf) children *)
Fixpoint canon_below (t : tree) : Prop :=       (* for subtrees that are not the map root *)
  match t with
  | Leaf => True
  | Node _ _ v l r =>
    (v = None -> is_node l = true /\ is_node r = true) /\ canon_below l /\ canon_below r
  end.

Definition canonical (t : tree) : Prop :=        (* for the map root *)
  match t with Leaf => False | Node _ _ _ l r => canon_below l /\ canon_below r end.

Fixpoint shape_of (t : tree) : shape :=
  match t with
  | Leaf => SLeaf
  | Node _ p v l r => SNode (bits p) (is_some v) (shape_of l) (shape_of r)
  end.

(** the key set of a tree *)
Definition has_key (t : tree) (k : list bool) : Prop := exists e, In e (entries t) /\ key e = k.
Definition same_keys (t1 t2 : tree) : Prop := forall k, has_key t1 k <-> has_key t2 k.

Lemma canon_inhabited t : canon_below t -> is_node t = true -> exists e, In e (entries t).
Proof.
  induction t as [|i p v l IHl r IHr]; intros Hc Hn; [discriminate|].
  destruct Hc as [Hv [Hl Hr]]. destruct v as [x|].
  - exists (p, x). apply in_entries_own.
  - destruct (Hv eq_refl) as [Hnl _]. destruct (IHl Hl Hnl) as [e He].
    exists e. apply (in_entries_child _ _ _ _ _ false). exact He.
Qed.

Lemma canon_nonempty t : canon_below t -> is_node t = true -> entries t <> [].
Proof.
  intros Hc Hn E. destruct (canon_inhabited t Hc Hn) as [e He]. rewrite E in He. exact He.
Qed.

Lemma own_key_iff {b i p v l r} :
  wf_under b (Node i p v l r) -> (has_key (Node i p v l r) (bits p) <-> is_some v = true).
Proof.
  intros Hwf. pose proof Hwf as [_ [_ [Hl Hr]]]. split.
  - intros [e [He Hk]]. destruct (proj1 (in_entries_node _ _ _ _ _ false _) He) as [[Hv _]|[H|H]].
    + rewrite Hv. reflexivity.
    + exfalso. eapply below_neq; [eapply entries_under; [exact Hl | exact H] | exact Hk].
    + exfalso. eapply below_neq; [eapply entries_under; [exact Hr | exact H] | exact Hk].
  - destruct v as [x|]; [|discriminate]. intros _. exists (p, x).
    split; [apply in_entries_own | reflexivity].
Qed.

Lemma child_keys {b i p v l r} s k :
  wf_under b (Node i p v l r) ->
  (has_key (child_of l r s) k <-> has_key (Node i p v l r) k /\ prefix_of (bits p ++ [s]) k).
Proof.
  intros Hwf. pose proof Hwf as [_ [_ [Hl Hr]]]. split.
  - intros [e [He Hk]]. split.
    + exists e. split; [|exact Hk]. exact (in_entries_child _ _ _ _ _ s _ He).
    + rewrite <- Hk. eapply entries_under; [eapply wf_child; exact Hwf | exact He].
  - intros [[e [He Hk]] Hp]. exists e. split; [|exact Hk].
    destruct (proj1 (in_entries_node _ _ _ _ _ false _) He) as [[_ Hv]|[H|H]].
    + exfalso. eapply below_neq; [exact Hp|]. rewrite <- Hk. unfold TrieWf.key. rewrite Hv. reflexivity.
    + pose proof (entries_under _ _ _ Hl H) as U. rewrite Hk in U.
      destruct s; [exfalso; eapply sides_disjoint; eassumption | exact H].
    + pose proof (entries_under _ _ _ Hr H) as U. rewrite Hk in U.
      destruct s; [exact H | exfalso; eapply sides_disjoint; eassumption].
Qed.

Lemma root_key_le {b1 b2 i1 p1 v1 l1 r1 i2 p2 v2 l2 r2} :
  wf_under b1 (Node i1 p1 v1 l1 r1) -> wf_under b2 (Node i2 p2 v2 l2 r2) ->
  canon_below (Node i1 p1 v1 l1 r1) ->
  (forall k, has_key (Node i1 p1 v1 l1 r1) k -> has_key (Node i2 p2 v2 l2 r2) k) ->
  prefix_of (bits p2) (bits p1).
Proof.
  intros W1 W2 C Hsub.
  assert (U2 : forall k, has_key (Node i1 p1 v1 l1 r1) k -> prefix_of (bits p2) k).
  { intros k Hk. destruct (Hsub k Hk) as [e [He <-]].
    eapply entries_under; [eapply wf_self; exact W2 | exact He]. }
  pose proof W1 as [_ [_ [Hl Hr]]].
  destruct C as [Cv [Cl Cr]].
  destruct v1 as [x|].
  - apply U2. exists (p1, x). split; [apply in_entries_own | reflexivity].
  - destruct (Cv eq_refl) as [Nl Nr].
    destruct (canon_inhabited l1 Cl Nl) as [el Hel]. destruct (canon_inhabited r1 Cr Nr) as [er Her].
    pose proof (entries_under _ _ _ Hl Hel) as Ul. pose proof (entries_under _ _ _ Hr Her) as Ur.
    assert (Pl : prefix_of (bits p2) (key el)).
    { apply U2. exists el. split; [apply (in_entries_child _ _ _ _ _ false); exact Hel | reflexivity]. }
    assert (Pr : prefix_of (bits p2) (key er)).
    { apply U2. exists er. split; [apply (in_entries_child _ _ _ _ _ true); exact Her | reflexivity]. }
    destruct (prefix_of_comparable _ _ _ Pl (below_prefix _ _ _ Ul)) as [H|H]; [exact H|].
    destruct (list_eq_dec bool_dec (bits p2) (bits p1)) as [E|NE]; [rewrite E; apply prefix_of_refl|].
    exfalso. pose proof (proper_ext _ _ H NE) as Hx.
    destruct (nth (length (bits p1)) (bits p2) false).
    + eapply sides_disjoint; [exact Ul | eapply prefix_of_trans; [exact Hx | exact Pl]].
    + eapply sides_disjoint; [eapply prefix_of_trans; [exact Hx | exact Pr] | exact Ur].
Qed.

Lemma node_step {b1 b2 i1 p1 v1 l1 r1 i2 p2 v2 l2 r2} :
  wf_under b1 (Node i1 p1 v1 l1 r1) -> wf_under b2 (Node i2 p2 v2 l2 r2) ->
  bits p1 = bits p2 ->
  same_keys (Node i1 p1 v1 l1 r1) (Node i2 p2 v2 l2 r2) ->
  (forall s, wf_under (bits p1 ++ [s]) (child_of l1 r1 s) ->
             wf_under (bits p1 ++ [s]) (child_of l2 r2 s) ->
             same_keys (child_of l1 r1 s) (child_of l2 r2 s) ->
             shape_of (child_of l1 r1 s) = shape_of (child_of l2 r2 s)) ->
  shape_of (Node i1 p1 v1 l1 r1) = shape_of (Node i2 p2 v2 l2 r2).
Proof.
  intros W1 W2 E HK Hrec.
  assert (Ev : is_some v1 = is_some v2).
  { pose proof (own_key_iff W1) as O1. pose proof (own_key_iff W2) as O2.
    destruct (is_some v1) eqn:S1, (is_some v2) eqn:S2; try reflexivity.
    - symmetry. apply (proj1 O2). apply (proj1 (HK _)). rewrite <- E. apply (proj2 O1). reflexivity.
    - apply (proj1 O1). rewrite E. apply (proj2 (HK _)). apply (proj2 O2). reflexivity. }
  assert (HKc : forall s, same_keys (child_of l1 r1 s) (child_of l2 r2 s)).
  { intros s k. split; intros H.
    - apply (child_keys s k W1) in H. destruct H as [H1 H2].
      apply (child_keys s k W2). split; [apply HK; exact H1 | rewrite <- E; exact H2].
    - apply (child_keys s k W2) in H. destruct H as [H1 H2].
      apply (child_keys s k W1). split; [apply HK; exact H1 | rewrite E; exact H2]. }
  assert (Hc : forall s, shape_of (child_of l1 r1 s) = shape_of (child_of l2 r2 s)).
  { intros s. apply Hrec; [eapply wf_child; exact W1 | rewrite E; eapply wf_child; exact W2 | apply HKc]. }
  cbn [shape_of]. rewrite E, Ev. f_equal; [exact (Hc false) | exact (Hc true)].
Qed.

(** uniqueness below the root: two canonical well-formed subtrees under the same bound with the
    same key set have the same shape *)
Theorem canon_unique b (t1 t2 : tree) :
  wf_under b t1 -> wf_under b t2 -> canon_below t1 -> canon_below t2 ->
  (forall k, (exists e, In e (entries t1) /\ key e = k) <-> (exists e, In e (entries t2) /\ key e = k)) ->
  shape_of t1 = shape_of t2.
Proof.
  revert b t2. induction t1 as [|i1 p1 v1 l1 IHl r1 IHr]; intros b t2 W1 W2 C1 C2 HK.
  - destruct t2 as [|i2 p2 v2 l2 r2]; [reflexivity|]. exfalso.
    destruct (canon_inhabited _ C2 eq_refl) as [e He].
    destruct (proj2 (HK (key e))) as [e' [[] _]]. exists e. split; [exact He | reflexivity].
  - destruct t2 as [|i2 p2 v2 l2 r2].
    { exfalso. destruct (canon_inhabited _ C1 eq_refl) as [e He].
      destruct (proj1 (HK (key e))) as [e' [[] _]]. exists e. split; [exact He | reflexivity]. }
    assert (E : bits p1 = bits p2).
    { apply prefix_of_antisym.
      - eapply (root_key_le W2 W1 C2). intros k. apply HK.
      - eapply (root_key_le W1 W2 C1). intros k. apply HK. }
    destruct C1 as [_ [Cl1 Cr1]]. destruct C2 as [_ [Cl2 Cr2]].
    apply (node_step W1 W2 E HK).
    intros s Wc1 Wc2 HKc. destruct s; cbn [TrieWf.child_of] in *.
    + eapply IHr; eassumption.
    + eapply IHl; eassumption.
Qed.

(** whole maps (the root node always exists and may be value-less with fewer
    than two children) *)
Theorem canonical_unique (t1 t2 : tree) :
  wf_root t1 -> wf_root t2 -> canonical t1 -> canonical t2 ->
  (forall k, (exists e, In e (entries t1) /\ key e = k) <-> (exists e, In e (entries t2) /\ key e = k)) ->
  shape_of t1 = shape_of t2.
Proof.
  intros R1 R2 C1 C2 HK.
  destruct t1 as [|i1 p1 v1 l1 r1]; [contradiction|]. destruct t2 as [|i2 p2 v2 l2 r2]; [contradiction|].
  destruct R1 as [E1 W1]. destruct R2 as [E2 W2]. destruct C1 as [Cl1 Cr1]. destruct C2 as [Cl2 Cr2].
  assert (E : bits p1 = bits p2) by congruence.
  apply (node_step W1 W2 E HK).
  intros s Wc1 Wc2 HKc. destruct s; cbn [TrieWf.child_of] in *.
  - exact (canon_unique _ _ _ Wc1 Wc2 Cr1 Cr2 HKc).
  - exact (canon_unique _ _ _ Wc1 Wc2 Cl1 Cl2 HKc).
Qed.

(** * Preservation: the role-indexed invariant
    [canon_gen true] = [canon_below] (a subtree that sits under a parent; may be [Leaf]),
    [canon_gen false] = [canonical] (the map root: must exist, no constraint on the node itself).
    The index is the [hp] ("has parent") flag of [rem]/[ret]. *)

Definition canon_gen (hp : bool) (t : tree) : Prop :=
  match t with
  | Leaf => hp = true
  | Node _ _ v l r =>
    (hp = true -> v = None -> is_node l = true /\ is_node r = true) /\ canon_below l /\ canon_below r
  end.

Lemma canon_gen_true t : canon_gen true t <-> canon_below t.
Proof.
  destruct t as [|i p v l r]; cbn; [tauto|]. split.
  - intros [H [Hl Hr]]. split; [intros E; apply H; [reflexivity | exact E] | split; assumption].
  - intros [H [Hl Hr]]. split; [intros _ E; apply H; exact E | split; assumption].
Qed.

Lemma canon_gen_false t : canon_gen false t <-> canonical t.
Proof.
  destruct t as [|i p v l r]; cbn; [split; [discriminate | contradiction]|]. split.
  - intros [_ H]. exact H.
  - intros H. split; [discriminate | exact H].
Qed.

Lemma canon_gen_below hp t : canon_below t -> is_node t = true -> canon_gen hp t.
Proof.
  destruct t as [|i p v l r]; [discriminate|]. intros [H [Hl Hr]] _.
  split; [intros _ E; apply H; exact E | split; assumption].
Qed.

Lemma is_node_with_child i p v l r s c' : is_node (with_child i p v l r s c') = true.
Proof. destruct s; reflexivity. Qed.

Lemma canon_with_child hp i p v l r s c' :
  canon_gen hp (Node i p v l r) -> canon_below c' ->
  (is_node (child_of l r s) = true -> is_node c' = true) ->
  canon_gen hp (with_child i p v l r s c').
Proof.
  intros [Hv [Hl Hr]] Hc Hn. destruct s; cbn [Trie.with_child TrieWf.child_of] in *.
  - split; [|split; assumption]. intros H1 H2. destruct (Hv H1 H2) as [A B].
    split; [exact A | apply Hn; exact B].
  - split; [|split; assumption]. intros H1 H2. destruct (Hv H1 H2) as [A B].
    split; [apply Hn; exact A | exact B].
Qed.

Lemma canon_child hp i p v l r s : canon_gen hp (Node i p v l r) -> canon_below (child_of l r s).
Proof. intros [_ [Hl Hr]]. destruct s; assumption. Qed.

Lemma canon_new_leaf n (q : pfx) (x : V) : canon_below (Node n q (Some x) Leaf Leaf).
Proof. cbn. split; [discriminate | split; exact I]. Qed.

Lemma canon_new_child n (q : pfx) (x : V) (c : tree) (s : bool) :
  canon_below c ->
  canon_below (if s then Node n q (Some x) Leaf c else Node n q (Some x) c Leaf).
Proof. intros Hc. destruct s; cbn; (split; [discriminate|]); split; solve [exact I | exact Hc]. Qed.

Lemma canon_new_branch b n (bp q : pfx) (x : V) (c : tree) (s : bool) :
  canon_below c -> is_node c = true ->
  canon_below (if s then Node b bp None c (Node n q (Some x) Leaf Leaf)
               else Node b bp None (Node n q (Some x) Leaf Leaf) c).
Proof.
  intros Hc Hn. pose proof (canon_new_leaf n q x) as Hq. destruct s.
  - split; [intros _; split; [exact Hn | reflexivity] | split; [exact Hc | exact Hq]].
  - split; [intros _; split; [reflexivity | exact Hn] | split; [exact Hq | exact Hc]].
Qed.

Lemma hang_canon c q x a :
  canon_below c -> canon_below (fst (hang c q x a)) /\ is_node (fst (hang c q x a)) = true.
Proof.
  intros Hc. unfold Mutate.hang. destruct c as [|ci cp cv cl cr].
  - destruct (new_node a true) as [n a1]. split; [apply canon_new_leaf | reflexivity].
  - destruct (contains q cp).
    + destruct (new_node a true) as [n a1]. cbn [fst].
      split; [apply canon_new_child; exact Hc | destruct (to_right q cp); reflexivity].
    + destruct (new_node a false) as [b a1]. destruct (new_node a1 true) as [n a2]. cbn [fst].
      split; [apply canon_new_branch; [exact Hc | reflexivity] | destruct (to_right (lcp q cp) q); reflexivity].
Qed.

Lemma ins_canon_gen q x a t : forall hp,
  canon_gen hp t ->
  canon_gen hp (fst (fst (ins t q x a))) /\
  (is_node t = true -> is_node (fst (fst (ins t q x a))) = true).
Proof.
  induction t as [|i p v l r E|i p v l r E Hs|i p v l r ci cp cv cl cr E Ec C IH] using (descent_ind q);
    intros hp Hc; [split; [exact Hc | discriminate]|..].
  - (* Reached *)
    rewrite ins_reached by assumption. cbn [fst]. split; [|reflexivity].
    destruct Hc as [_ Hk]. split; [discriminate | exact Hk].
  - rewrite ins_stop by assumption.
    destruct (hang_canon _ q x a (canon_child hp i p v l r (to_right p q) Hc)) as [A B].
    destruct (hang (child_of l r (to_right p q)) q x a) as [nn a1]. cbn [fst] in *.
    split; [|intros _; apply is_node_with_child].
    apply canon_with_child; [exact Hc | exact A | intros _; exact B].
  - (* Enter *)
    pose proof (canon_child hp i p v l r (to_right p q) Hc) as Hcc.
    rewrite (ins_enter i p v l r q x a E Ec C). rewrite Ec in Hcc.
    destruct (IH true (proj2 (canon_gen_true _) Hcc)) as [A B]. apply canon_gen_true in A.
    destruct (ins (Node ci cp cv cl cr) q x a) as [[c' o] a']. cbn [fst] in *.
    split; [|intros _; apply is_node_with_child].
    apply canon_with_child; [exact Hc | exact A | rewrite Ec; exact B].
Qed.

Theorem ins_canon_below t q x a t' o a' :
  ins t q x a = (t', o, a') -> canon_below t -> canon_below t'.
Proof.
  intros H. rewrite <- !canon_gen_true. intros Hc. pose proof (proj1 (ins_canon_gen q x a t true Hc)) as A.
  rewrite H in A. exact A.
Qed.

Theorem ins_canonical t q x a t' o a' :
  ins t q x a = (t', o, a') -> canonical t -> canonical t'.
Proof.
  intros H. rewrite <- !canon_gen_false. intros Hc. pose proof (proj1 (ins_canon_gen q x a t false Hc)) as A.
  rewrite H in A. exact A.
Qed.

Theorem vins_canon_below t q x a t' a' :
  vins t q x a = (t', a') -> canon_below t -> canon_below t'.
Proof.
  intros H. rewrite <- !canon_gen_true. intros Hc. pose proof (proj1 (ins_canon_gen q x a t true Hc)) as A.
  rewrite <- vins_tree, H in A. exact A.
Qed.

Theorem vins_canonical t q x a t' a' :
  vins t q x a = (t', a') -> canonical t -> canonical t'.
Proof.
  intros H. rewrite <- !canon_gen_false. intros Hc. pose proof (proj1 (ins_canon_gen q x a t false Hc)) as A.
  rewrite <- vins_tree, H in A. exact A.
Qed.

(** removing a node's own value: needs only that the children are canonical (in particular it
    applies to a valued node with any number of children).  If the node was not unlinked as a
    leaf, something (the node itself, or its only child) still stands at its position. *)
Lemma remove_self_canon {hp i p v l r a t' fl a'} :
  remove_self hp i p v l r a = (t', fl, a') ->
  canon_below l -> canon_below r ->
  canon_gen hp t' /\ (fl = false -> is_node t' = true).
Proof.
  unfold Trie.remove_self. intros H Hl Hr.
  destruct (is_node l) eqn:Nl, (is_node r) eqn:Nr.
  - inversion H; subst. split; [|reflexivity]. split; [intros _ _; split; assumption | split; assumption].
  - destruct hp; inversion H; subst.
    + split; [apply canon_gen_true; exact Hl | intros _; exact Nl].
    + split; [|reflexivity]. split; [discriminate | split; assumption].
  - destruct hp; inversion H; subst.
    + split; [apply canon_gen_true; exact Hr | intros _; exact Nr].
    + split; [|reflexivity]. split; [discriminate | split; assumption].
  - destruct hp; inversion H; subst.
    + split; [reflexivity | discriminate].
    + split; [|reflexivity]. split; [discriminate | split; assumption].
Qed.

(** the parent's frame after a child was unlinked as a leaf: a non-root value-less parent had
    two children, so it collapses into the non-Leaf sibling; a valued parent or the root just
    loses the child *)
Lemma absorb_canon {hp i p v l r s a t' a'} :
  absorb hp i p v l r s a = (t', a') ->
  canon_gen hp (Node i p v l r) ->
  canon_gen hp t' /\ is_node t' = true.
Proof.
  unfold Trie.absorb. intros H Hc. destruct (hp && is_none v) eqn:B.
  - apply andb_true_iff in B. destruct B as [-> Bv]. destruct v; [discriminate|].
    destruct Hc as [Hv [Hl Hr]]. destruct (Hv eq_refl eq_refl) as [Nl Nr].
    inversion H; subst. destruct s.
    + split; [apply canon_gen_true; exact Hl | exact Nl].
    + split; [apply canon_gen_true; exact Hr | exact Nr].
  - inversion H; subst. split; [|apply is_node_with_child].
    destruct Hc as [Hv [Hl Hr]].
    assert (Hv' : hp = true -> v = None -> False).
    { intros -> ->. discriminate. }
    destruct s; cbn [Trie.with_child]; (split; [intros A1 A2; destruct (Hv' A1 A2)|]); split;
      solve [assumption | exact I].
Qed.

(** removal steps preserve canonicity in the role given by [hp]; and unless the subtree was
    unlinked as a leaf ([fl = true], which the parent's [absorb] repairs), a non-Leaf subtree is
    replaced by a non-Leaf subtree *)
Lemma shr_canon {hp t a t' fl a' rm} : Mutate.shr pfx V hp t a t' fl a' rm ->
  canon_gen hp t -> canon_gen hp t' /\ (is_node t = true -> fl = false -> is_node t' = true).
Proof.
  induction 1 as [| hp i p v l r a t' fl a' RS | hp i p v l r s c' fl a a' rm t'' a'' H IH E
                  | hp t a t1 a1 rm1 t2 fl a2 rm2 H1 IH1 H2 IH2]; intros Hc; auto.
  - destruct Hc as [_ [Hl Hr]]. destruct (remove_self_canon RS Hl Hr) as [A B]. auto.
  - destruct (IH (proj2 (canon_gen_true _) (canon_child hp i p v l r s Hc))) as [A B]. destruct fl.
    + destruct (absorb_canon E Hc) as [A1 B1]. auto.
    + inversion E; subst. split; [|intros _ _; apply is_node_with_child].
      apply canon_with_child; [exact Hc | apply canon_gen_true; exact A | auto].
  - destruct (IH1 Hc) as [A1 B1]. destruct (IH2 A1) as [A2 B2]. auto.
Qed.

Lemma rem_canon_gen q a t : forall hp t' fl o a',
  rem hp t q a = (t', fl, o, a') ->
  canon_gen hp t ->
  canon_gen hp t' /\ (is_node t = true -> fl = false -> is_node t' = true).
Proof. intros hp t' fl o a' H. exact (shr_canon (Mutate.rem_shr pfx V peq contains is_bit_set plen H)). Qed.

Theorem rem_canon_below t q a t' fl o a' :
  rem true t q a = (t', fl, o, a') -> canon_below t ->
  canon_below t' /\ (is_node t = true -> fl = false -> is_node t' = true).
Proof. intros H. rewrite <- !canon_gen_true. exact (rem_canon_gen q a t true t' fl o a' H). Qed.

Theorem rem_canonical t q a t' fl o a' :
  rem false t q a = (t', fl, o, a') -> canonical t -> canonical t'.
Proof. intros H. rewrite <- !canon_gen_false. intros Hc. exact (proj1 (rem_canon_gen q a t false t' fl o a' H Hc)). Qed.

(** for ANY outcome, a panic of the closure included: the nodes on the path to the panicking
    node are kept as they are, so no value-less one-child node can arise *)
Lemma ret_graph_canon f hp t s t' st s' :
  ret_graph pfx V f hp t s t' st s' ->
  canon_gen hp t ->
  canon_gen hp t' /\ (is_node t = true -> st <> RDone true -> is_node t' = true).
Proof.
  intros H Hc. destruct (ret_run pfx V f H) as (cv & rest & S & _). destruct (shr_canon S Hc) as [A B].
  split; [exact A|]. intros Hn Hst. apply B; [exact Hn|]. destruct st as [[|]|]; [contradiction Hst|..]; reflexivity.
Qed.

Lemma ret_canon_gen_any f t hp s t' st s' :
  ret f hp t s = (t', st, s') ->
  canon_gen hp t ->
  canon_gen hp t' /\ (is_node t = true -> st <> RDone true -> is_node t' = true).
Proof. intros H. exact (ret_graph_canon f hp t s t' st s' (ret_graph_sound pfx V f t hp s t' st s' H)). Qed.

Theorem ret_canon_below_any f t s t' st s' :
  ret f true t s = (t', st, s') -> canon_below t ->
  canon_below t' /\ (is_node t = true -> st <> RDone true -> is_node t' = true).
Proof. intros H. rewrite <- !canon_gen_true. exact (ret_canon_gen_any f t true s t' st s' H). Qed.

Theorem ret_canonical_any f t s t' st s' :
  ret f false t s = (t', st, s') -> canonical t -> canonical t'.
Proof. intros H. rewrite <- !canon_gen_false. intros Hc. exact (proj1 (ret_canon_gen_any f t false s t' st s' H Hc)). Qed.

Lemma ret_canon_gen f t : forall hp s t' fl s',
  ret f hp t s = (t', RDone fl, s') ->
  canon_gen hp t ->
  canon_gen hp t' /\ (is_node t = true -> fl = false -> is_node t' = true).
Proof.
  intros hp s t' fl s' H Hc. destruct (ret_canon_gen_any f t hp s t' _ s' H Hc) as [A B].
  split; [exact A|]. intros Hn ->. apply B; [exact Hn | discriminate].
Qed.

Theorem ret_canon_below f t s t' fl s' :
  ret f true t s = (t', RDone fl, s') -> canon_below t ->
  canon_below t' /\ (is_node t = true -> fl = false -> is_node t' = true).
Proof. intros H. rewrite <- !canon_gen_true. exact (ret_canon_gen f t true s t' fl s' H). Qed.

Theorem ret_canonical f t s t' fl s' :
  ret f false t s = (t', RDone fl, s') -> canonical t -> canonical t'.
Proof. exact (ret_canonical_any f t s t' (RDone fl) s'). Qed.

Theorem empty_canonical : canonical (root empty).
Proof. cbn. split; exact I. Qed.

Theorem clear_canonical (m : pmap) : canonical (root (clear m)).
Proof. exact empty_canonical. Qed.

Theorem insert_canonical (m : pmap) q x : canonical (root m) -> canonical (root (fst (insert m q x))).
Proof.
  intros Hc. unfold Trie.insert. destruct (ins (root m) q x (al m)) as [[t' o] a'] eqn:I. cbn [fst root].
  eapply ins_canonical; eassumption.
Qed.

Theorem vacant_insert_canonical (m : pmap) q x : canonical (root m) -> canonical (root (vacant_insert m q x)).
Proof.
  intros Hc. unfold Trie.vacant_insert. destruct (vins (root m) q x (al m)) as [t' a'] eqn:I. cbn [root].
  eapply vins_canonical; eassumption.
Qed.

Theorem remove_canonical (m : pmap) q : canonical (root m) -> canonical (root (fst (remove m q))).
Proof.
  intros Hc. unfold Trie.remove. destruct (rem false (root m) q (al m)) as [[[t' fl] o] a'] eqn:R. cbn [fst root].
  eapply rem_canonical; eassumption.
Qed.

Theorem retain_canonical f (m : pmap) :
  snd (fst (retain f m)) = false -> canonical (root m) -> canonical (root (fst (fst (retain f m)))).
Proof.
  unfold Trie.retain. destruct (ret f false (root m) (al m, [])) as [[t' st] [a' lg]] eqn:R. cbn [fst snd root].
  intros Hp Hc. destruct st as [fl|]; [|discriminate]. eapply ret_canonical; eassumption.
Qed.

Theorem retain_canonical_any f (m : pmap) :
  canonical (root m) -> canonical (root (fst (fst (retain f m)))).
Proof.
  unfold Trie.retain. destruct (ret f false (root m) (al m, [])) as [[t' st] [a' lg]] eqn:R. cbn [fst snd root].
  intros Hc. eapply ret_canonical_any; eassumption.
Qed.

Lemma fold_insert_canonical (l : list (pfx * V)) : forall m : pmap,
  canonical (root m) ->
  canonical (root (fold_left (fun m e => fst (insert m (fst e) (snd e))) l m)).
Proof.
  induction l as [|a l IH]; intros m Hc; [exact Hc|]. cbn [fold_left]. apply IH. apply insert_canonical. exact Hc.
Qed.

Theorem from_list_canonical (l : list (pfx * V)) : canonical (root (from_list l)).
Proof. unfold Trie.from_list. apply fold_insert_canonical. exact empty_canonical. Qed.

(** two maps built by [from_list] that store the same key set have the same shape, whatever the
    order (and multiplicity) of the insertions.  The two [wf_root] hypotheses are the first
    conjunct of [Mutate.from_list_spec] (which needs [forall e, In e l -> ok (fst e)]). *)
Theorem insert_order_irrelevant (l1 l2 : list (pfx * V)) :
  wf_root (root (from_list l1)) -> wf_root (root (from_list l2)) ->
  (forall k, (exists e, In e (entries (root (from_list l1))) /\ key e = k) <->
             (exists e, In e (entries (root (from_list l2))) /\ key e = k)) ->
  shape_of (root (from_list l1)) = shape_of (root (from_list l2)).
Proof.
  intros W1 W2 HK. apply canonical_unique; try assumption; apply from_list_canonical.
Qed.

(** [remove] exactly reverts the [insert] of a key that was not stored.  The hypothesis
    [Hins] is the second conclusion of [Mutate.insert_spec] (for [m], [q], [x]); [Hrem_wf] and
    [Hrem] are the first and second conclusions of [Mutate.remove_spec] (for [m1], [q]); both
    need [ok q], and [remove_spec] needs [wf_root (root m1)], the first conclusion of
    [insert_spec]. *)
Theorem remove_reverts_insert (m : pmap) q x :
  let m1 := fst (insert m q x) in
  let m2 := fst (remove m1 q) in
  wf_root (root m) -> canonical (root m) ->
  (~ exists e, In e (entries (root m)) /\ key e = bits q) ->
  forall (Hins : forall e, In e (entries (root m1)) <->
                           e = (q, x) \/ (In e (entries (root m)) /\ key e <> bits q))
         (Hrem_wf : wf_root (root m2))
         (Hrem : forall e, In e (entries (root m2)) <-> In e (entries (root m1)) /\ key e <> bits q),
  shape_of (root m2) = shape_of (root m).
Proof.
  intros m1 m2 Wm Cm Hfresh Hins Hrem_wf Hrem.
  apply canonical_unique; try assumption.
  - subst m2. apply remove_canonical. subst m1. apply insert_canonical. exact Cm.
  - intros k. split.
    + intros [e [He Hk]]. apply Hrem in He. destruct He as [He Hne]. apply Hins in He.
      destruct He as [->|[He _]]; [exfalso; apply Hne; reflexivity|]. exists e. split; assumption.
    + intros [e [He Hk]]. exists e. split; [|exact Hk].
      assert (Hne : key e <> bits q).
      { intros E. apply Hfresh. exists e. split; assumption. }
      apply Hrem. split; [|exact Hne]. apply Hins. right. split; assumption.
Qed.

End CN.

Print Assumptions canon_unique.
Print Assumptions canonical_unique.
Print Assumptions ins_canon_below.
Print Assumptions ins_canonical.
Print Assumptions vins_canon_below.
Print Assumptions vins_canonical.
Print Assumptions rem_canon_below.
Print Assumptions rem_canonical.
Print Assumptions ret_canon_below.
Print Assumptions ret_canonical.
Print Assumptions ret_canon_below_any.
Print Assumptions ret_canonical_any.
Print Assumptions empty_canonical.
Print Assumptions clear_canonical.
Print Assumptions insert_canonical.
Print Assumptions vacant_insert_canonical.
Print Assumptions remove_canonical.
Print Assumptions retain_canonical.
Print Assumptions retain_canonical_any.
Print Assumptions from_list_canonical.
Print Assumptions insert_order_irrelevant.
Print Assumptions remove_reverts_insert.
