(** C10 — sub-tree selection and bulk removal act on exactly the covered entries.

    For every well-formed map (hence every reachable state, including shapes with value-less
    leftovers and freed slots) and every valid selector [q] — stored, branching, lying on an edge,
    absent, zero-length, full-length, with host bits: the statements only mention the key
    [kbits q] —
    - [children] / [children_mut] / [into_children] (the set's [children] is the key projection at
      [V = unit]) yield exactly the sub-list of the stored entries whose key is covered by [q]
      ([q] itself included), in lexicographic order;
    - [remove_children] removes exactly those entries and leaves every other entry in place with
      its value and stored prefix representation; a zero-length selector empties the map;
    - [retain] invokes its predicate exactly once per stored entry (the call log is a duplicate-free
      permutation of the entry list; the [k]-th invocation is made with invocation count [k]) and
      the result holds exactly the entries for which it returned [true].
    [retain]'s predicate is modelled as [f : nat -> pfx -> V -> option bool] (argument = number of
    earlier invocations, so the closure may be stateful in its invocation count; [None] = the
    closure panics).  [C10_retain_all_predicates] is for EVERY such [f], no hypothesis;
    [C10_retain_total] specialises it to closures that never panic, [C10_retain] to pure total
    ones (verdict = a function of the entry), [C10_retain_any_outcome] to verdicts independent of
    the count, panicking or not.
    Proofs: Lookup2.v, MutTrav.v, Mutate.v, Retain.v, IterExtra.v. *)
From Coq Require Import List NArith Sorted Permutation Lia Bool.
From PT Require Import Lookup Lookup2 MutTrav Mutate Retain Refine IterExtra Arena Arena2 Arena3 ArenaProps.
From PT.Properties Require Import Common.
Import ListNotations.
Local Open Scope nat_scope.

Section C10.
Variables (w : N) (fl : flavour) (V : Type).
Hypothesis Hw : (1 <= w)%N.
Notation drop := (Inst.drop_id V).
(** [e]'s key is covered by [q] (boolean, for [filter]): [is_prefix (kbits q) (ekey e)] *)
Notation covered_by := (IterExtra.covered_by pfx V (kbits w)).
Definition lex_order (e1 e2 : pfx * V) : Prop := lex_lt (ekey w V e1) (ekey w V e2).

Lemma C10_wfm_under (t : tree pfx V) : wfm w V t -> wfu w V [] t.
Proof. exact (wf_root_under pfx V _ _ t). Qed.

Lemma C10_covered_by_spec (q : pfx) (e : pfx * V) :
  covered_by q e = true <-> prefix_of (kbits w q) (ekey w V e).
Proof. unfold IterExtra.covered_by. apply is_prefix_spec. Qed.

(** ** children *)

(** [children] yields exactly the stored entries covered by [q], in the order of the full iteration *)
Theorem C10_children_is_filter (t : tree pfx V) (q : pfx) :
  wfm w V t -> okp w q ->
  map drop (t_children w fl V t q) = filter (covered_by q) (entries t).
Proof. exact (children_filter_root pfx V _ _ _ _ _ _ _ _ _ (laws w fl Hw) t q). Qed.

(** [children_mut] and [into_children] (separate copies of the loop) yield the same items, slots
    included *)
Theorem C10_children_mut (t : tree pfx V) (q : pfx) : t_children_mut w fl V t q = t_children w fl V t q.
Proof. exact (children_mut_eq pfx V _ _ _ _ t q). Qed.

Theorem C10_into_children (t : tree pfx V) (q : pfx) : t_into_children w fl V t q = t_children w fl V t q.
Proof. exact (into_children_eq pfx V _ _ _ _ t q). Qed.

(** spelled out: membership, [q] itself included, lexicographic order, each once *)
Theorem C10_children_members (t : tree pfx V) (q : pfx) (e : pfx * V) :
  wfm w V t -> okp w q ->
  (In e (map drop (t_children w fl V t q)) <-> In e (entries t) /\ prefix_of (kbits w q) (ekey w V e)).
Proof.
  intros Hwf Hq. rewrite C10_children_is_filter, filter_In, C10_covered_by_spec by assumption. reflexivity.
Qed.

Theorem C10_children_includes_self (t : tree pfx V) (q : pfx) (e : pfx * V) :
  wfm w V t -> okp w q -> In e (entries t) -> ekey w V e = kbits w q ->
  In e (map drop (t_children w fl V t q)).
Proof.
  intros Hwf Hq Hin E. apply C10_children_members; try assumption. split; [exact Hin|]. rewrite E. apply prefix_of_refl.
Qed.

Theorem C10_children_order (t : tree pfx V) (q : pfx) :
  wfm w V t -> okp w q ->
  StronglySorted lex_order (map drop (t_children w fl V t q)) /\ NoDup (map drop (t_children w fl V t q)).
Proof.
  intros Hwf Hq. rewrite C10_children_is_filter by assumption.
  pose proof (TrieWf.wf_root_sorted pfx V (kbits w) (okp w) t Hwf) as Hs.
  split; [exact (TrieWf.sorted_filter _ _ _ Hs)|].
  apply NoDup_filter. exact (sorted_nodup pfx V (kbits w) _ Hs).
Qed.

(** ** remove_children *)

(** the result is a well-formed map holding exactly the entries NOT covered by [q]: every other
    entry stays, with its value and its stored prefix (entries are (prefix, value) pairs), in the
    same relative order *)
Theorem C10_remove_children (m : pmap pfx V) (q : pfx) :
  wfm w V (root m) -> okp w q ->
  let m' := t_remove_children w fl V m q in
  wfm w V (root m') /\
  entries (root m') = filter (fun e => negb (covered_by q e)) (entries (root m)) /\
  (forall e, In e (entries (root m')) <-> In e (entries (root m)) /\ ~ prefix_of (kbits w q) (ekey w V e)).
Proof.
  intros Hwf Hq m'.
  destruct (remove_children_spec pfx V _ _ _ _ _ _ _ _ _ (laws w fl Hw) m q Hwf Hq) as [P1 P2].
  split; [exact P1|]. split; [|exact P2].
  exact (remove_children_refines pfx V _ _ _ _ _ _ _ _ _ (laws w fl Hw) m q Hwf Hq).
Qed.

(** "exactly those": the entries that disappear are the ones [children] lists for the same selector *)
Theorem C10_remove_children_removes_children (m : pmap pfx V) (q : pfx) (e : pfx * V) :
  wfm w V (root m) -> okp w q ->
  (In e (entries (root (t_remove_children w fl V m q))) <->
   In e (entries (root m)) /\ ~ In e (map drop (t_children w fl V (root m) q))).
Proof.
  intros Hwf Hq. destruct (C10_remove_children m q Hwf Hq) as [_ [_ P]]. rewrite (P e).
  rewrite C10_children_members by assumption. tauto.
Qed.

(** a zero-length selector empties the map (it becomes the empty map: fresh arena, counter 0) *)
Theorem C10_remove_children_zero (m : pmap pfx V) (q : pfx) :
  plen q = 0%N ->
  t_remove_children w fl V m q = t_empty V /\ entries (root (t_remove_children w fl V m q)) = [].
Proof.
  intros E. unfold t_remove_children, remove_children. rewrite E. cbn [N.eqb]. split; reflexivity.
Qed.

(** ** retain *)

(** the verdict of a pure predicate *)
Notation verdict := (Refine.verdict pfx V).

(** every pure, total predicate: the closure never panics; it is invoked exactly once per stored
    entry — the call log [calls] (in call order) is a duplicate-free permutation of the entry
    list, and its [k]-th element was passed to the [k]-th invocation — and the resulting map is
    well-formed and holds exactly the entries for which the predicate returned [true], unchanged *)
Theorem C10_retain (f : nat -> pfx -> V -> option bool) (m m' : pmap pfx V) (panicked : bool)
        (calls : list (pfx * V)) :
  wfm w V (root m) ->
  (forall n p x, f n p x = f 0 p x /\ f n p x <> None) ->
  t_retain V f m = (m', panicked, calls) ->
  panicked = false /\ wfm w V (root m') /\
  Permutation calls (entries (root m)) /\ NoDup calls /\
  (forall k e, nth_error calls k = Some e -> f k (fst e) (snd e) = Some (verdict f (fst e) (snd e))) /\
  entries (root m') = filter (fun e => verdict f (fst e) (snd e)) (entries (root m)) /\
  (forall e, In e (entries (root m')) <-> In e (entries (root m)) /\ f 0 (fst e) (snd e) = Some true).
Proof.
  intros Hwf Hpure E.
  assert (Hf : forall n p x c, f n p x = Some c -> c = verdict f p x).
  { intros n p x c H. unfold Refine.verdict. rewrite <- (proj1 (Hpure n p x)), H. destruct c; reflexivity. }
  destruct (retain_spec pfx V (kbits w) (okp w) f (verdict f) Hf m m' panicked calls Hwf E)
    as [W [Pans [_ [Pnd [_ [Pdone _]]]]]].
  pose proof (retain_no_panic pfx V (kbits w) (okp w) f m m' panicked calls Hwf
                (fun n p x => proj2 (Hpure n p x)) E) as Hp.
  destruct (Pdone Hp) as [A [B C]].
  split; [exact Hp|]. split; [exact W|]. split; [exact B|]. split; [exact Pnd|].
  split; [exact (answered_nth pfx V f (verdict f) 0 calls Pans)|]. split; [exact A|].
  intros e. rewrite (C e). unfold Refine.verdict.
  destruct (f 0 (fst e) (snd e)) as [[|]|]; split; intros [H1 H2]; split; try assumption; try reflexivity; discriminate.
Qed.

(** every predicate whose verdict does not depend on the invocation count ([g] is the verdict),
    whether or not it panics at some invocation: each invocation that returned is logged once, on a
    distinct stored entry; exactly the logged entries that were rejected are gone and all other
    entries are unchanged; if no invocation panicked the log is a permutation of the entry list and
    the result is the [filter]; if one panicked, it panicked on a stored entry not yet logged *)
Theorem C10_retain_any_outcome (f : nat -> pfx -> V -> option bool) (g : pfx -> V -> bool)
        (m m' : pmap pfx V) (panicked : bool) (calls : list (pfx * V)) :
  wfm w V (root m) ->
  (forall n p x c, f n p x = Some c -> c = g p x) ->
  t_retain V f m = (m', panicked, calls) ->
  wfm w V (root m') /\
  (forall k e, nth_error calls k = Some e -> f k (fst e) (snd e) = Some (g (fst e) (snd e))) /\
  incl calls (entries (root m)) /\ NoDup calls /\
  (forall e, In e (entries (root m')) <->
             In e (entries (root m)) /\ ~ (In e calls /\ g (fst e) (snd e) = false)) /\
  (panicked = false ->
     entries (root m') = filter (fun e => g (fst e) (snd e)) (entries (root m)) /\
     Permutation calls (entries (root m))) /\
  (panicked = true ->
     exists e, In e (entries (root m)) /\ ~ In e calls /\ f (length calls) (fst e) (snd e) = None).
Proof.
  intros Hwf Hf E.
  destruct (retain_spec pfx V (kbits w) (okp w) f g Hf m m' panicked calls Hwf E)
    as [W [Pans [Pincl [Pnd [Pkept [Pdone Ppan]]]]]].
  split; [exact W|]. split; [exact (answered_nth pfx V f g 0 calls Pans)|].
  split; [exact Pincl|]. split; [exact Pnd|]. split; [exact Pkept|]. split; [|exact Ppan].
  intros Hp. destruct (Pdone Hp) as [A [B _]]. split; [exact A | exact B].
Qed.

(** EVERY predicate — verdicts may depend on the invocation count, any invocation may panic.
    There is a verdict [g] per entry such that: the [k]-th logged invocation was made with count [k]
    on a distinct stored entry and returned [g] of it; exactly the logged entries that were
    rejected are gone, every other entry is unchanged; if no invocation panicked, every stored
    entry was passed to exactly one invocation (the log is a duplicate-free permutation of the
    entry list) and the result is the [filter] by the verdicts; if one panicked, it did so on a
    stored entry not yet logged, at count [length calls]. *)
Theorem C10_retain_all_predicates (f : nat -> pfx -> V -> option bool)
        (m m' : pmap pfx V) (panicked : bool) (calls : list (pfx * V)) :
  wfm w V (root m) ->
  t_retain V f m = (m', panicked, calls) ->
  exists g : pfx -> V -> bool,
    (forall k e, nth_error calls k = Some e -> f k (fst e) (snd e) = Some (g (fst e) (snd e))) /\
    wfm w V (root m') /\ incl calls (entries (root m)) /\ NoDup calls /\
    (forall e, In e (entries (root m')) <->
               In e (entries (root m)) /\ ~ (In e calls /\ g (fst e) (snd e) = false)) /\
    (panicked = false ->
       entries (root m') = filter (fun e => g (fst e) (snd e)) (entries (root m)) /\
       Permutation calls (entries (root m))) /\
    (panicked = true ->
       exists e, In e (entries (root m)) /\ ~ In e calls /\ f (length calls) (fst e) (snd e) = None).
Proof. exact (retain_any_predicate pfx V (kbits w) (okp w) f m m' panicked calls). Qed.

(** every predicate that never panics, stateful or not: exactly one invocation per stored entry,
    and an entry survives iff THE invocation made on it returned [true] *)
Theorem C10_retain_total (f : nat -> pfx -> V -> option bool)
        (m m' : pmap pfx V) (panicked : bool) (calls : list (pfx * V)) :
  wfm w V (root m) ->
  (forall n p x, f n p x <> None) ->
  t_retain V f m = (m', panicked, calls) ->
  panicked = false /\ wfm w V (root m') /\
  Permutation calls (entries (root m)) /\ NoDup calls /\
  (forall e, In e (entries (root m')) <->
             exists k, nth_error calls k = Some e /\ f k (fst e) (snd e) = Some true).
Proof. exact (retain_total pfx V (kbits w) (okp w) f m m' panicked calls). Qed.

(** whatever the closure does (any [f], no hypothesis at all), the map stays well-formed *)
Theorem C10_retain_wf (f : nat -> pfx -> V -> option bool) (m m' : pmap pfx V) (panicked : bool)
        (calls : list (pfx * V)) :
  wfm w V (root m) -> t_retain V f m = (m', panicked, calls) -> wfm w V (root m').
Proof. exact (retain_wf pfx V (kbits w) (okp w) f m m' panicked calls). Qed.

(** ... all of it in every state reachable by a history of public mutating calls *)
Theorem C10_reachable (ops : list (hop V)) (q : pfx) (f : nat -> pfx -> V -> option bool) :
  Forall (hop_ok w V) ops -> okp w q ->
  (forall n p x, f n p x = f 0 p x /\ f n p x <> None) ->
  let m := hrun w fl V ops in
  map drop (t_children w fl V (root m) q) = filter (covered_by q) (entries (root m)) /\
  entries (root (t_remove_children w fl V m q)) = filter (fun e => negb (covered_by q e)) (entries (root m)) /\
  entries (root (fst (fst (t_retain V f m)))) = filter (fun e => verdict f (fst e) (snd e)) (entries (root m)) /\
  Permutation (snd (t_retain V f m)) (entries (root m)).
Proof.
  intros Hops Hq Hpure m. pose proof (reachable_wfm w fl V Hw ops Hops) as Hwf. fold m in Hwf.
  split; [apply C10_children_is_filter; assumption|].
  split; [exact (proj1 (proj2 (C10_remove_children m q Hwf Hq)))|].
  destruct (t_retain V f m) as [[m' pn] calls] eqn:E. cbn [fst snd].
  destruct (C10_retain f m m' pn calls Hwf Hpure E) as [_ [_ [P [_ [_ [A _]]]]]]. split; [exact A | exact P].
Qed.

(** * At the arena level: [children], [remove_children] and [retain] of the transcribed code (Arena2.v,
      Arena3.v) on every arena [am] reached from the empty arena by arena-level mutator calls with
      valid prefixes ([areach am]), against the arena's own iteration [es]. *)
Theorem C10_arena_children (am : amap pfx V) (es : list (pfx * V)) (q : pfx) :
  areach pfx V (peq w) (contains w fl) (is_bit_set w) plen (lcp w fl) pzero (okp w) am -> okp w q -> a_entries pfx V am = Ok es ->
  Arena3.a_children pfx V (peq w) (contains w fl) (is_bit_set w) plen am q = Ok (filter (IterExtra.covered_by pfx V (kbits w) q) es).
Proof. exact (arena_C10_children pfx V _ _ _ _ _ _ _ _ _ (laws w fl Hw) am es q). Qed.

Theorem C10_arena_remove_children (am : amap pfx V) (es : list (pfx * V)) (q : pfx) :
  areach pfx V (peq w) (contains w fl) (is_bit_set w) plen (lcp w fl) pzero (okp w) am -> okp w q -> a_entries pfx V am = Ok es ->
  exists am', Arena2.a_remove_children pfx V (peq w) (contains w fl) (is_bit_set w) plen (lcp w fl) pzero am q = Ok am' /\ areach pfx V (peq w) (contains w fl) (is_bit_set w) plen (lcp w fl) pzero (okp w) am' /\
    a_entries pfx V am' = Ok (filter (fun e => negb (is_prefix (kbits w q) (TrieWf.key pfx V (kbits w) e))) es).
Proof. exact (arena_C10_remove_children pfx V _ _ _ _ _ _ _ _ _ (laws w fl Hw) am es q). Qed.

Theorem C10_arena_retain (am : amap pfx V) (es : list (pfx * V))
        (f : nat -> pfx -> V -> option bool) (g : pfx -> V -> bool) :
  areach pfx V (peq w) (contains w fl) (is_bit_set w) plen (lcp w fl) pzero (okp w) am -> a_entries pfx V am = Ok es -> (forall n p x, f n p x = Some (g p x)) ->
  exists am' calls, Arena2.a_retain pfx V f am = Ok (am', false, calls) /\ areach pfx V (peq w) (contains w fl) (is_bit_set w) plen (lcp w fl) pzero (okp w) am' /\
    a_entries pfx V am' = Ok (filter (fun e => g (fst e) (snd e)) es) /\ Permutation.Permutation calls es.
Proof. exact (arena_C10_retain pfx V _ _ _ _ _ _ _ _ _ (laws w fl Hw) am es f g). Qed.

End C10.

(** non-vacuity: a reachable state with a value-less leftover (128/1 after [remove_keep_tree]),
    a value-less branching node (0/1) and host bits (71/2).  The selector 128/1 is that leftover;
    160/3 lies on no node (edge/absent); 0/1 is the branching node.  [retain] with "value is
    even" calls the predicate once per entry (post-order) and keeps the even ones. *)
Example C10_example :
  let ins m p x := fst (t_insert 8 Generic nat m p x) in
  let m1 := ins (ins (ins (ins (ins (ins (t_empty nat) (mkpfx 0xc0 2) 2) (mkpfx 0x80 1) 1)
                  (mkpfx 0x47 2) 3) (mkpfx 0 0) 0) (mkpfx 0xe0 3) 4) (mkpfx 0x20 3) 5 in
  let m := fst (t_remove_keep_tree 8 Generic nat m1 (mkpfx 0x80 1)) in
  let f := fun (_ : nat) (_ : pfx) (x : nat) => Some (Nat.even x) in
  map (Inst.drop_id nat) (t_children 8 Generic nat (root m) (mkpfx 0x80 1))
    = [(mkpfx 0xc0 2, 2); (mkpfx 0xe0 3, 4)] /\
  map (Inst.drop_id nat) (t_children_mut 8 Generic nat (root m) (mkpfx 0x1f 1))
    = [(mkpfx 0x20 3, 5); (mkpfx 0x47 2, 3)] /\
  t_into_children 8 Generic nat (root m) (mkpfx 0xa0 3) = [] /\
  entries (root (t_remove_children 8 Generic nat m (mkpfx 0x80 1)))
    = [(mkpfx 0 0, 0); (mkpfx 0x20 3, 5); (mkpfx 0x47 2, 3)] /\
  entries (root (t_remove_children 8 Generic nat m (mkpfx 0xff 0))) = [] /\
  entries (root (fst (fst (t_retain nat f m)))) = [(mkpfx 0 0, 0); (mkpfx 0xc0 2, 2); (mkpfx 0xe0 3, 4)] /\
  snd (t_retain nat f m)
    = [(mkpfx 0x20 3, 5); (mkpfx 0x47 2, 3); (mkpfx 0xe0 3, 4); (mkpfx 0xc0 2, 2); (mkpfx 0 0, 0)] /\
  snd (fst (t_retain nat f m)) = false /\
  (* a stateful closure: rejects exactly its 2nd and 3rd invocation; panics at the 5th *)
  entries (root (fst (fst (t_retain nat (fun n _ _ => Some (negb (Nat.eqb n 1 || Nat.eqb n 2))) m))))
    = [(mkpfx 0 0, 0); (mkpfx 0x20 3, 5); (mkpfx 0xc0 2, 2)] /\
  snd (fst (t_retain nat (fun n _ x => if Nat.eqb n 4 then None else Some (Nat.even x)) m)) = true /\
  entries (root (fst (fst (t_retain nat (fun n _ x => if Nat.eqb n 4 then None else Some (Nat.even x)) m))))
    = [(mkpfx 0 0, 0); (mkpfx 0xc0 2, 2); (mkpfx 0xe0 3, 4)].
Proof. vm_compute. repeat split; reflexivity. Qed.

Print Assumptions C10_wfm_under.
Print Assumptions C10_covered_by_spec.
Print Assumptions C10_children_is_filter.
Print Assumptions C10_children_mut.
Print Assumptions C10_into_children.
Print Assumptions C10_children_members.
Print Assumptions C10_children_includes_self.
Print Assumptions C10_children_order.
Print Assumptions C10_remove_children.
Print Assumptions C10_remove_children_removes_children.
Print Assumptions C10_remove_children_zero.
Print Assumptions C10_retain.
Print Assumptions C10_retain_any_outcome.
Print Assumptions C10_retain_all_predicates.
Print Assumptions C10_retain_total.
Print Assumptions C10_retain_wf.
Print Assumptions C10_reachable.
Print Assumptions C10_arena_children.
Print Assumptions C10_arena_remove_children.
Print Assumptions C10_arena_retain.
