(** C02 — longest-prefix match returns the most specific covering entry.
    Proofs: Lookup.v, Lookup2.v; shape independence through IterExtra.v ([lookups_by_filter]). *)
From Coq Require Import List NArith.
From PT Require Import Lookup Arena Arena3 ArenaProps.
From PT.Properties Require Import Common.
Import ListNotations.

Section C02.
Variables (w : N) (fl : flavour) (V : Type).
Hypothesis Hw : (1 <= w)%N.
Notation is_lpm := (is_lpm pfx V (kbits w)).
Notation no_cover := (no_cover pfx V (kbits w)).

(** For every well-formed map state — every reachable state is one ([Common.reachable_wfm]) —
    and every valid query [q]: [get_lpm] returns a stored entry that covers [q] and whose prefix
    length is the greatest among all stored entries covering [q]; it returns [None] exactly when no
    stored entry covers [q].  The statement mentions the entry list only, never the shape. *)
Theorem C02_get_lpm (t : tree pfx V) (q : pfx) :
  wfm w V t -> okp w q ->
  match t_get_lpm w fl V t q with
  | Some e => is_lpm (entries t) q e
  | None => no_cover (entries t) q
  end.
Proof. exact (Lookup2.get_lpm_spec_root pfx V _ _ _ _ _ _ _ _ _ (laws w fl Hw) t q). Qed.

(** ... in particular in every state reachable by a history of public mutating calls *)
Theorem C02_reachable (ops : list (hop V)) (q : pfx) :
  Forall (hop_ok w V) ops -> okp w q ->
  match t_get_lpm w fl V (root (hrun w fl V ops)) q with
  | Some e => is_lpm (entries (root (hrun w fl V ops))) q e
  | None => no_cover (entries (root (hrun w fl V ops))) q
  end.
Proof. intros Hops Hq. apply C02_get_lpm; [apply (reachable_wfm w fl V Hw); exact Hops | exact Hq]. Qed.

(** the answer is determined by the stored entries alone: two well-formed trees with the same
    entries give the same answer, whatever shapes earlier removals left behind *)
Theorem C02_shape_independent (t1 t2 : tree pfx V) (q : pfx) :
  wfm w V t1 -> wfm w V t2 -> okp w q -> entries t1 = entries t2 ->
  t_get_lpm w fl V t1 q = t_get_lpm w fl V t2 q.
Proof.
  intros H1 H2 Hq E. unfold t_get_lpm.
  destruct (IterExtra.lookups_by_filter pfx V _ _ _ _ _ _ _ _ _ (laws w fl Hw) t1 q H1 Hq) as (_ & _ & ->).
  destruct (IterExtra.lookups_by_filter pfx V _ _ _ _ _ _ _ _ _ (laws w fl Hw) t2 q H2 Hq) as (_ & _ & ->).
  rewrite E. reflexivity.
Qed.

(** [get_lpm_prefix] and [get_lpm_mut] (separate loops in the code) designate the same entry;
    the set's [get_lpm] is [get_lpm] of the underlying map projected to the prefix *)
Theorem C02_get_lpm_prefix (t : tree pfx V) (q : pfx) :
  t_get_lpm_prefix w fl V t q = option_map fst (t_get_lpm w fl V t q).
Proof. exact (get_lpm_prefix_eq pfx V _ _ _ _ t q). Qed.

Theorem C02_get_lpm_mut (t : tree pfx V) (q : pfx) :
  option_map (drop_slot pfx V) (t_get_lpm_mut w fl V t q) = t_get_lpm w fl V t q.
Proof. exact (get_lpm_mut_eq pfx V _ _ _ _ t q). Qed.

(** * At the arena level: [get_lpm] / [get_lpm_prefix] / [get_lpm_mut] of the transcribed code (Arena.v,
      Arena3.v) on every arena [am] reached from the empty arena by arena-level mutator calls with valid
      prefixes ([areach am]), against the arena's own iteration [es]. *)
Theorem C02_arena (am : amap pfx V) (es : list (pfx * V)) (q : pfx) :
  areach pfx V (peq w) (contains w fl) (is_bit_set w) plen (lcp w fl) pzero (okp w) am -> okp w q -> a_entries pfx V am = Ok es ->
  exists o, Arena.a_get_lpm pfx V (peq w) (contains w fl) (is_bit_set w) plen am q = Ok o /\
    match o with Some e => is_lpm es q e | None => no_cover es q end /\
    Arena3.a_get_lpm_prefix pfx V (peq w) (contains w fl) (is_bit_set w) plen am q = Ok (option_map fst o) /\
    exists om, Arena3.a_get_lpm_mut pfx V (peq w) (contains w fl) (is_bit_set w) plen am q = Ok om /\ option_map (drop_slot pfx V) om = o.
Proof. exact (arena_C02_get_lpm pfx V _ _ _ _ _ _ _ _ _ (laws w fl Hw) am es q). Qed.

End C02.

(** non-vacuity: a well-formed tree with a value-less leftover on the query path *)
Example C02_example :
  let m0 := fst (t_insert 8 Generic nat (t_empty nat) (mkpfx 0x80 1) 1%nat) in
  let m1 := fst (t_insert 8 Generic nat m0 (mkpfx 0xc0 2) 2%nat) in
  let m := fst (t_remove_keep_tree 8 Generic nat m1 (mkpfx 0xc0 2)) in
  t_get_lpm 8 Generic nat (root m) (mkpfx 0xc5 8) = Some (mkpfx 0x80 1, 1%nat).
Proof. vm_compute. reflexivity. Qed.

Print Assumptions C02_get_lpm.
Print Assumptions C02_reachable.
Print Assumptions C02_shape_independent.
Print Assumptions C02_get_lpm_prefix.
Print Assumptions C02_get_lpm_mut.
Print Assumptions C02_arena.
