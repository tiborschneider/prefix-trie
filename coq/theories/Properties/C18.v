(** C18 — Keys are identified by network part; stored representation is last inserted.

    The key of a prefix is [kbits w p], its [len] leading bits; two representations of one key
    differ in host bits only.  For every width [w >= 1], flavour and value type, on every
    well-formed map (every state reachable by the complete mutator alphabet is one):

      - two representations of one key are interchangeable in every exact-match observer, in
        longest-prefix match, and in every key-addressed call of the alphabet: same result, same
        resulting contents — except that an inserting call stores the representation it was given
        ([C18_interchangeable], [C18_lpm_key_only]);
      - a key is never stored twice ([C18_one_entry_per_key], [C18_reachable_one_entry_per_key]);
      - [insert], [Entry::insert] (= [OccupiedEntry::insert] on an occupied, [VacantEntry::insert]
        on a vacant entry) and the vacant insertions of [or_insert*] store the representation
        passed: afterwards every representation of the key finds that one; [or_insert*] on an
        occupied entry keeps the resident one ([C18_inserting_calls_store_their_prefix]);
      - nothing else changes a stored representation: over the COMPLETE alphabet (value-only
        accesses, writes through references and views, removals, retain, collect, operations on
        other keys) an entry that stays keeps its representation ([C18_repr_stable]); every
        representation stored after a call was stored before, or was passed to this inserting call,
        or is the existing prefix of the value-less node that this [TrieViewMut::set] gave a value
        ([C18_repr_origin]); over whole histories: every stored representation was passed by an
        inserting call of the history or is such a node prefix ([C18_repr_provenance]);
      - lookups, [Entry::key] and the iterators report the stored representation, never the
        query's ([C18_lookup_reports_stored], [C18_entry_key_reports_stored], [C18_iter_reports_stored]);
      - set operations report a stored representation of one of the operands
        ([C18_union_reports_stored], [C18_intersection_reports_stored]; full statements: C05 ff.).

      - two representations of one key are interchangeable as SELECTION and VIEW keys as well:
        [get_lpm_prefix]/[get_lpm_mut], [get_spm]/[cover] (every state of the lazy iterator),
        [children*], [remove]/[remove_keep_tree]/[remove_children]/value updates (equality of the
        WHOLE map, allocator included), [view_at]/[find]/[find_exact]/[find_lpm] and arbitrary
        navigations of read-only and mutable views ([C18_lpm_variants_key_only],
        [C18_spm_cover_key_only], [C18_children_key_only], [C18_removal_key_only],
        [C18_views_key_only], [C18_view_navigation_key_only], [C18_view_mut_key_only],
        [C18_view_mut_navigation_key_only]; proofs in KeyCongr.v).  A virtual view stores the query
        as passed, so two views obtained with different representations agree on everything
        except the host bits of [prefix()] ([C18_view_at_literal_refuted] shows that this
        exception is real — the documented behaviour, cf. C11). *)
From Coq Require Import List NArith Bool Sorted.
From PT Require Import Lookup Lookup2 UnionThm InterDiffThm Refine Refine2.
From PT.Properties Require Import Common.
Import ListNotations.

#[local] Arguments SetOps.ILeft {pfx L R}.
#[local] Arguments SetOps.IRight {pfx L R}.
#[local] Arguments SetOps.IBoth {pfx L R}.

Section C18.
Variables (w : N) (fl : flavour) (V : Type).
Hypothesis Hw : (1 <= w)%N.

Notation step := (History.step pfx V (peq w) (contains w fl) (is_bit_set w) plen (lcp w fl) pzero).
Notation c_out := (Refine2.c_out_full pfx V (peq w) (contains w fl) (is_bit_set w) plen (lcp w fl)).
Notation adm := (Refine2.admissible pfx V (okp w)).
Notation L := (laws w fl Hw).

(** [same_effect m o o']: the calls [o] and [o'] made in state [m] leave the same contents and
    return the same:
      [entries (root (step m o)) = entries (root (step m o')) /\ c_out m o = c_out m o'] *)
Notation same_effect :=
  (Refine2.same_effect pfx V (peq w) (contains w fl) (is_bit_set w) plen (lcp w fl) pzero).
(** [same_upto_repr m o o' q q' x]: the inserting calls [o] (with [q]) and [o'] (with [q']) return
    the same, and EITHER both leave the contents unchanged (or_insert on an occupied entry) OR the
    resulting contents are [A1 ++ (q, x) :: A2] and [A1 ++ (q', x) :: A2] for the same [A1], [A2],
    which consist of entries of [m] under other keys *)
Notation same_upto_repr :=
  (Refine2.same_upto_repr pfx V (peq w) (contains w fl) (is_bit_set w) plen (lcp w fl) pzero (kbits w)).

Example same_effect_unfold m o o' :
  same_effect m o o' =
  (entries (root (step m o)) = entries (root (step m o')) /\ c_out m o = c_out m o').
Proof. reflexivity. Qed.

Example same_upto_repr_unfold m o o' q q' x :
  same_upto_repr m o o' q q' x =
  (c_out m o = c_out m o' /\
   ((entries (root (step m o)) = entries (root m) /\ entries (root (step m o')) = entries (root m)) \/
    exists A1 A2,
      entries (root (step m o)) = A1 ++ (q, x) :: A2 /\
      entries (root (step m o')) = A1 ++ (q', x) :: A2 /\
      forall e, In e A1 \/ In e A2 -> In e (entries (root m)) /\ ekey w V e <> kbits w q)).
Proof. reflexivity. Qed.

(** INTERCHANGEABLE.  Two representations [q], [q'] of one key give the same answer in [get]
    (= [get_mut]'s target), [get_key_value], [contains_key], [Entry::get]; the same effect and the
    same return value in [remove], [remove_keep_tree], [OccupiedEntry::remove], [remove_children],
    [get_mut]/[and_modify] writes; and in [insert], [Entry::insert], [or_insert*] the same return
    value and the same contents up to the representation stored for the inserted entry. *)
Theorem C18_interchangeable (m : pmap pfx V) (q q' : pfx) :
  wfm w V (root m) -> okp w q -> okp w q' -> kbits w q = kbits w q' ->
  (t_get w fl V (root m) q = t_get w fl V (root m) q' /\
   t_get_key_value w fl V (root m) q = t_get_key_value w fl V (root m) q' /\
   t_contains_key w fl V (root m) q = t_contains_key w fl V (root m) q' /\
   t_h_get w fl V m (t_entry w fl V m q) = t_h_get w fl V m (t_entry w fl V m q')) /\
  (same_effect m (ORemove pfx V q) (ORemove pfx V q') /\
   same_effect m (ORemoveKeepTree pfx V q) (ORemoveKeepTree pfx V q') /\
   same_effect m (OOccRemove pfx V q) (OOccRemove pfx V q') /\
   same_effect m (ORemoveChildren pfx V q) (ORemoveChildren pfx V q') /\
   forall g, same_effect m (OUpdate pfx V q g) (OUpdate pfx V q' g)) /\
  (forall x,
   same_upto_repr m (OInsert pfx V q x) (OInsert pfx V q' x) q q' x /\
   same_upto_repr m (OEntryInsert pfx V q x) (OEntryInsert pfx V q' x) q q' x /\
   same_upto_repr m (OOrInsert pfx V q x) (OOrInsert pfx V q' x) q q' x).
Proof. exact (Refine2.step_key_only pfx V _ _ _ _ _ _ _ _ _ L m q q'). Qed.

(** ... and as selection key of the longest-prefix match *)
Theorem C18_lpm_key_only (t : tree pfx V) (q q' : pfx) :
  wfm w V t -> okp w q -> okp w q' -> kbits w q = kbits w q' ->
  t_get_lpm w fl V t q = t_get_lpm w fl V t q'.
Proof.
  intros Hwf Hq Hq' E.
  pose proof (get_lpm_spec_root pfx V _ _ _ _ _ _ _ _ _ L t q Hwf Hq) as A.
  unfold is_lpm, no_cover in A. rewrite E in A.
  exact (lpm_answer_unique pfx V (kbits w) (okp w) [] t q' _ _ (wf_root_under pfx V (kbits w) (okp w) t Hwf) A
           (get_lpm_spec_root pfx V _ _ _ _ _ _ _ _ _ L t q' Hwf Hq')).
Qed.

(** ONE ENTRY PER KEY.  Two representations of one key can never be stored as two entries: the
    keys of the entry list are pairwise distinct, i.e. two entries with the same key are the same
    entry — in every well-formed map, hence after every history over the complete alphabet. *)
Theorem C18_one_entry_per_key (t : tree pfx V) :
  wfm w V t ->
  NoDup (map (ekey w V) (entries t)) /\
  forall e1 e2, In e1 (entries t) -> In e2 (entries t) -> ekey w V e1 = ekey w V e2 -> e1 = e2.
Proof.
  intros Hr. split; [exact (Refine2.wf_keys_NoDup pfx V (kbits w) (okp w) t Hr)|].
  intros e1 e2. apply (TrieWf.sorted_key_inj pfx V (kbits w)).
  exact (TrieWf.wf_root_sorted pfx V (kbits w) (okp w) t Hr).
Qed.

Theorem C18_reachable_one_entry_per_key (ops : list (hop V)) :
  Forall (hop_ok w V) ops -> NoDup (map (ekey w V) (entries (root (hrun w fl V ops)))).
Proof. intros H. apply C18_one_entry_per_key. apply (reachable_wfm w fl V Hw). exact H. Qed.

(** THE INSERTING CALLS STORE THE REPRESENTATION PASSED.  After [insert q x] and after
    [entry(q).insert(x)] (occupied or vacant), looking up ANY representation [q'] of the key
    returns the pair [(q, x)] — the representation passed to the call, not the earlier one and not
    the query's.  After [entry(q).or_insert*(x)] the lookup returns the resident pair if the entry
    was occupied (the stored representation is NOT replaced), and [(q, x)] if it was vacant. *)
Theorem C18_inserting_calls_store_their_prefix (m : pmap pfx V) (q q' : pfx) (x : V) :
  wfm w V (root m) -> okp w q -> okp w q' -> kbits w q' = kbits w q ->
  t_get_key_value w fl V (root (step m (OInsert pfx V q x))) q' = Some (q, x) /\
  t_get_key_value w fl V (root (step m (OEntryInsert pfx V q x))) q' = Some (q, x) /\
  t_get_key_value w fl V (root (step m (OOrInsert pfx V q x))) q'
  = match t_get_key_value w fl V (root m) q' with Some e => Some e | None => Some (q, x) end.
Proof. exact (Refine2.insert_stores_repr_full pfx V _ _ _ _ _ _ _ _ _ L m q q' x). Qed.

(** NOTHING ELSE CHANGES IT.  Let [o] be ANY call of the complete alphabet.  If the key of an entry
    [(p0, v0)] of the map is still stored after [o], as [(p, v)], then [p] IS [p0] — unless [o] is
    [insert p v] or [entry(p).insert(v)] for that very key, in which case the representation passed
    is stored.  (So value-only accesses — get_mut, and_modify, writes through the references of
    iterators, lookups and views, [TrieViewMut::set] on a node that holds a value —, [or_insert*],
    removals and re-threading of other entries, [retain], [collect] never change it.) *)
Theorem C18_repr_stable (m : pmap pfx V) (o : hop V) (p0 : pfx) (v0 : V) (p : pfx) (v : V) :
  wfm w V (root m) -> adm o ->
  In (p0, v0) (entries (root m)) -> In (p, v) (entries (root (step m o))) -> kbits w p = kbits w p0 ->
  p = p0 \/ o = OInsert pfx V p v \/ o = OEntryInsert pfx V p v.
Proof. exact (Refine2.step_repr_stable pfx V _ _ _ _ _ _ _ _ _ L m o p0 v0 p v). Qed.

(** WHERE A STORED REPRESENTATION COMES FROM (one call).  Every pair [(p, v)] stored after a call
    was stored under the very same representation [p] before the call, or [p] was passed to this
    inserting call ([insert], [Entry::insert], a vacant [or_insert*]), or — the only prefix the user
    did not pass — [p] is the existing prefix of the value-less node to which this
    [TrieViewMut::set] gave the value [v]. *)
Theorem C18_repr_origin (m : pmap pfx V) (o : hop V) (p : pfx) (v : V) :
  wfm w V (root m) -> adm o -> In (p, v) (entries (root (step m o))) ->
  (exists v0, In (p, v0) (entries (root m))) \/
  (o = OInsert pfx V p v \/ o = OEntryInsert pfx V p v \/
   (o = OOrInsert pfx V p v /\ t_get w fl V (root m) p = None)) \/
  (exists pa i l r, o = OViewSet pfx V pa v /\ subtree (root m) pa = Node i p None l r).
Proof. exact (Refine2.step_repr_origin pfx V _ _ _ _ _ _ _ _ _ L m o p v). Qed.

(** ... and over whole histories: a representation stored after a history was passed by one of its
    inserting calls, or is the prefix of a node that was value-less when a [TrieViewMut::set] of the
    history gave it a value. *)
Theorem C18_repr_provenance (ops : list (hop V)) (p : pfx) (v : V) :
  Forall adm ops -> In (p, v) (entries (root (hrun w fl V ops))) ->
  (exists x, In (OInsert pfx V p x) ops \/ In (OEntryInsert pfx V p x) ops \/ In (OOrInsert pfx V p x) ops) \/
  exists ops1 pa x ops2 i l r,
    ops = ops1 ++ OViewSet pfx V pa x :: ops2 /\ subtree (root (hrun w fl V ops1)) pa = Node i p None l r.
Proof. exact (Refine2.repr_provenance pfx V _ _ _ _ _ _ _ _ _ L ops p v). Qed.

(** [TrieViewMut::set] keeps the node's existing prefix, as documented: at a node holding prefix
    [p], [set x] turns the entry list [P ++ own ++ Q] ([own] = the node's entry, if any) into
    [P ++ (p, x) :: Q] *)
Theorem C18_view_set_keeps_prefix (m : pmap pfx V) (pa : path) (x : V) i p v l r :
  wfm w V (root m) -> subtree (root m) pa = Node i p v l r ->
  exists P Q, entries (root m) = P ++ Refine2.own pfx V p v ++ Q /\
              entries (root (step m (OViewSet pfx V pa x))) = P ++ (p, x) :: Q.
Proof.
  intros Hr Hs.
  exact (proj2 (proj2 (proj2 (Refine2.view_set_step pfx V (peq w) (contains w fl) (is_bit_set w) plen (lcp w fl) pzero
                                 (kbits w) (okp w) m pa x i p v l r Hr Hs)))).
Qed.

(** LOOKUPS REPORT THE STORED REPRESENTATION.  [get_key_value q] returns [(p, x)] exactly when
    [(p, x)] is the stored entry with the key of [q]: the prefix returned is the stored one
    (an element of the entry list), whatever the host bits of the query. *)
Theorem C18_lookup_reports_stored (m : pmap pfx V) (q p : pfx) (x : V) :
  wfm w V (root m) -> okp w q ->
  (t_get_key_value w fl V (root m) q = Some (p, x) <-> In (p, x) (entries (root m)) /\ kbits w p = kbits w q).
Proof. exact (Lookup.get_key_value_spec_root pfx V _ _ _ _ _ _ _ _ _ L (root m) q p x). Qed.

(** [Entry::key] of [entry(q)]: the stored prefix for an occupied entry, [q] itself for a vacant one *)
Theorem C18_entry_key_reports_stored (m : pmap pfx V) (q : pfx) :
  wfm w V (root m) -> okp w q ->
  t_h_key w fl V m (t_entry w fl V m q)
  = match t_get_key_value w fl V (root m) q with Some e => fst e | None => q end.
Proof.
  intros Hr Hq. destruct (Refine2.observers_refine pfx V _ _ _ _ _ _ _ _ _ L m q Hr Hq) as [_ [K [_ [_ H]]]].
  cbv zeta in *. unfold t_h_key, t_entry, t_get_key_value. rewrite H, K. reflexivity.
Qed.

(** the iterators ([iter], [keys], [into_iter], ...) yield the entry list itself, i.e. the stored pairs *)
Theorem C18_iter_reports_stored (t : tree pfx V) :
  map (Lookup2.drop_id pfx V) (t_iter_items V t) = entries t.
Proof. unfold t_iter_items. rewrite iter_items_spec. apply entries_id_entries. Qed.

End C18.

(** SET OPERATIONS report a stored representation of one of the operands: the left operand's for
    an item stored in both ([Both]) or only left, the right operand's for an item only stored right *)
Section C18_setops.
Variables (w : N) (fl : flavour) (A B : Type).
Hypothesis Hw : (1 <= w)%N.

Theorem C18_union_reports_stored ba bb (ta : tree pfx A) (tb : tree pfx B) out :
  wfu w A ba ta -> wfu w B bb tb -> t_union w fl A B ta tb = Some out ->
  forall it, In it out ->
    match it with
    | IBoth p l r => In (p, l) (entries ta) /\ exists pr, In (pr, r) (entries tb) /\ kbits w pr = kbits w p
    | ILeft p l _ => In (p, l) (entries ta)
    | IRight p _ r => In (p, r) (entries tb)
    end.
Proof.
  intros Ha Hb E it Hit.
  destruct (union_correct pfx A B _ _ _ _ _ _ _ _ _ (laws w fl Hw) ba bb ta tb Ha Hb) as [out' [E' [_ [Hi _]]]].
  unfold t_union in E. rewrite E in E'. inversion E'; subst out'. specialize (Hi it Hit).
  destruct it as [p l ann|p ann r|p l r]; [exact (proj1 Hi) | exact (proj1 Hi) | exact Hi].
Qed.

Theorem C18_intersection_reports_stored ba bb (ta : tree pfx A) (tb : tree pfx B) out :
  wfu w A ba ta -> wfu w B bb tb -> t_intersection w fl A B ta tb = Some out ->
  forall p l r, In (p, l, r) out ->
    In (p, l) (entries ta) /\ exists pr, In (pr, r) (entries tb) /\ kbits w pr = kbits w p.
Proof.
  intros Ha Hb E.
  destruct (intersection_correct pfx A B _ _ _ _ _ _ _ _ _ (laws w fl Hw) ba bb ta tb Ha Hb) as [out' [E' [_ [Hi _]]]].
  unfold t_intersection in E. rewrite E in E'. inversion E'; subst out'. exact Hi.
Qed.

End C18_setops.

(** non-vacuity at [w = 8]: [0100_0111/2] and [0111_1111/2] are two representations of the key
    [01].  Insert the first, look it up by the second: the stored one is reported.  [or_insert]
    with the second keeps the first; [get_mut]-style update, a write through a reference and a
    [remove] of another key keep it; [insert] with the second replaces it; the map never holds
    the key twice.  Finally a [TrieViewMut::set] on the value-less root creates an entry with the
    root's own prefix. *)
Definition C18_ops1 : list (hop nat) :=
  [ OInsert pfx nat (mkpfx 0x80 1) 1%nat;
    OInsert pfx nat (mkpfx 0x47 2) 3%nat;
    OInsert pfx nat (mkpfx 0xc0 2) 2%nat;
    OOrInsert pfx nat (mkpfx 0x7f 2) 9%nat;
    OUpdate pfx nat (mkpfx 0x55 2) S;
    OWrite pfx nat [(1%N, 50%nat)];
    ORemove pfx nat (mkpfx 0xff 2) ].

Example C18_example :
  let m1 := hrun 8 Generic nat C18_ops1 in
  let m2 := hrun 8 Generic nat (C18_ops1 ++ [OInsert pfx nat (mkpfx 0x7f 2) 6%nat]) in
  let m3 := hrun 8 Generic nat (C18_ops1 ++ [OInsert pfx nat (mkpfx 0x7f 2) 6%nat; OViewSet pfx nat [] 7%nat]) in
  kbits 8 (mkpfx 0x47 2) = kbits 8 (mkpfx 0x7f 2) /\ mkpfx 0x47 2 <> mkpfx 0x7f 2 /\
  entries (root m1) = [(mkpfx 0x47 2, 4%nat); (mkpfx 0x80 1, 50%nat)] /\
  t_get_key_value 8 Generic nat (root m1) (mkpfx 0x7f 2) = Some (mkpfx 0x47 2, 4%nat) /\
  entries (root m2) = [(mkpfx 0x7f 2, 6%nat); (mkpfx 0x80 1, 50%nat)] /\
  t_get_key_value 8 Generic nat (root m2) (mkpfx 0x47 2) = Some (mkpfx 0x7f 2, 6%nat) /\
  entries (root m3) = [(pzero, 7%nat); (mkpfx 0x7f 2, 6%nat); (mkpfx 0x80 1, 50%nat)].
Proof. vm_compute. repeat split; try reflexivity. discriminate. Qed.

(** * SELECTION and VIEW keys

    Every descent of the model uses its query only through [eq], [contains], [is_bit_set] and
    [prefix_len] against node prefixes, and each of these depends on the key only
    ([KeyCongr.peq_congr], [contains_congr], [contains_congr_l], [to_right_congr],
    [to_right_congr_l], [plen_congr]).  So on every well-formed map two valid representations [q],
    [q'] of one key give LITERALLY THE SAME result in every selection ([get_lpm], [get_lpm_prefix],
    [get_lpm_mut], [get_spm], [get_spm_prefix], [cover] — the whole iterator and every single
    [next] —, [children], [children_mut], [into_children]) and every removal (the same resulting
    map: tree, free list, arena length and counter — stronger than [same_effect] above), and in
    [find_exact]/[find_lpm] of both view types.  [view_at]/[TrieView::find]/[TrieViewMut::find]
    store the query itself in a virtual view; there literal equality is FALSE
    ([C18_view_at_literal_refuted]) and the two results are at the same location: the same real
    node (same subtree), both real or both virtual, with virtual prefixes of equal key and length —
    so [prefix()] has the same key, and [value], [prefix_value], the iterators, [left], [right],
    [split], [remove], [set], writes, and every further [find*] call agree again, along navigations
    of any length ([C18_view_navigation_key_only], [C18_view_mut_navigation_key_only]). *)
From PT Require KeyCongr.
From PT Require Import Arena Arena2 Arena3 ArenaProps ArenaKeys.

Section C18_keys.
Variables (w : N) (fl : flavour) (V : Type).
Hypothesis Hw : (1 <= w)%N.
Notation L := (laws w fl Hw).
Notation nok := (KeyCongr.wf_root_nodes_ok pfx V (kbits w) (okp w)).

(** LONGEST-PREFIX MATCH, all three copies of the loop *)
Theorem C18_lpm_variants_key_only (t : tree pfx V) (q q' : pfx) :
  wfm w V t -> okp w q -> okp w q' -> kbits w q = kbits w q' ->
  t_get_lpm w fl V t q = t_get_lpm w fl V t q' /\
  t_get_lpm_prefix w fl V t q = t_get_lpm_prefix w fl V t q' /\
  t_get_lpm_mut w fl V t q = t_get_lpm_mut w fl V t q'.
Proof.
  intros Hwf Hq Hq' E.
  exact (KeyCongr.lpm_variants_congr pfx V _ _ _ _ _ _ _ _ _ L q q' Hq Hq' E t (nok t Hwf)).
Qed.

(** SHORTEST-PREFIX MATCH and COVER: the same item / the same list of items; for the lazy [Cover]
    iterator also call by call — the first [next] and every later one (the iterator stands at a
    node of the map, i.e. at [subtree t pa] for some path): same item, same successor state *)
Theorem C18_spm_cover_key_only (t : tree pfx V) (q q' : pfx) :
  wfm w V t -> okp w q -> okp w q' -> kbits w q = kbits w q' ->
  t_get_spm w fl V t q = t_get_spm w fl V t q' /\
  t_get_spm_prefix w fl V t q = t_get_spm_prefix w fl V t q' /\
  t_cover_walk w fl V t q = t_cover_walk w fl V t q' /\
  (forall fuel, t_cover_drain w fl V fuel t CStart q = t_cover_drain w fl V fuel t CStart q') /\
  t_cover_next w fl V t CStart q = t_cover_next w fl V t CStart q' /\
  (forall pa, t_cover_next w fl V t (CAt (subtree t pa)) q = t_cover_next w fl V t (CAt (subtree t pa)) q') /\
  (forall pa fuel, t_cover_drain w fl V fuel t (CAt (subtree t pa)) q
                   = t_cover_drain w fl V fuel t (CAt (subtree t pa)) q').
Proof.
  intros Hwf Hq Hq' E.
  exact (KeyCongr.spm_cover_congr pfx V _ _ _ _ _ _ _ _ _ L q q' Hq Hq' E t (nok t Hwf)).
Qed.

(** CHILDREN: the same initial stack ([lpm_children_iter_start]), hence the same items (with the
    same slots) from [children], [children_mut], [into_children] *)
Theorem C18_children_key_only (t : tree pfx V) (q q' : pfx) :
  wfm w V t -> okp w q -> okp w q' -> kbits w q = kbits w q' ->
  children_start pfx V (peq w) (contains w fl) (is_bit_set w) plen t q
  = children_start pfx V (peq w) (contains w fl) (is_bit_set w) plen t q' /\
  t_children w fl V t q = t_children w fl V t q' /\
  t_children_mut w fl V t q = t_children_mut w fl V t q' /\
  t_into_children w fl V t q = t_into_children w fl V t q'.
Proof.
  intros Hwf Hq Hq' E.
  exact (KeyCongr.children_all_congr pfx V _ _ _ _ _ _ _ _ _ L q q' Hq Hq' E t (nok t Hwf)).
Qed.

(** REMOVALS and in-place updates: the same returned value and the same resulting MAP — the same
    tree (node for node, slot for slot), free list, arena length and counter.  (Strengthens the
    [same_effect] clauses of [C18_interchangeable], which compare entry lists.) *)
Theorem C18_removal_key_only (m : pmap pfx V) (q q' : pfx) :
  wfm w V (root m) -> okp w q -> okp w q' -> kbits w q = kbits w q' ->
  t_remove w fl V m q = t_remove w fl V m q' /\
  t_remove_keep_tree w fl V m q = t_remove_keep_tree w fl V m q' /\
  t_occ_remove w fl V m q = t_occ_remove w fl V m q' /\
  t_remove_children w fl V m q = t_remove_children w fl V m q' /\
  (forall g, t_update_value w fl V m q g = t_update_value w fl V m q' g) /\
  t_get_node w fl V (root m) q = t_get_node w fl V (root m) q'.
Proof.
  intros Hwf Hq Hq' E.
  exact (KeyCongr.removals_congr pfx V _ _ _ _ _ _ _ _ _ L q q' Hq Hq' E m (nok (root m) Hwf)).
Qed.

(** VIEWS.  [same_view v v']: the two views are at the same location and indistinguishable by
    every observer except the host bits of a virtual view's [prefix()]: the same real node (the
    same subtree), both real or both virtual, prefixes with the same key and length, the same
    value, entry, iterator, [left()] and [right()]. *)
Definition same_view (v v' : view pfx V) : Prop :=
  v_tree v = v_tree v' /\ v_is_virtual v = v_is_virtual v' /\
  kbits w (t_v_prefix V v) = kbits w (t_v_prefix V v') /\ plen (t_v_prefix V v) = plen (t_v_prefix V v') /\
  v_value v = v_value v' /\ v_prefix_value v = v_prefix_value v' /\ v_iter v = v_iter v' /\
  t_v_left w V v = t_v_left w V v' /\ t_v_right w V v = t_v_right w V v'.
Definition same_oview (o o' : option (view pfx V)) : Prop :=
  match o, o' with
  | None, None => True
  | Some v, Some v' => same_view v v'
  | _, _ => False
  end.

Lemma C18_view_sim_same v v' : KeyCongr.view_sim pfx V (kbits w) (okp w) v v' -> same_view v v'.
Proof.
  intros H.
  destruct (KeyCongr.view_sim_observers pfx V _ _ _ _ _ _ _ _ _ L v v' H) as [A [B [C [D [F [G K]]]]]].
  unfold same_view. repeat split; try assumption.
  - exact (KeyCongr.v_left_congr pfx V _ _ _ _ _ _ _ _ _ L v v' H).
  - exact (KeyCongr.v_right_congr pfx V _ _ _ _ _ _ _ _ _ L v v' H).
Qed.

Lemma C18_osim_same o o' : KeyCongr.osim pfx V (kbits w) (okp w) o o' -> same_oview o o'.
Proof. destruct o, o'; cbn; try tauto. apply C18_view_sim_same. Qed.

(** the view calls on a map: [view_at] and [find] give views at the same location; [find_exact]
    and [find_lpm] (which only return real nodes) give the same view *)
Theorem C18_views_key_only (T : tree pfx V) (q q' : pfx) :
  wfm w V T -> okp w q -> okp w q' -> kbits w q = kbits w q' ->
  same_oview (t_view_at w fl V T q) (t_view_at w fl V T q') /\
  same_oview (t_v_find w fl V (view_of T) q) (t_v_find w fl V (view_of T) q') /\
  t_v_find_exact w fl V (view_of T) q = t_v_find_exact w fl V (view_of T) q' /\
  t_v_find_lpm w fl V (view_of T) q = t_v_find_lpm w fl V (view_of T) q'.
Proof.
  intros Hwf Hq Hq' E. pose proof (nok T Hwf) as Hn.
  assert (S : KeyCongr.view_sim pfx V (kbits w) (okp w) (view_of T) (view_of T)) by constructor.
  repeat split.
  - apply C18_osim_same. exact (KeyCongr.view_at_sim pfx V _ _ _ _ _ _ _ _ _ L q q' Hq Hq' E T Hn).
  - apply C18_osim_same. exact (KeyCongr.v_find_sim pfx V _ _ _ _ _ _ _ _ _ L q q' Hq Hq' E _ _ S Hn).
  - exact (KeyCongr.v_find_exact_congr pfx V _ _ _ _ _ _ _ _ _ L q q' Hq Hq' E _ _ S Hn).
  - exact (KeyCongr.v_find_lpm_congr pfx V _ _ _ _ _ _ _ _ _ L q q' Hq Hq' E _ _ S Hn).
Qed.

(** ... and on sub-views, to any depth.  A navigation is a list of calls [find q] / [find_exact q]
    / [find_lpm q] / [left] / [right], each applied to the view the previous one returned
    ([vnav]; [None] as soon as a call returns [None]).  Two navigations that make the same calls
    with (valid) representations of the same keys ([same_calls]) both fail, or end in views at the
    same location. *)
Notation vstep := (KeyCongr.vstep pfx).
Notation SFind := (KeyCongr.SFind pfx).
Notation SFindExact := (KeyCongr.SFindExact pfx).
Notation SFindLpm := (KeyCongr.SFindLpm pfx).
Notation SLeft := (KeyCongr.SLeft pfx).
Notation SRight := (KeyCongr.SRight pfx).
Notation vnav := (KeyCongr.vnav pfx V (peq w) (contains w fl) (is_bit_set w) plen pzero).
Notation same_calls := (Forall2 (KeyCongr.vstep_sim pfx (kbits w) (okp w))).

Example vnav_unfold (v : view pfx V) s ss :
  vnav v [] = Some v /\
  vnav v (s :: ss)
  = match match s with
          | KeyCongr.SFind _ q => t_v_find w fl V v q
          | KeyCongr.SFindExact _ q => t_v_find_exact w fl V v q
          | KeyCongr.SFindLpm _ q => t_v_find_lpm w fl V v q
          | KeyCongr.SLeft _ => t_v_left w V v
          | KeyCongr.SRight _ => t_v_right w V v
          end with Some v' => vnav v' ss | None => None end.
Proof. split; reflexivity. Qed.

Example same_call_unfold s s' :
  KeyCongr.vstep_sim pfx (kbits w) (okp w) s s' =
  match s, s' with
  | KeyCongr.SFind _ q, KeyCongr.SFind _ q'
  | KeyCongr.SFindExact _ q, KeyCongr.SFindExact _ q'
  | KeyCongr.SFindLpm _ q, KeyCongr.SFindLpm _ q' => okp w q /\ okp w q' /\ kbits w q = kbits w q'
  | KeyCongr.SLeft _, KeyCongr.SLeft _ | KeyCongr.SRight _, KeyCongr.SRight _ => True
  | _, _ => False
  end.
Proof. reflexivity. Qed.

Theorem C18_view_navigation_key_only (T : tree pfx V) (ss ss' : list vstep) :
  wfm w V T -> same_calls ss ss' -> same_oview (vnav (view_of T) ss) (vnav (view_of T) ss').
Proof.
  intros Hwf HF. apply C18_osim_same.
  apply (KeyCongr.vnav_sim pfx V _ _ _ _ _ _ _ _ _ L ss ss' (view_of T) (view_of T)); [|constructor|exact HF].
  split; [exact (nok T Hwf) | exact I].
Qed.

(** MUTABLE VIEWS.  [same_vmut T m m']: the same path from the root, both real or both virtual with
    prefixes of the same key; and then every operation of [TrieViewMut] agrees: the same subtree,
    [left]/[right]/[split], [value], [remove], [set], writes through [value_mut], [iter_mut]; the
    key of [prefix()]. *)
Definition same_vmut (T : tree pfx V) (m m' : vmut pfx) : Prop :=
  mpath pfx m = mpath pfx m' /\
  match mvirt pfx m, mvirt pfx m' with
  | None, None => True
  | Some p, Some p' => kbits w p = kbits w p'
  | _, _ => False
  end /\
  vm_tree T m = vm_tree T m' /\
  t_vm_left w V T m = t_vm_left w V T m' /\ t_vm_right w V T m = t_vm_right w V T m' /\
  t_vm_split w V T m = t_vm_split w V T m' /\
  t_vm_has_left w V T m = t_vm_has_left w V T m' /\ t_vm_has_right w V T m = t_vm_has_right w V T m' /\
  kbits w (t_vm_prefix V T m) = kbits w (t_vm_prefix V T m') /\
  vm_value T m = vm_value T m' /\ vm_remove T m = vm_remove T m' /\
  (forall x, vm_set T m x = vm_set T m' x) /\
  (forall g, vm_value_mut T m g = vm_value_mut T m' g) /\
  vm_iter_mut T m = vm_iter_mut T m'.
Definition same_ovmut (T : tree pfx V) (o o' : option (vmut pfx)) : Prop :=
  match o, o' with
  | None, None => True
  | Some m, Some m' => same_vmut T m m'
  | _, _ => False
  end.

Lemma C18_vm_sim_same T m m' : KeyCongr.vm_sim pfx (kbits w) (okp w) m m' -> same_vmut T m m'.
Proof.
  intros H. pose proof (KeyCongr.vm_ops_congr pfx V _ _ _ _ _ _ _ _ _ L T m m' H) as K.
  destruct H as [A B]. split; [exact A|]. split; [|exact K].
  destruct (mvirt pfx m), (mvirt pfx m'); try tauto.
Qed.

Lemma C18_ovm_sim_same T o o' : KeyCongr.ovm_sim pfx (kbits w) (okp w) o o' -> same_ovmut T o o'.
Proof. destruct o, o'; cbn; try tauto. apply C18_vm_sim_same. Qed.

Notation vmnav := (KeyCongr.vmnav pfx V (peq w) (contains w fl) (is_bit_set w) plen pzero).

Example vmnav_unfold (T : tree pfx V) (m : vmut pfx) s ss :
  vmnav T m [] = Some m /\
  vmnav T m (s :: ss)
  = match match s with
          | KeyCongr.SFind _ q => t_vm_find w fl V T m q
          | KeyCongr.SFindExact _ q => t_vm_find_exact w fl V T m q
          | KeyCongr.SFindLpm _ q => t_vm_find_lpm w fl V T m q
          | KeyCongr.SLeft _ => t_vm_left w V T m
          | KeyCongr.SRight _ => t_vm_right w V T m
          end with Some m' => vmnav T m' ss | None => None end.
Proof. split; reflexivity. Qed.

(** the [find*] calls of the map's mutable view *)
Theorem C18_view_mut_key_only (T : tree pfx V) (q q' : pfx) :
  wfm w V T -> okp w q -> okp w q' -> kbits w q = kbits w q' ->
  same_ovmut T (t_vm_find w fl V T (vm_root pfx) q) (t_vm_find w fl V T (vm_root pfx) q') /\
  t_vm_find_exact w fl V T (vm_root pfx) q = t_vm_find_exact w fl V T (vm_root pfx) q' /\
  t_vm_find_lpm w fl V T (vm_root pfx) q = t_vm_find_lpm w fl V T (vm_root pfx) q'.
Proof.
  intros Hwf Hq Hq' E. pose proof (nok T Hwf) as Hn.
  assert (S : KeyCongr.vm_sim pfx (kbits w) (okp w) (vm_root pfx) (vm_root pfx)) by (split; [reflexivity | exact I]).
  repeat split.
  - apply C18_ovm_sim_same. exact (KeyCongr.vm_find_sim pfx V _ _ _ _ _ _ _ _ _ L q q' Hq Hq' E T _ _ Hn S).
  - exact (KeyCongr.vm_find_exact_congr pfx V _ _ _ _ _ _ _ _ _ L q q' Hq Hq' E T _ _ Hn S).
  - exact (KeyCongr.vm_find_lpm_congr pfx V _ _ _ _ _ _ _ _ _ L q q' Hq Hq' E T _ _ Hn S).
Qed.

(** ... and navigations of any length from it *)
Theorem C18_view_mut_navigation_key_only (T : tree pfx V) (ss ss' : list vstep) :
  wfm w V T -> same_calls ss ss' -> same_ovmut T (vmnav T (vm_root pfx) ss) (vmnav T (vm_root pfx) ss').
Proof.
  intros Hwf HF. apply C18_ovm_sim_same.
  apply (KeyCongr.vmnav_sim pfx V _ _ _ _ _ _ _ _ _ L T ss ss' (vm_root pfx) (vm_root pfx) (nok T Hwf)); [|exact HF].
  split; [reflexivity | exact I].
Qed.

(** * The same statements about the ARENA-level transcription (ArenaKeys.v), for every arena reachable
      from the empty arena by a history over the whole mutator alphabet *)

(** two valid representations of one key (they may differ in host bits) give literally the same
    result in every lookup and selection *)
Theorem C18_arena_key_only (am : Arena.amap pfx V) (q q' : pfx) :
  areach pfx V (peq w) (contains w fl) (is_bit_set w) plen (lcp w fl) pzero (okp w) am -> okp w q -> okp w q' -> kbits w q = kbits w q' ->
  Arena.a_get pfx V (peq w) (contains w fl) (is_bit_set w) plen am q = Arena.a_get pfx V (peq w) (contains w fl) (is_bit_set w) plen am q' /\
  Arena3.a_get_key_value pfx V (peq w) (contains w fl) (is_bit_set w) plen am q = Arena3.a_get_key_value pfx V (peq w) (contains w fl) (is_bit_set w) plen am q' /\
  Arena3.a_contains_key pfx V (peq w) (contains w fl) (is_bit_set w) plen am q = Arena3.a_contains_key pfx V (peq w) (contains w fl) (is_bit_set w) plen am q' /\
  Arena.a_get_lpm pfx V (peq w) (contains w fl) (is_bit_set w) plen am q = Arena.a_get_lpm pfx V (peq w) (contains w fl) (is_bit_set w) plen am q' /\
  Arena3.a_get_lpm_prefix pfx V (peq w) (contains w fl) (is_bit_set w) plen am q = Arena3.a_get_lpm_prefix pfx V (peq w) (contains w fl) (is_bit_set w) plen am q' /\
  Arena3.a_get_lpm_mut pfx V (peq w) (contains w fl) (is_bit_set w) plen am q = Arena3.a_get_lpm_mut pfx V (peq w) (contains w fl) (is_bit_set w) plen am q' /\
  Arena3.a_get_spm pfx V (peq w) (contains w fl) (is_bit_set w) plen am q = Arena3.a_get_spm pfx V (peq w) (contains w fl) (is_bit_set w) plen am q' /\
  Arena3.a_get_spm_prefix pfx V (peq w) (contains w fl) (is_bit_set w) plen am q = Arena3.a_get_spm_prefix pfx V (peq w) (contains w fl) (is_bit_set w) plen am q' /\
  Arena3.a_cover pfx V (peq w) (contains w fl) (is_bit_set w) plen am q = Arena3.a_cover pfx V (peq w) (contains w fl) (is_bit_set w) plen am q' /\
  Arena3.a_children pfx V (peq w) (contains w fl) (is_bit_set w) plen am q = Arena3.a_children pfx V (peq w) (contains w fl) (is_bit_set w) plen am q'.
Proof. exact (arena_C18_key_only pfx V _ _ _ _ _ _ _ _ _ L am q q'). Qed.

(** the inserting calls store the representation passed: afterwards a lookup of ANY representation
    [q'] of the key returns [(q, x)] *)
Theorem C18_arena_insert_stores_repr (am : Arena.amap pfx V) (q q' : pfx) (x : V) :
  areach pfx V (peq w) (contains w fl) (is_bit_set w) plen (lcp w fl) pzero (okp w) am -> okp w q -> okp w q' -> kbits w q' = kbits w q ->
  (exists am' o, Arena.a_insert pfx V (peq w) (contains w fl) (is_bit_set w) plen (lcp w fl) am q x = Arena.Ok (am', o) /\ areach pfx V (peq w) (contains w fl) (is_bit_set w) plen (lcp w fl) pzero (okp w) am' /\
                 Arena3.a_get_key_value pfx V (peq w) (contains w fl) (is_bit_set w) plen am' q' = Arena.Ok (Some (q, x))) /\
  (exists am' o, Arena2.a_entry_insert pfx V (peq w) (contains w fl) (is_bit_set w) plen (lcp w fl) am q x = Arena.Ok (am', o) /\ areach pfx V (peq w) (contains w fl) (is_bit_set w) plen (lcp w fl) pzero (okp w) am' /\
                 Arena3.a_get_key_value pfx V (peq w) (contains w fl) (is_bit_set w) plen am' q' = Arena.Ok (Some (q, x))).
Proof. exact (arena_C18_insert_stores_repr pfx V _ _ _ _ _ _ _ _ _ L am q q' x). Qed.

End C18_keys.

(** literal equality of the two [view_at] results is FALSE: at [w = 8], in the map holding
    [0100_0000/2], [0110_0000/3] and [1100_0000/2], the queries [0000_0000/1] and [0011_1111/1] (one key, [0]) yield the virtual
    views [VVirt (0000_0000/1) c] and [VVirt (0011_1111/1) c] over the same node [c]; [prefix()]
    reports the query's own representation (there is no stored one). *)
Definition C18_T2 : tree pfx nat :=
  root (hrun 8 Generic nat [OInsert pfx nat (mkpfx 0x40 2) 1%nat; OInsert pfx nat (mkpfx 0x60 3) 2%nat;
                            OInsert pfx nat (mkpfx 0xc0 2) 3%nat]).

Theorem C18_view_at_literal_refuted :
  exists (T : tree pfx nat) (q q' : pfx),
    wfm 8 nat T /\ okp 8 q /\ okp 8 q' /\ kbits 8 q = kbits 8 q' /\
    t_view_at 8 Generic nat T q <> t_view_at 8 Generic nat T q' /\
    option_map (t_v_prefix nat) (t_view_at 8 Generic nat T q) = Some q /\
    option_map (t_v_prefix nat) (t_view_at 8 Generic nat T q') = Some q'.
Proof.
  exists C18_T2, (mkpfx 0x00 1), (mkpfx 0x3f 1).
  split; [apply (reachable_wfm 8 Generic nat); [discriminate | repeat constructor]|].
  vm_compute. repeat split; try reflexivity. discriminate.
Qed.

(** non-vacuity of the selection/view theorems on that map: the two representations select the
    same children and cover, and the virtual views have the same subtree and the same [left()] *)
Example C18_keys_example :
  let q := mkpfx 0x00 1 in let q' := mkpfx 0x3f 1 in
  map (Inst.drop_id nat) (t_children 8 Generic nat C18_T2 q) = [(mkpfx 0x40 2, 1%nat); (mkpfx 0x60 3, 2%nat)] /\
  map (Inst.drop_id nat) (t_children 8 Generic nat C18_T2 q') = [(mkpfx 0x40 2, 1%nat); (mkpfx 0x60 3, 2%nat)] /\
  t_cover_walk 8 Generic nat C18_T2 (mkpfx 0x7f 3) = [(mkpfx 0x40 2, 1%nat); (mkpfx 0x60 3, 2%nat)] /\
  t_cover_walk 8 Generic nat C18_T2 (mkpfx 0x60 3) = [(mkpfx 0x40 2, 1%nat); (mkpfx 0x60 3, 2%nat)] /\
  t_get_spm_prefix 8 Generic nat C18_T2 (mkpfx 0x7f 3) = Some (mkpfx 0x40 2) /\
  t_get_lpm_prefix 8 Generic nat C18_T2 (mkpfx 0x7f 3) = Some (mkpfx 0x60 3) /\
  option_map v_is_virtual (t_view_at 8 Generic nat C18_T2 q) = Some true /\
  option_map v_tree (t_view_at 8 Generic nat C18_T2 q) = option_map v_tree (t_view_at 8 Generic nat C18_T2 q') /\
  option_map (fun v => map (Inst.drop_id nat) (v_iter v)) (t_view_at 8 Generic nat C18_T2 q')
    = Some [(mkpfx 0x40 2, 1%nat); (mkpfx 0x60 3, 2%nat)] /\
  option_map (t_vm_prefix nat C18_T2) (t_vm_find 8 Generic nat C18_T2 (vm_root pfx) q') = Some q'.
Proof. vm_compute. repeat split; reflexivity. Qed.

Print Assumptions C18_interchangeable.
Print Assumptions C18_lpm_key_only.
Print Assumptions C18_one_entry_per_key.
Print Assumptions C18_reachable_one_entry_per_key.
Print Assumptions C18_inserting_calls_store_their_prefix.
Print Assumptions C18_repr_stable.
Print Assumptions C18_repr_origin.
Print Assumptions C18_repr_provenance.
Print Assumptions C18_view_set_keeps_prefix.
Print Assumptions C18_lookup_reports_stored.
Print Assumptions C18_entry_key_reports_stored.
Print Assumptions C18_iter_reports_stored.
Print Assumptions C18_union_reports_stored.
Print Assumptions C18_intersection_reports_stored.
Print Assumptions C18_lpm_variants_key_only.
Print Assumptions C18_spm_cover_key_only.
Print Assumptions C18_children_key_only.
Print Assumptions C18_removal_key_only.
Print Assumptions C18_view_sim_same.
Print Assumptions C18_osim_same.
Print Assumptions C18_views_key_only.
Print Assumptions C18_view_navigation_key_only.
Print Assumptions C18_vm_sim_same.
Print Assumptions C18_ovm_sim_same.
Print Assumptions C18_view_mut_key_only.
Print Assumptions C18_view_mut_navigation_key_only.
Print Assumptions C18_view_at_literal_refuted.
Print Assumptions C18_arena_key_only.
Print Assumptions C18_arena_insert_stores_repr.
