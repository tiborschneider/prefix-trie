(** C14 — Mutable access is exclusive: live mutable references never alias an entry.

    SCOPE.  This file states the MODEL-LEVEL part of C14.  In the model a reference is the arena
    slot [N] carried by every yielded item, a mutable view is a path into the map's tree
    ([vmut]), the slots a view can reach are [vm_slots T m], and a worker's activity is a list
    of (slot, value) writes applied one by one ([write_each] = [fold_left] of single-reference
    [write_ids]).  Proved here, for every width [w >= 1], flavour, value type and every tree
    with pairwise distinct slots — which every reachable state is ([C14_reachable_distinct_slots]):
      (a) all references yielded by ONE mutable traversal (iter_mut, children_mut, a view's
          iter_mut, either side of the four [*_mut] set operations) are pairwise distinct;
      (b) the views obtained from one view by [split] / [left]+[right], and all views derived
          from those by any sequence of [find] / [find_exact] / [find_lpm] / [left] / [right],
          address disjoint slot sets, hand out disjoint references, and a view over other
          entries observes nothing of the writes (frame);
      (c) a [*_mut] set operation over two disjoint sub-views of one map hands out pairwise
          distinct references on both sides together (for the two difference operations, whose
          right operand is read-only: none of the mutable references lies in the right view);
      (d) writes through disjoint reference sets commute, and EVERY interleaving of the
          per-entry writes of two workers on disjoint views equals the sequential result (in
          either order); the structural writes of views ([set], [remove], [value_mut]) at
          disjoint views commute as well.
    NOT EXPRESSIBLE in a Gallina model, and therefore not claimed here: the compile-time clauses
    of C14 — that client programs which WOULD create aliasing views/references (or a read-only
    view coexisting with a mutable one over the same entries) are rejected by the borrow
    checker, and that maps/views holding non-thread-safe values cannot cross threads (the
    [unsafe impl Send/Sync] bounds).  What the model contributes to those clauses is the
    soundness argument they rest on: the API constructors that consume or mutably borrow a view
    ([split], [left], [right], [find*], [iter_mut], [*_mut]) only ever produce the disjoint slot
    sets of (a)-(c), so the lifetimes the signatures promise are honoured by the arena indexing. *)
From Coq Require Import List NArith Bool Permutation Relations.
From PT Require Import Lookup Lookup2 ViewsThm Slots MutTrav MutTravExtra UnionThm InterDiffThm ParModel InstPar Arena Arena3 ArenaProps ArenaViews ArenaWrite ArenaAlias.
From PT.Properties Require Import Common.
Import ListNotations.

Section C14.
Variables (w : N) (fl : flavour) (V R : Type).
Hypothesis Hw : (1 <= w)%N.
Notation tree := (Trie.tree pfx V).
Notation ids := (Slots.ids pfx V).
Notation slot := (MutTrav.slot3 pfx V).
Notation slotR := (MutTrav.slot3 pfx R).
Notation LAWS := (laws w fl Hw).
Notation vm_slots := (MutTravExtra.vm_slots pfx V).
Notation write_each := (MutTrav.write_each pfx V).
(** one consuming API step on a mutable view / any number of them *)
Notation step := (vm_step pfx V (peq w) (contains w fl) (is_bit_set w) plen pzero).
Notation derived := (vm_derived pfx V (peq w) (contains w fl) (is_bit_set w) plen pzero).

(** in every reachable state the slots of the tree are pairwise distinct *)
Theorem C14_reachable_distinct_slots (ops : list (hop V)) :
  Forall (hop_ok w V) ops -> NoDup (ids (root (hrun w fl V ops))).
Proof. exact (reachable_nodup pfx V _ _ _ _ _ _ _ _ _ LAWS ops). Qed.

(** * (a) one traversal never yields two references to the same entry *)

Theorem C14_iter_mut_distinct (t : tree) :
  NoDup (ids t) -> NoDup (map slot (t_iter_mut_items V t)).
Proof. intros H. exact (proj1 (iter_mut_refs pfx V t H)). Qed.

Theorem C14_iter_mut_distinct_reachable (ops : list (hop V)) :
  Forall (hop_ok w V) ops -> NoDup (map slot (t_iter_mut_items V (root (hrun w fl V ops)))).
Proof. intros H. apply C14_iter_mut_distinct. exact (C14_reachable_distinct_slots ops H). Qed.

Theorem C14_children_mut_distinct (t : tree) (q : pfx) :
  NoDup (ids t) -> NoDup (map slot (t_children_mut w fl V t q)).
Proof. intros H. exact (proj1 (children_mut_refs pfx V _ _ _ _ t q H)). Qed.

Theorem C14_view_iter_mut_distinct (T : tree) (m : vmut pfx) :
  NoDup (ids T) -> NoDup (map slot (vm_iter_mut T m)) /\ incl (map slot (vm_iter_mut T m)) (vm_slots T m).
Proof.
  intros H. split; [exact (proj1 (vm_iter_mut_refs pfx V T m H)) | exact (vm_iter_mut_slots pfx V T m)].
Qed.

(** the [*_mut] set operations over two maps (or views) [ta], [tb]: the references into [ta] are
    pairwise distinct, and so are the references into [tb] *)
Theorem C14_union_mut_distinct ba bb (ta : tree) (tb : Trie.tree pfx R) outm :
  wfu w V ba ta -> wfu w R bb tb -> t_union_mut w fl V R ta tb = Some outm ->
  (NoDup (ids ta) -> NoDup (map slot (um_lrefs pfx V R outm))) /\
  (NoDup (Slots.ids pfx R tb) -> NoDup (map slotR (um_rrefs pfx V R outm))).
Proof.
  intros Ha Hb Hm.
  exact (proj2 (proj2 (union_mut_refs pfx V R _ _ _ _ _ _ _ _ _ LAWS ba bb ta tb outm Ha Hb Hm))).
Qed.

Theorem C14_intersection_mut_distinct ba bb (ta : tree) (tb : Trie.tree pfx R) outm :
  wfu w V ba ta -> wfu w R bb tb -> t_intersection_mut w fl V R ta tb = Some outm ->
  (NoDup (ids ta) -> NoDup (map slot (im_lrefs pfx V R outm))) /\
  (NoDup (Slots.ids pfx R tb) -> NoDup (map slotR (im_rrefs pfx V R outm))).
Proof.
  intros Ha Hb Hm.
  exact (proj2 (proj2 (intersection_mut_refs pfx V R _ _ _ _ _ _ _ _ _ LAWS ba bb ta tb outm Ha Hb Hm))).
Qed.

Theorem C14_difference_mut_distinct ba bb (ta : tree) (tb : Trie.tree pfx R) outm :
  wfu w V ba ta -> wfu w R bb tb -> t_difference_mut w fl V R ta tb = Some outm ->
  NoDup (ids ta) -> NoDup (map slot (dm_refs pfx V R outm)).
Proof.
  intros Ha Hb Hm.
  exact (proj2 (difference_mut_refs pfx V R _ _ _ _ _ _ _ _ _ LAWS ba bb ta tb outm Ha Hb Hm)).
Qed.

Theorem C14_covering_difference_mut_distinct ba bb (ta : tree) (tb : Trie.tree pfx R) outm :
  wfu w V ba ta -> wfu w R bb tb -> t_covering_difference_mut w fl V R ta tb = Some outm ->
  NoDup (ids ta) -> NoDup (map slot (cdm_refs pfx V outm)).
Proof.
  intros Ha Hb Hm.
  exact (proj2 (covering_difference_mut_refs pfx V R _ _ _ _ _ _ _ _ _ LAWS ba bb ta tb outm Ha Hb Hm)).
Qed.

(** * (b) several views obtained from one view *)

(** [derived] contains every consuming constructor of [TrieViewMut] *)
Theorem C14_derived_steps (T : tree) (m m' : vmut pfx) :
  (forall q, t_vm_find w fl V T m q = Some m' -> derived T m m') /\
  (forall q, t_vm_find_exact w fl V T m q = Some m' -> derived T m m') /\
  (forall q, t_vm_find_lpm w fl V T m q = Some m' -> derived T m m') /\
  (t_vm_left w V T m = Some m' -> derived T m m') /\
  (t_vm_right w V T m = Some m' -> derived T m m').
Proof.
  repeat split; intros; apply rt_step.
  - eapply vs_find; eassumption.
  - eapply vs_find_exact; eassumption.
  - eapply vs_find_lpm; eassumption.
  - apply vs_left; assumption.
  - apply vs_right; assumption.
Qed.

(** a derived view addresses a subset of the slots of the view it was derived from *)
Theorem C14_derived_inside (T : tree) (m m' : vmut pfx) :
  derived T m m' -> incl (vm_slots T m') (vm_slots T m).
Proof. exact (vm_derived_slots pfx V _ _ _ _ _ T m m'). Qed.

(** the two halves of [split] (equivalently: the results of [left] and [right]) address
    disjoint slot sets *)
Theorem C14_split_disjoint (T : tree) (m ml mr : vmut pfx) :
  NoDup (ids T) -> t_vm_split w V T m = (Some ml, Some mr) ->
  forall i, In i (vm_slots T ml) -> ~ In i (vm_slots T mr).
Proof. exact (vm_split_slots_disjoint pfx V _ _ _ T m ml mr). Qed.

Theorem C14_split_is_left_right (T : tree) (m : vmut pfx) :
  t_vm_split w V T m = (t_vm_left w V T m, t_vm_right w V T m).
Proof. exact (vm_split_eq pfx V _ _ _ T m). Qed.

Theorem C14_left_right_disjoint (T : tree) (m ml mr : vmut pfx) :
  NoDup (ids T) -> t_vm_left w V T m = Some ml -> t_vm_right w V T m = Some mr ->
  forall i, In i (vm_slots T ml) -> ~ In i (vm_slots T mr).
Proof.
  intros Hnd Hl Hr. apply (C14_split_disjoint T m ml mr Hnd).
  exact (vm_left_right_split pfx V _ _ _ T m ml mr Hl Hr).
Qed.

(** ... and so do ALL views derived from the one half and from the other half *)
Theorem C14_split_derived_disjoint (T : tree) (m ml mr m1 m2 : vmut pfx) :
  NoDup (ids T) -> t_vm_split w V T m = (Some ml, Some mr) ->
  derived T ml m1 -> derived T mr m2 ->
  forall i, In i (vm_slots T m1) -> ~ In i (vm_slots T m2).
Proof. exact (vm_split_derived_disjoint pfx V _ _ _ _ _ T m ml mr m1 m2). Qed.

(** the references their [iter_mut]s hand out — all of them, both views together — are pairwise
    distinct *)
Theorem C14_split_derived_refs_distinct (T : tree) (m ml mr m1 m2 : vmut pfx) :
  NoDup (ids T) -> t_vm_split w V T m = (Some ml, Some mr) ->
  derived T ml m1 -> derived T mr m2 ->
  NoDup (map slot (vm_iter_mut T m1) ++ map slot (vm_iter_mut T m2)).
Proof.
  intros Hnd Hs D1 D2. apply nodup_app_intro.
  - exact (proj1 (C14_view_iter_mut_distinct T m1 Hnd)).
  - exact (proj1 (C14_view_iter_mut_distinct T m2 Hnd)).
  - intros i H1 H2. apply (C14_split_derived_disjoint T m ml mr m1 m2 Hnd Hs D1 D2 i).
    + exact (vm_iter_mut_slots pfx V T m1 i H1).
    + exact (vm_iter_mut_slots pfx V T m2 i H2).
Qed.

(** generally: two views at incomparable paths (neither is inside the other) are disjoint; views
    derived from the two halves of a split are at incomparable paths *)
Theorem C14_incomparable_views_disjoint (T : tree) (m1 m2 : vmut pfx) :
  NoDup (ids T) -> ~ prefix_of (mpath pfx m1) (mpath pfx m2) -> ~ prefix_of (mpath pfx m2) (mpath pfx m1) ->
  forall i, In i (vm_slots T m1) -> ~ In i (vm_slots T m2).
Proof. intros Hnd. exact (subtree_slots_disjoint pfx V (mpath pfx m1) T (mpath pfx m2) Hnd). Qed.

Theorem C14_split_derived_incomparable (T : tree) (m ml mr m1 m2 : vmut pfx) :
  t_vm_split w V T m = (Some ml, Some mr) -> derived T ml m1 -> derived T mr m2 ->
  ~ prefix_of (mpath pfx m1) (mpath pfx m2) /\ ~ prefix_of (mpath pfx m2) (mpath pfx m1).
Proof.
  intros Hs D1 D2. destruct (vm_split_both pfx V _ _ _ T m ml mr Hs) as [_ [El Er]].
  apply (sides_below_incomparable (mpath pfx m)).
  - pose proof (vm_derived_below pfx V _ _ _ _ _ T ml m1 D1) as H. rewrite El in H. exact H.
  - pose proof (vm_derived_below pfx V _ _ _ _ _ T mr m2 D2) as H. rewrite Er in H. exact H.
Qed.

(** frame: a view (read-only twin [vm_view] included) none of whose slots is written observes
    no change at all — so a view over entries disjoint from a mutable view's is unaffected by
    whatever is written through the latter *)
Theorem C14_disjoint_view_unaffected (T : tree) (m : vmut pfx) (ws : list (N * V)) :
  (forall i, In i (vm_slots T m) -> ~ In i (map fst ws)) ->
  vm_tree (write_ids T ws) m = vm_tree T m /\ vm_view (write_ids T ws) m = vm_view T m /\
  vm_iter_mut (write_ids T ws) m = vm_iter_mut T m.
Proof.
  intros H. pose proof (vm_tree_frame pfx V T m ws H) as E.
  split; [exact E|]. unfold vm_view, vm_iter_mut. rewrite E. split; reflexivity.
Qed.

(** * (c) a [*_mut] set operation over two disjoint sub-views of ONE map *)

(** [T] is one (well-formed, distinct-slot) map; the operands are its sub-views at the
    incomparable paths [pa1], [pa2] (e.g. the two halves of a split, or views derived from them:
    [C14_split_derived_incomparable]).  All references handed out — both sides together — are
    pairwise distinct; the left ones lie in the first view, the right ones in the second. *)
Theorem C14_union_mut_disjoint_views b (T : tree) (pa1 pa2 : path) outm :
  wfu w V b T -> NoDup (ids T) -> ~ prefix_of pa1 pa2 -> ~ prefix_of pa2 pa1 ->
  t_union_mut w fl V V (subtree T pa1) (subtree T pa2) = Some outm ->
  incl (map slot (um_lrefs pfx V V outm)) (ids (subtree T pa1)) /\
  incl (map slot (um_rrefs pfx V V outm)) (ids (subtree T pa2)) /\
  NoDup (map slot (um_lrefs pfx V V outm) ++ map slot (um_rrefs pfx V V outm)).
Proof.
  intros H1 H2 H3 H4. exact (union_mut_views_disjoint pfx V _ _ _ _ _ _ _ _ _ LAWS b T pa1 pa2 H1 H2 H3 H4 outm).
Qed.

Theorem C14_intersection_mut_disjoint_views b (T : tree) (pa1 pa2 : path) outm :
  wfu w V b T -> NoDup (ids T) -> ~ prefix_of pa1 pa2 -> ~ prefix_of pa2 pa1 ->
  t_intersection_mut w fl V V (subtree T pa1) (subtree T pa2) = Some outm ->
  incl (map slot (im_lrefs pfx V V outm)) (ids (subtree T pa1)) /\
  incl (map slot (im_rrefs pfx V V outm)) (ids (subtree T pa2)) /\
  NoDup (map slot (im_lrefs pfx V V outm) ++ map slot (im_rrefs pfx V V outm)).
Proof.
  intros H1 H2 H3 H4. exact (intersection_mut_views_disjoint pfx V _ _ _ _ _ _ _ _ _ LAWS b T pa1 pa2 H1 H2 H3 H4 outm).
Qed.

(** the difference operations borrow only the left view mutably; the right view is read: none of
    the mutable references designates an entry the right view can see *)
Theorem C14_difference_mut_disjoint_views b (T : tree) (pa1 pa2 : path) outm :
  wfu w V b T -> NoDup (ids T) -> ~ prefix_of pa1 pa2 -> ~ prefix_of pa2 pa1 ->
  t_difference_mut w fl V V (subtree T pa1) (subtree T pa2) = Some outm ->
  incl (map slot (dm_refs pfx V V outm)) (ids (subtree T pa1)) /\
  NoDup (map slot (dm_refs pfx V V outm)) /\
  (forall i, In i (map slot (dm_refs pfx V V outm)) -> ~ In i (ids (subtree T pa2))).
Proof.
  intros H1 H2 H3 H4. exact (difference_mut_views_disjoint pfx V _ _ _ _ _ _ _ _ _ LAWS b T pa1 pa2 H1 H2 H3 H4 outm).
Qed.

Theorem C14_covering_difference_mut_disjoint_views b (T : tree) (pa1 pa2 : path) outm :
  wfu w V b T -> NoDup (ids T) -> ~ prefix_of pa1 pa2 -> ~ prefix_of pa2 pa1 ->
  t_covering_difference_mut w fl V V (subtree T pa1) (subtree T pa2) = Some outm ->
  incl (map slot (cdm_refs pfx V outm)) (ids (subtree T pa1)) /\
  NoDup (map slot (cdm_refs pfx V outm)) /\
  (forall i, In i (map slot (cdm_refs pfx V outm)) -> ~ In i (ids (subtree T pa2))).
Proof.
  intros H1 H2 H3 H4. exact (covering_difference_mut_views_disjoint pfx V _ _ _ _ _ _ _ _ _ LAWS b T pa1 pa2 H1 H2 H3 H4 outm).
Qed.

(** * (d) disjoint writes commute; every interleaving equals the sequential result *)

(** two batches of writes through disjoint reference sets commute (any tree, any values) *)
Theorem C14_writes_commute (t : tree) (w1 w2 : list (N * V)) :
  (forall i, In i (map fst w1) -> ~ In i (map fst w2)) ->
  write_ids (write_ids t w1) w2 = write_ids (write_ids t w2) w1.
Proof. exact (write_ids_comm pfx V t w1 w2). Qed.

(** writes through references yielded under two disjoint sub-views commute *)
Theorem C14_subview_writes_commute (T : tree) (pa1 pa2 : path) items1 items2 (g1 g2 : N -> V -> V) :
  NoDup (ids T) -> ~ prefix_of pa1 pa2 -> ~ prefix_of pa2 pa1 ->
  incl items1 (entries_id (subtree T pa1)) -> incl items2 (entries_id (subtree T pa2)) ->
  write_ids (write_ids T (map (fun '(i, _, x) => (i, g1 i x)) items1)) (map (fun '(i, _, x) => (i, g2 i x)) items2)
  = write_ids (write_ids T (map (fun '(i, _, x) => (i, g2 i x)) items2)) (map (fun '(i, _, x) => (i, g1 i x)) items1).
Proof. exact (subtree_writes_commute pfx V T pa1 pa2 items1 items2 g1 g2). Qed.

(** SCHEDULES.  [w1], [w2]: the sequences of single-reference writes of two workers, in each
    worker's program order (a worker may write a slot any number of times); [w]: any
    order-preserving merge of the two ([interleave]) — i.e. any thread interleaving at the
    granularity of one write.  If the workers' slot sets are disjoint, executing [w] write by
    write gives exactly the result of running worker 1 to completion and then worker 2 — and
    of running worker 2 first. *)
Theorem C14_interleaving_sequential (T : tree) (w1 w2 ws : list (N * V)) :
  interleave w1 w2 ws -> (forall i, In i (map fst w1) -> ~ In i (map fst w2)) ->
  fold_left (fun t e => write_ids t [e]) ws T = write_each (write_each T w1) w2 /\
  fold_left (fun t e => write_ids t [e]) ws T = write_each (write_each T w2) w1.
Proof.
  intros Hi Hd. split.
  - exact (interleave_sequential pfx V w1 w2 ws Hi Hd T).
  - exact (interleave_sequential_sym pfx V w1 w2 ws Hi Hd T).
Qed.

(** even an arbitrary reordering is harmless when every slot is written at most once overall *)
Theorem C14_any_order (T : tree) (w1 w2 ws : list (N * V)) :
  NoDup (map fst (w1 ++ w2)) -> Permutation ws (w1 ++ w2) ->
  fold_left (fun t e => write_ids t [e]) ws T = write_ids (write_ids T w1) w2 /\
  write_each T ws = write_each (write_each T w1) w2.
Proof.
  intros Hnd Hp. split.
  - exact (interleaving_irrelevant pfx V T w1 w2 ws Hnd Hp).
  - exact (interleaving_sequential pfx V T w1 w2 ws Hnd Hp).
Qed.

(** THE CONCURRENCY STATEMENT of C14 at the model level.  Split a view of the map; hand views
    derived from the left half to worker 1 and views derived from the right half to worker 2;
    each worker writes (in its own order, any values, any number of times) through references
    its view's traversals yielded.  Whatever the interleaving, the final map is the one obtained
    by running the two workers one after the other, in either order. *)
Theorem C14_split_workers (T : tree) (m ml mr m1 m2 : vmut pfx) (w1 w2 ws : list (N * V)) :
  NoDup (ids T) -> t_vm_split w V T m = (Some ml, Some mr) ->
  derived T ml m1 -> derived T mr m2 ->
  incl (map fst w1) (vm_slots T m1) -> incl (map fst w2) (vm_slots T m2) ->
  interleave w1 w2 ws ->
  fold_left (fun t e => write_ids t [e]) ws T = write_each (write_each T w1) w2 /\
  fold_left (fun t e => write_ids t [e]) ws T = write_each (write_each T w2) w1.
Proof.
  intros Hnd Hs D1 D2 I1 I2 Hi. apply C14_interleaving_sequential; [exact Hi|].
  intros i H1 H2. exact (C14_split_derived_disjoint T m ml mr m1 m2 Hnd Hs D1 D2 i (I1 i H1) (I2 i H2)).
Qed.

(** the structural writes of [TrieViewMut] — [remove] (take the value out), [set], a write
    through [value_mut] — at two views derived from the two halves of a split commute, and
    neither changes what the other view sees *)
Theorem C14_view_writes_commute (T : tree) (m ml mr m1 m2 : vmut pfx) (o1 o2 : vwrite V) :
  t_vm_split w V T m = (Some ml, Some mr) -> derived T ml m1 -> derived T mr m2 ->
  vm_apply pfx V (vm_apply pfx V T m1 o1) m2 o2 = vm_apply pfx V (vm_apply pfx V T m2 o2) m1 o1 /\
  vm_tree (vm_apply pfx V T m1 o1) m2 = vm_tree T m2 /\
  vm_tree (vm_apply pfx V T m2 o2) m1 = vm_tree T m1.
Proof.
  intros Hs D1 D2. destruct (C14_split_derived_incomparable T m ml mr m1 m2 Hs D1 D2) as [H12 H21].
  split; [exact (vm_apply_comm pfx V T m1 m2 o1 o2 H12 H21)|]. split.
  - exact (vm_apply_other pfx V T m1 m2 o1 H12 H21).
  - exact (vm_apply_other pfx V T m2 m1 o2 H21 H12).
Qed.

(** * The two script operations that tie this property to the code ([alias], [par]: SCRIPT.md).
      Their model side is [ParModel.v], extracted and run by the driver ([InstPar.t_*]). *)

(** [alias]: in every reachable state the report the model prints is "all flags true": the
    references of one [iter_mut] are pairwise distinct; the own values of all views of a recursive
    [split()] are pairwise distinct and are exactly the entries; both sides of the four [*_mut]
    set operations over the two halves of the root split are pairwise distinct entries of the
    map (the difference ones avoid the read-only half).  The implementation must print the same
    flags, computed from ADDRESSES. *)
Theorem C14_alias_report (ops : list (hop V)) :
  Forall (hop_ok w V) ops ->
  let T := root (hrun w fl V ops) in
  t_alias_report w fl V T = (length (entries T), true, true, true, true).
Proof.
  intros Hops T.
  apply (alias_report_true_root pfx V _ _ _ _ _ _ _ _ _ LAWS T).
  - exact (reachable_wfm w fl V Hw ops Hops).
  - exact (C14_reachable_distinct_slots ops Hops).
Qed.

(** [par k]: the splitter and the workers write pairwise disjoint slot sets, and EVERY schedule of
    the workers' individual writes — indeed every order of all individual writes — yields the tree
    the model computes by running them one after the other; only values change. *)
Theorem C14_par_schedule_independent (sf : V -> V) (wf : nat -> V -> V) (k : nat) (T : tree) :
  NoDup (ids T) ->
  let ws := snd (t_par_jobs w V sf k T) in
  let W := par_workers pfx V (is_bit_set w) plen pzero wf sf k T in
  NoDup (map fst ws ++ concat (map (map fst) W)) /\
  (forall s, interleaveN W s -> write_each T (ws ++ s) = t_par_result w V wf sf k T) /\
  (forall s, Permutation s (par_writes pfx V (is_bit_set w) plen pzero wf sf k T) ->
             write_each T s = t_par_result w V wf sf k T) /\
  fold_left (fun t w0 => write_ids t w0) W (write_ids T ws) = t_par_result w V wf sf k T /\
  map fst (entries (t_par_result w V wf sf k T)) = map fst (entries T) /\
  ids (t_par_result w V wf sf k T) = ids T /\
  MutTrav.skel pfx V (t_par_result w V wf sf k T) = MutTrav.skel pfx V T.
Proof.
  intros Hnd ws W.
  destruct (par_schedule_independent pfx V (is_bit_set w) plen pzero sf wf k T Hnd) as (A & _ & _ & B & C & D).
  destruct (par_result_frame pfx V (is_bit_set w) plen pzero sf wf k T) as (E & F & G & _).
  repeat split; assumption.
Qed.

(** every entry is written exactly once by [par]: by the splitter (the own entry of a node that
    is split) or by exactly one worker *)
Theorem C14_par_jobs_cover (sf : V -> V) (k : nat) (T : tree) :
  NoDup (ids T) ->
  let jobs := fst (t_par_jobs w V sf k T) in
  let ws := snd (t_par_jobs w V sf k T) in
  forall i p x, In (i, p, x) (entries_id T) ->
    (In (i, sf x) ws /\ forall j, In j jobs -> ~ In i (job_slots pfx V T j))
    \/
    (~ In i (map fst ws) /\
     exists n j, nth_error jobs n = Some j /\ In (i, p, x) (vm_iter_mut T j) /\
       forall n' j', nth_error jobs n' = Some j' -> In i (job_slots pfx V T j') -> n' = n).
Proof. intros Hnd. exact (par_jobs_cover pfx V (is_bit_set w) plen pzero sf k T Hnd). Qed.

(** * The same statements about the ARENA-level transcription (ArenaAlias.v): at the arena level a
      [&mut T] handed out by a traversal is a slot index into the table.  [am] is any arena reachable
      from the empty arena by a history over the whole mutator alphabet, [l] any view location
      obtained from the root by any sequence of navigation calls. *)

(** one mutable traversal of a view ([iter_mut] / [values_mut] / [into_iter]): pairwise distinct
    slots; its projection is the read-only traversal *)
Theorem C14_arena_view_iter_mut (am : Arena.amap pfx V) l : areach pfx V (peq w) (contains w fl) (is_bit_set w) plen (lcp w fl) pzero (okp w) am -> a_vreach pfx V (peq w) (contains w fl) (is_bit_set w) plen (lcp w fl) (okp w) (Arena.tbl am) l ->
  exists items, a_v_iter_mut pfx V (Arena.tbl am) l = Arena.Ok items /\
                a_v_iter pfx V (Arena.tbl am) l = Arena.Ok (map (ArenaWrite.drop3 pfx V) items) /\
                NoDup (map slot items).
Proof. exact (arena_C14_view_iter_mut pfx V _ _ _ _ _ _ _ _ _ LAWS am l). Qed.

(** the two halves of [split()] hand out disjoint slot sets: the concatenation of the two mutable
    traversals contains no slot twice *)
Theorem C14_arena_split (am : Arena.amap pfx V) l l1 l2 : areach pfx V (peq w) (contains w fl) (is_bit_set w) plen (lcp w fl) pzero (okp w) am -> a_vreach pfx V (peq w) (contains w fl) (is_bit_set w) plen (lcp w fl) (okp w) (Arena.tbl am) l ->
  Arena3.a_vm_split pfx V (is_bit_set w) plen (Arena.tbl am) l = Arena.Ok (Some l1, Some l2) ->
  exists i1 i2, a_v_iter_mut pfx V (Arena.tbl am) l1 = Arena.Ok i1 /\ a_v_iter_mut pfx V (Arena.tbl am) l2 = Arena.Ok i2 /\
                NoDup (map slot i1 ++ map slot i2).
Proof. exact (arena_C14_split pfx V _ _ _ _ _ _ _ _ _ LAWS am l l1 l2). Qed.

End C14.

(** non-vacuity (w = 8): the map {00/2 -> 1, 40/2 -> 2, 80/1 -> 3, c0/2 -> 4} with the
    value-less branching node 0/1 (slot 2).  The slots [iter_mut] yields are pairwise distinct;
    splitting the root view gives the views at paths [false] (slots 2,1,3) and [true] (slots
    4,5); a worker on each side writes one entry (slot 3 := 20, slot 5 := 40): both sequential
    orders and an interleaved schedule with a repeated write give the same map. *)
Example C14_example :
  let ins := fun m q (x : nat) => fst (t_insert 8 Generic nat m q x) in
  let m := ins (ins (ins (ins (t_empty nat) (mkpfx 0x00 2) 1%nat) (mkpfx 0x40 2) 2%nat)
                    (mkpfx 0x80 1) 3%nat) (mkpfx 0xc0 2) 4%nat in
  let T := root m in
  let ml := mkvmut pfx [false] None in
  let mr := mkvmut pfx [true] None in
  let w1 := [(3%N, 19%nat); (3%N, 20%nat)] in
  let w2 := [(5%N, 40%nat)] in
  map (fun '(i, _, _) => i) (t_iter_mut_items nat T) = [1; 3; 4; 5]%N /\
  t_vm_split 8 nat T (vm_root pfx) = (Some ml, Some mr) /\
  MutTravExtra.vm_slots pfx nat T ml = [2; 1; 3]%N /\ MutTravExtra.vm_slots pfx nat T mr = [4; 5]%N /\
  map (fun '(i, _, _) => i) (vm_iter_mut T ml) = [1; 3]%N /\
  map (fun '(i, _, _) => i) (vm_iter_mut T mr) = [4; 5]%N /\
  entries (write_ids T [(3%N, 20%nat); (5%N, 40%nat)])
    = [(mkpfx 0x00 2, 1%nat); (mkpfx 0x40 2, 20%nat); (mkpfx 0x80 1, 3%nat); (mkpfx 0xc0 2, 40%nat)] /\
  MutTrav.write_each pfx nat T [(3%N, 19%nat); (5%N, 40%nat); (3%N, 20%nat)]
    = MutTrav.write_each pfx nat (MutTrav.write_each pfx nat T w1) w2 /\
  MutTrav.write_each pfx nat (MutTrav.write_each pfx nat T w1) w2
    = MutTrav.write_each pfx nat (MutTrav.write_each pfx nat T w2) w1 /\
  MutTrav.write_each pfx nat (MutTrav.write_each pfx nat T w1) w2 = write_ids T [(3%N, 20%nat); (5%N, 40%nat)].
Proof. vm_compute. repeat split; reflexivity. Qed.

Print Assumptions C14_alias_report.
Print Assumptions C14_par_schedule_independent.
Print Assumptions C14_par_jobs_cover.
Print Assumptions C14_reachable_distinct_slots.
Print Assumptions C14_iter_mut_distinct.
Print Assumptions C14_iter_mut_distinct_reachable.
Print Assumptions C14_children_mut_distinct.
Print Assumptions C14_view_iter_mut_distinct.
Print Assumptions C14_union_mut_distinct.
Print Assumptions C14_intersection_mut_distinct.
Print Assumptions C14_difference_mut_distinct.
Print Assumptions C14_covering_difference_mut_distinct.
Print Assumptions C14_derived_steps.
Print Assumptions C14_derived_inside.
Print Assumptions C14_split_disjoint.
Print Assumptions C14_split_is_left_right.
Print Assumptions C14_left_right_disjoint.
Print Assumptions C14_split_derived_disjoint.
Print Assumptions C14_split_derived_refs_distinct.
Print Assumptions C14_incomparable_views_disjoint.
Print Assumptions C14_split_derived_incomparable.
Print Assumptions C14_disjoint_view_unaffected.
Print Assumptions C14_union_mut_disjoint_views.
Print Assumptions C14_intersection_mut_disjoint_views.
Print Assumptions C14_difference_mut_disjoint_views.
Print Assumptions C14_covering_difference_mut_disjoint_views.
Print Assumptions C14_writes_commute.
Print Assumptions C14_subview_writes_commute.
Print Assumptions C14_interleaving_sequential.
Print Assumptions C14_any_order.
Print Assumptions C14_split_workers.
Print Assumptions C14_view_writes_commute.
Print Assumptions C14_arena_view_iter_mut.
Print Assumptions C14_arena_split.
