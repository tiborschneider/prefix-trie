(** C03 — every iterator yields each entry exactly once in lexicographic prefix order.

    All full traversals of the crate ([Iter], [IterMut], [IntoIter]; [keys]/[values]/[values_mut]/
    [into_keys]/[into_values] and the set iterators are projections of these) are the one
    explicit-stack loop [iter_expand] (three textual copies in the code: [iter_expand],
    [iter_mut_expand], [into_iter_expand]) run by [Machine.next] / [Machine.run].  The theorems say:
    - for EVERY tree (well-formed or not) the three traversals yield exactly the pre-order list of
      stored entries [entries t] — call by call ([next()] returns the items one at a time) — and
      after the last item every further call returns [None] (fused);
    - in every well-formed tree — hence in every reachable state, whatever insertions, removals
      ([remove], [remove_keep_tree], [remove_children], [retain] ...) produced its shape — that list
      holds no key twice, holds exactly the pairs the exact-match lookup finds, and is strictly
      ascending in the lexicographic order of the keys, which for the concrete prefix type is
      "ascending by masked network address, then by prefix length"; a prefix precedes everything it
      covers and the 0-branch precedes the 1-branch;
    - the sequence is a function of the set of stored pairs alone (shape independence), and a
      function of the iterator's stack value alone (a clone yields the same remaining items).
    Proofs: Lookup2.v (machine = [entries_id]), TrieWf.v (order), IterExtra.v (glue). *)
From Coq Require Import List NArith Sorted.
From PT Require Import Lookup Lookup2 MutTrav IterExtra Arena Arena3 ArenaProps ArenaViews.
From PT.Properties Require Import Common.
Import ListNotations.
Local Open Scope nat_scope.

Section C03.
Variables (w : N) (fl : flavour) (V : Type).
Hypothesis Hw : (1 <= w)%N.
Notation item := (N * pfx * V)%type.
Notation drop := (Inst.drop_id V).
(** the iteration order on entries: lexicographic order of the keys *)
Definition lex_order (e1 e2 : pfx * V) : Prop := lex_lt (ekey w V e1) (ekey w V e2).
(** the same order in the words of the property: masked network address, then prefix length *)
Definition addr_len_order (e1 e2 : pfx * V) : Prop :=
  (pmask w (fst e1) < pmask w (fst e2))%N \/
  (pmask w (fst e1) = pmask w (fst e2) /\ (plen (fst e1) < plen (fst e2))%N).

(** a whole well-formed map is a well-formed subtree under the empty bound *)
Lemma C03_wfm_under (t : tree pfx V) : wfm w V t -> wfu w V [] t.
Proof. exact (wf_root_under pfx V _ _ t). Qed.

(** ** What the traversals yield *)

(** [iter] (also iteration of [&map], [&set], [set.iter()]) run to exhaustion yields exactly the
    stored entries, pre-order; this holds for every tree, no well-formedness needed.  Items carry
    the arena slot (used by [IterMut]); [drop_id] forgets it. *)
Theorem C03_iter (t : tree pfx V) : map drop (t_iter_items V t) = entries t.
Proof. unfold t_iter_items. rewrite iter_items_spec. exact (entries_id_entries pfx V t). Qed.

(** [iter_mut] / [values_mut] and [into_iter] / [into_keys] / [into_values] (separate copies of
    the loop) yield the same items, slots included *)
Theorem C03_iter_mut (t : tree pfx V) : t_iter_mut_items V t = t_iter_items V t.
Proof. exact (iter_mut_items_eq pfx V t). Qed.

Theorem C03_into_iter (t : tree pfx V) : t_into_iter_items V t = t_iter_items V t.
Proof. exact (into_iter_items_eq pfx V t). Qed.

(** [keys] / [into_keys] / the set iterators and [values] / [values_mut] / [into_values] are the
    projections of the items *)
Theorem C03_keys_values (t : tree pfx V) :
  map (fun x => fst (drop x)) (t_iter_items V t) = map fst (entries t) /\
  map (fun x => snd (drop x)) (t_iter_items V t) = map snd (entries t).
Proof. rewrite <- C03_iter, !map_map. split; reflexivity. Qed.

(** call by call: starting from the initial stack (the root), [length (entries t)] successive
    calls of [next()] return the items one by one, and each of the [k] further calls — for every
    [k] — returns [None].  ([n] is the fuel of the inner loop of one [next()] call; any [n] above
    the number of nodes suffices.) *)
Theorem C03_next_sequence (t : tree pfx V) (n k : nat) :
  tsize t < n ->
  pull (tree pfx V) item (iter_expand pfx V) (length (entries t) + k) n (nodes_of [t])
  = map Some (t_iter_items V t) ++ repeat None k.
Proof.
  intros Hn. unfold t_iter_items. rewrite iter_items_spec, (length_entries_id pfx V t).
  apply drains_pull. apply iter_drains. exact Hn.
Qed.

(** the same for the other two copies of the loop *)
Theorem C03_next_sequence_mut (t : tree pfx V) (n k : nat) :
  tsize t < n ->
  pull (tree pfx V) item (iter_mut_expand pfx V) (length (entries t) + k) n (nodes_of [t])
  = map Some (t_iter_mut_items V t) ++ repeat None k.
Proof. rewrite C03_iter_mut. exact (C03_next_sequence t n k). Qed.

Theorem C03_next_sequence_into (t : tree pfx V) (n k : nat) :
  tsize t < n ->
  pull (tree pfx V) item (into_iter_expand pfx V) (length (entries t) + k) n (nodes_of [t])
  = map Some (t_into_iter_items V t) ++ repeat None k.
Proof. rewrite C03_into_iter. exact (C03_next_sequence t n k). Qed.

(** fused: [next()] on the exhausted iterator (empty stack) returns [None] and leaves it exhausted *)
Theorem C03_fused (n : nat) : t_iter_next V n [] = Some (None, []).
Proof. exact (next_nil (tree pfx V) item (iter_expand pfx V) n). Qed.

(** a clone of an iterator is a copy of its stack; the remaining items are a function of the stack
    value, so the clone and the original yield the same sequence, at any point of the traversal *)
Theorem C03_clone (n : nat) (st : list (tree pfx V)) (o1 o2 : list item) :
  drains (tree pfx V) item (iter_expand pfx V) n st o1 ->
  drains (tree pfx V) item (iter_expand pfx V) n st o2 -> o1 = o2.
Proof. exact (drains_fun (tree pfx V) item (iter_expand pfx V) n st o1 o2). Qed.

(** ** Every stored entry exactly once and nothing else *)

(** the yielded list holds exactly the pairs found by the exact-match lookup (with the stored
    representation of the prefix) ... *)
Theorem C03_stored_iff_lookup (t : tree pfx V) (p : pfx) (x : V) :
  wfm w V t ->
  (In (p, x) (entries t) <-> okp w p /\ t_get_key_value w fl V t p = Some (p, x)).
Proof.
  intros Hwf.
  pose proof (get_key_value_spec_root pfx V _ _ _ _ _ _ _ _ _ (laws w fl Hw) t p p x Hwf) as G.
  split.
  - intros Hin. pose proof (entries_ok pfx V _ _ [] t (p, x) (C03_wfm_under t Hwf) Hin) as Hp.
    split; [exact Hp|]. apply (G Hp). split; [exact Hin | reflexivity].
  - intros [Hp H]. apply (G Hp). exact H.
Qed.

(** ... and no key — hence no entry — twice *)
Theorem C03_exactly_once (t : tree pfx V) :
  wfm w V t -> NoDup (map (ekey w V) (entries t)) /\ NoDup (entries t).
Proof.
  intros Hwf. pose proof (TrieWf.wf_root_sorted pfx V (kbits w) (okp w) t Hwf) as Hs. split.
  - exact (sorted_nodup_keys pfx V (kbits w) _ Hs).
  - exact (sorted_nodup pfx V (kbits w) _ Hs).
Qed.

(** ** The order *)

(** strictly ascending in the lexicographic order of the keys *)
Theorem C03_sorted_lex (t : tree pfx V) : wfm w V t -> StronglySorted lex_order (entries t).
Proof. exact (TrieWf.wf_root_sorted pfx V (kbits w) (okp w) t). Qed.

(** the lexicographic order IS "ascending by network address, then by prefix length", for all
    valid prefixes of the concrete type (addresses compared after masking the host bits) *)
Theorem C03_lex_is_addr_len (a b : pfx) :
  okp w a -> okp w b ->
  (lex_lt (kbits w a) (kbits w b) <->
   (pmask w a < pmask w b)%N \/ (pmask w a = pmask w b /\ (plen a < plen b)%N)).
Proof. exact (lex_lt_numeric w a b). Qed.

(** hence: strictly ascending by network address and, for equal addresses, by prefix length *)
Theorem C03_sorted_addr_len (t : tree pfx V) : wfm w V t -> StronglySorted addr_len_order (entries t).
Proof.
  intros Hwf. pose proof (C03_wfm_under t Hwf) as Hu.
  apply (StronglySorted_impl_in _ lex_order); [|apply C03_sorted_lex; exact Hwf].
  intros a b Ha Hb H. unfold addr_len_order. apply C03_lex_is_addr_len; [| |exact H].
  - exact (entries_ok pfx V (kbits w) (okp w) [] t a Hu Ha).
  - exact (entries_ok pfx V (kbits w) (okp w) [] t b Hu Hb).
Qed.

(** a prefix precedes everything it covers; the 0-branch precedes the 1-branch *)
Theorem C03_prefix_precedes (a b : list bool) : prefix_of a b -> a <> b -> lex_lt a b.
Proof. exact (lex_lt_prefix a b). Qed.

Theorem C03_zero_branch_precedes (k a b : list bool) :
  prefix_of (k ++ [false]) a -> prefix_of (k ++ [true]) b -> lex_lt a b.
Proof. exact (lex_lt_branches k a b). Qed.

(** "precedes" is about positions in the yielded sequence: of two stored entries the
    lexicographically smaller one is yielded first *)
Theorem C03_yielded_before (t : tree pfx V) (e1 e2 : pfx * V) :
  wfm w V t -> In e1 (entries t) -> In e2 (entries t) -> lex_order e1 e2 ->
  exists l1 l2 l3, entries t = l1 ++ e1 :: l2 ++ e2 :: l3.
Proof.
  intros Hwf H1 H2 H. apply (sorted_before _ lex_order); try assumption.
  - intros x. apply lex_lt_irrefl.
  - intros x y z. apply lex_lt_trans.
  - apply C03_sorted_lex. exact Hwf.
Qed.

(** ... in particular a stored prefix is yielded before every stored entry it (properly) covers *)
Theorem C03_cover_yielded_first (t : tree pfx V) (e1 e2 : pfx * V) :
  wfm w V t -> In e1 (entries t) -> In e2 (entries t) ->
  prefix_of (ekey w V e1) (ekey w V e2) -> ekey w V e1 <> ekey w V e2 ->
  exists l1 l2 l3, entries t = l1 ++ e1 :: l2 ++ e2 :: l3.
Proof.
  intros Hwf H1 H2 Hc Hne. apply C03_yielded_before; try assumption.
  apply lex_lt_prefix; assumption.
Qed.

(** ** Independence of insertion order, removals and tree shape *)

(** two well-formed trees storing the same set of (prefix, value) pairs yield the same sequence,
    whatever their shapes (value-less leftovers, branching nodes, slot numbers) *)
Theorem C03_shape_independent (t1 t2 : tree pfx V) :
  wfm w V t1 -> wfm w V t2 ->
  (forall e, In e (entries t1) <-> In e (entries t2)) ->
  map drop (t_iter_items V t1) = map drop (t_iter_items V t2).
Proof.
  intros H1 H2 H. rewrite !C03_iter.
  apply (sorted_ext pfx V (kbits w)); [apply C03_sorted_lex; exact H1 | apply C03_sorted_lex; exact H2 | exact H].
Qed.

(** all of the above in every state reachable by a history of public mutating calls *)
Theorem C03_reachable (ops : list (hop V)) :
  Forall (hop_ok w V) ops ->
  let t := root (hrun w fl V ops) in
  map drop (t_iter_items V t) = entries t /\
  t_iter_mut_items V t = t_iter_items V t /\ t_into_iter_items V t = t_iter_items V t /\
  NoDup (map (ekey w V) (entries t)) /\
  StronglySorted lex_order (entries t) /\ StronglySorted addr_len_order (entries t).
Proof.
  intros Hops t. pose proof (reachable_wfm w fl V Hw ops Hops) as Hwf. fold t in Hwf.
  split; [apply C03_iter|]. split; [apply C03_iter_mut|]. split; [apply C03_into_iter|].
  split; [exact (proj1 (C03_exactly_once t Hwf))|].
  split; [apply C03_sorted_lex; exact Hwf | apply C03_sorted_addr_len; exact Hwf].
Qed.

(* ---------------------------------------------------------------------------------------- *)
(** * The same statement about the ARENA-level transcription of the code (Arena*.v): [Iter] over the
      table of any arena reachable from the empty arena by a history over the whole mutator alphabet,
      started at the root ([PrefixMap::iter]) or at any location reachable by view navigation
      ([TrieView::iter], [TrieViewMut::iter_mut]; ArenaViews.v), returns [Ok] (no panic; the fuel
      [S (length table)] suffices) of a list that is strictly ascending in the lexicographic order of
      the keys and contains no key twice. *)
Theorem C03_arena (am : Arena.amap pfx V) :
  areach pfx V (peq w) (contains w fl) (is_bit_set w) plen (lcp w fl) pzero (okp w) am ->
  exists es, Arena.a_entries pfx V am = Arena.Ok es /\ StronglySorted (TrieWf.key_lt pfx V (kbits w)) es /\
             NoDup (map (ekey w V) es).
Proof.
  intros H. destruct (arena_C01_entries pfx V _ _ _ _ _ _ _ _ _ (laws w fl Hw) am H) as (es & E & S & N & _).
  exists es. auto.
Qed.

Theorem C03_arena_views (am : Arena.amap pfx V) l :
  areach pfx V (peq w) (contains w fl) (is_bit_set w) plen (lcp w fl) pzero (okp w) am ->
  a_vreach pfx V (peq w) (contains w fl) (is_bit_set w) plen (lcp w fl) (okp w) (Arena.tbl am) l ->
  exists es, a_v_iter pfx V (Arena.tbl am) l = Arena.Ok es /\ StronglySorted (TrieWf.key_lt pfx V (kbits w)) es /\
             NoDup (map (ekey w V) es).
Proof. exact (arena_C03_view_iter pfx V _ _ _ _ _ _ _ _ _ (laws w fl Hw) am l). Qed.

End C03.

(** non-vacuity: a reachable state with a value-less leftover (128/1 after [remove_keep_tree]),
    a value-less branching node (0/1 above 32/3 and 71/2), the zero-length prefix and host bits
    (71/2); the iterator yields the five stored entries in lexicographic order and then keeps
    returning [None] *)
Example C03_example :
  let ins m p x := fst (t_insert 8 Generic nat m p x) in
  let m1 := ins (ins (ins (ins (ins (ins (t_empty nat) (mkpfx 0xc0 2) 2) (mkpfx 0x80 1) 1)
                  (mkpfx 0x47 2) 3) (mkpfx 0 0) 0) (mkpfx 0xe0 3) 4) (mkpfx 0x20 3) 5 in
  let m := fst (t_remove_keep_tree 8 Generic nat m1 (mkpfx 0x80 1)) in
  map (Inst.drop_id nat) (t_iter_items nat (root m))
    = [(mkpfx 0 0, 0); (mkpfx 0x20 3, 5); (mkpfx 0x47 2, 3); (mkpfx 0xc0 2, 2); (mkpfx 0xe0 3, 4)] /\
  map (option_map (Inst.drop_id nat))
      (pull _ _ (iter_expand pfx nat) 7 (S (tsize (root m))) (nodes_of [root m]))
    = [Some (mkpfx 0 0, 0); Some (mkpfx 0x20 3, 5); Some (mkpfx 0x47 2, 3); Some (mkpfx 0xc0 2, 2);
       Some (mkpfx 0xe0 3, 4); None; None] /\
  t_get 8 Generic nat (root m) (mkpfx 0x80 1) = None /\
  tsize (root m) = 7.
Proof. vm_compute. repeat split; reflexivity. Qed.

Print Assumptions C03_wfm_under.
Print Assumptions C03_iter.
Print Assumptions C03_iter_mut.
Print Assumptions C03_into_iter.
Print Assumptions C03_keys_values.
Print Assumptions C03_next_sequence.
Print Assumptions C03_next_sequence_mut.
Print Assumptions C03_next_sequence_into.
Print Assumptions C03_fused.
Print Assumptions C03_clone.
Print Assumptions C03_stored_iff_lookup.
Print Assumptions C03_exactly_once.
Print Assumptions C03_sorted_lex.
Print Assumptions C03_lex_is_addr_len.
Print Assumptions C03_sorted_addr_len.
Print Assumptions C03_prefix_precedes.
Print Assumptions C03_zero_branch_precedes.
Print Assumptions C03_yielded_before.
Print Assumptions C03_cover_yielded_first.
Print Assumptions C03_shape_independent.
Print Assumptions C03_reachable.
Print Assumptions C03_arena.
Print Assumptions C03_arena_views.
