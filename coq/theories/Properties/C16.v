(** C16 — removed nodes are reclaimed: storage stays bounded under churn.

    State of the model: [root m] (every node carries the arena slot it lives in: [Slots.ids]),
    the free list [free (al m)] and the arena length [alen (al m)].  [nnodes t] = number of nodes of
    the tree.  Histories are over the FULL alphabet [History.op] (insert, Entry API, remove,
    remove_keep_tree, remove_children, retain with any closure incl. a panicking one, clear,
    collect, mutable traversals, mutable views); the slot theorems need NO hypothesis on the
    arguments of the operations.

    - [C16_slots_ok], [C16_partition]: in every reachable state the slots of the tree together with
      the free list are a permutation of [0 .. alen-1]: every slot ever allocated is in the tree or
      in the free list, never both (disjoint, no duplicates on either side), never neither.
    - [C16_reuse_before_grow], [C16_reuse_free_slots], [C16_reused_slots], [C16_step_alen]: an
      operation grows the arena only if the tree needs more nodes than the arena has slots — i.e.
      only once the free list is used up; the new nodes live in slots taken from the free list.
    - [C16_storage_bounded], [C16_high_water], [C16_high_water_since_reset]: the arena length after
      ANY history is at most the largest number of nodes alive at one time, and exactly that number
      counted since the last clear / remove_children(zero-length prefix) / collect (which shrink the
      arena to the nodes alive) — however many insert/remove, remove_children or retain cycles.
    - [C16_emptied_by_remove]: over insert / Entry API / remove / retain / clear / collect, a map
      with no entries consists of the root node alone, like a new map; [C16_nodes_linear],
      [C16_churn_bound]: such a map of [n] entries has at most [2n+1] nodes, so a history that never
      holds more than [B] entries never uses more than [2B+1] slots.
      (After remove_keep_tree / remove_children value-less leftovers may remain — that is their
      contract — so this clause is about the smaller alphabet [History.canon_op].) *)
From Coq Require Import List NArith ZArith Bool Lia Permutation.
From PT Require Import Slots Canon History HistoryExtra Arena ArenaThm Arena2 Arena2Thm InstArena.
From PT.Properties Require Import Common.
Import ListNotations.

Section C16.
Variables (w : N) (fl : flavour) (V : Type).

Notation hrun := (hrun w fl V).
Notation hop := (hop V).
Notation ids := (Slots.ids pfx V).
Notation nnodes := (Slots.nnodes pfx V).
Notation slots_ok := (Slots.slots_ok pfx V).
Notation minv := (Slots.minv pfx V).
Notation canon_op := (History.canon_op pfx V).
Notation step := (History.step pfx V (peq w) (contains w fl) (is_bit_set w) plen (lcp w fl) pzero).
Notation is_reset := (HistoryExtra.is_reset pfx V plen).
Notation hpeak := (HistoryExtra.hpeak pfx V (peq w) (contains w fl) (is_bit_set w) plen (lcp w fl) pzero).
Notation empty := (Trie.empty pfx V pzero).

(** every reachable state: the slots of the tree and the free list partition [0 .. alen-1] *)
Theorem C16_slots_ok (ops : list hop) :
  Permutation (ids (root (hrun ops)) ++ free (al (hrun ops))) (seqN (alen (al (hrun ops)))).
Proof. exact (reachable_minv pfx V _ _ _ _ _ _ ops). Qed.

(** spelled out: no slot is used by two nodes; no slot is free twice; no slot is both in the tree
    and free ("never both"); a number is a slot of the tree or a free slot exactly when it is below
    the arena length ("never neither", and nothing out of range) *)
Theorem C16_partition (ops : list hop) :
  let m := hrun ops in
  NoDup (ids (root m)) /\ NoDup (free (al m)) /\
  (forall i, In i (ids (root m)) -> ~ In i (free (al m))) /\
  (forall i, (i < alen (al m))%N <-> In i (ids (root m)) \/ In i (free (al m))) /\
  alen (al m) = (nnodes (root m) + N.of_nat (length (free (al m))))%N.
Proof.
  exact (minv_partition pfx V (peq w) (contains w fl) (is_bit_set w) plen (lcp w fl) pzero (hrun ops)
           (C16_slots_ok ops)).
Qed.

(** the next insertion reuses freed slots before growing: as long as the tree after the insertion
    fits into the arena, the arena does not grow *)
Theorem C16_reuse_before_grow (ops : list hop) (q : pfx) (x : V) :
  let m := hrun ops in let m' := hrun (ops ++ [OInsert pfx V q x]) in
  (nnodes (root m') <= alen (al m))%N -> alen (al m') = alen (al m).
Proof.
  cbv zeta. unfold Common.hrun. rewrite run_snoc. cbn [History.step].
  apply (reuse_before_grow pfx V _ _ _ _ _ pzero). exact (C16_slots_ok ops).
Qed.

(** ... in particular whenever the free list holds as many slots as the insertion needs nodes *)
Theorem C16_reuse_free_slots (ops : list hop) (q : pfx) (x : V) :
  let m := hrun ops in let m' := hrun (ops ++ [OInsert pfx V q x]) in
  (nnodes (root m') <= nnodes (root m) + N.of_nat (length (free (al m))))%N ->
  alen (al m') = alen (al m).
Proof.
  cbv zeta. unfold Common.hrun. rewrite run_snoc. cbn [History.step].
  apply (reuse_free_slots pfx V _ _ _ _ _ pzero). exact (C16_slots_ok ops).
Qed.

(** ... and then (for ANY operation that leaves the arena length alone) every node of the new tree
    lives in a slot of the old tree or in a slot taken from the old free list *)
Theorem C16_reused_slots (ops : list hop) (o : hop) :
  let m := hrun ops in let m' := hrun (ops ++ [o]) in
  alen (al m') = alen (al m) ->
  forall i, In i (ids (root m')) -> In i (ids (root m)) \/ In i (free (al m)).
Proof.
  cbv zeta. intros E.
  exact (no_growth_reuses pfx V (peq w) (contains w fl) (is_bit_set w) plen (lcp w fl) pzero _ _
           (C16_slots_ok ops) (C16_slots_ok (ops ++ [o])) E).
Qed.

(** one step of ANY operation from a reachable state: clear, remove_children of the zero-length
    prefix and collect shrink the arena to the nodes alive; every other operation (insert, Entry
    API, remove, remove_keep_tree, remove_children, retain, traversals, views) leaves the arena
    length alone unless the tree now has more nodes than the arena had slots *)
Theorem C16_step_alen (ops : list hop) (o : hop) :
  let m := hrun ops in let m' := hrun (ops ++ [o]) in
  alen (al m') = if is_reset o then nnodes (root m') else N.max (alen (al m)) (nnodes (root m')).
Proof.
  cbv zeta. unfold Common.hrun. rewrite run_snoc.
  apply step_alen. exact (C16_slots_ok ops).
Qed.

(** STORAGE BOUND, any history over the full alphabet, of any length: if no state visited has
    more than [B] nodes, the arena never has more than [B] slots *)
Theorem C16_storage_bounded (ops : list hop) (B : N) :
  (forall k, (nnodes (root (hrun (firstn k ops))) <= B)%N) -> (alen (al (hrun ops)) <= B)%N.
Proof.
  intros H. eapply N.le_trans; [apply reachable_high_water_bound | apply hpeak_le; exact H].
Qed.

(** [hpeak ops m]: the largest number of nodes of any state visited by [ops] started in [m] *)
Theorem C16_hpeak_unfold (o : hop) (ops : list hop) (m : pmap pfx V) :
  hpeak [] m = nnodes (root m) /\
  hpeak (o :: ops) m = N.max (nnodes (root m)) (hpeak ops (step m o)).
Proof. split; reflexivity. Qed.

(** EXACT: without a resetting operation the arena length IS the high-water mark of the number of
    nodes alive at one time *)
Theorem C16_high_water (ops : list hop) :
  forallb (fun o => negb (is_reset o)) ops = true -> alen (al (hrun ops)) = hpeak ops empty.
Proof. exact (reachable_high_water pfx V _ _ _ _ _ _ ops). Qed.

(** ... and with resetting operations, the high-water mark since the last of them *)
Theorem C16_high_water_since_reset (ops1 : list hop) (o : hop) (ops2 : list hop) :
  is_reset o = true -> forallb (fun o => negb (is_reset o)) ops2 = true ->
  alen (al (hrun (ops1 ++ o :: ops2))) = hpeak ops2 (hrun (ops1 ++ [o])).
Proof. exact (reachable_high_water_since_reset pfx V _ _ _ _ _ _ ops1 o ops2). Qed.

(** a map emptied by remove (or retain) needs no more nodes than a new one: over the insert /
    Entry API / remove / retain / clear / collect alphabet, a state without entries is the bare
    root; all other slots are in the free list *)
Theorem C16_emptied_by_remove (ops : list hop) :
  forallb canon_op ops = true -> entries (root (hrun ops)) = [] ->
  (exists i p, root (hrun ops) = Node i p None Leaf Leaf) /\
  nnodes (root (hrun ops)) = nnodes (root empty) /\ nnodes (root (hrun ops)) = 1%N /\
  N.of_nat (length (free (al (hrun ops)))) = (alen (al (hrun ops)) - 1)%N.
Proof.
  intros Hc E. pose proof (reachable_canonical pfx V _ _ _ _ _ _ ops Hc : Canon.canonical pfx V (root (hrun ops))) as C.
  pose proof (canonical_empty_nnodes pfx V _ C E) as N1.
  destruct (C16_partition ops) as (_ & _ & _ & _ & A). cbv zeta in A. unfold Common.hrun in *.
  split; [exact (canonical_empty_root pfx V _ C E)|]. split; [rewrite N1; reflexivity|]. split; [exact N1|]. lia.
Qed.

(** over that alphabet a map of [n] entries has at most [2n + 1] nodes *)
Theorem C16_nodes_linear (ops : list hop) :
  forallb canon_op ops = true ->
  (nnodes (root (hrun ops)) <= 2 * N.of_nat (length (entries (root (hrun ops)))) + 1)%N.
Proof.
  intros Hc. apply canonical_nodes. exact (reachable_canonical pfx V _ _ _ _ _ _ ops Hc).
Qed.

(** hence bounded churn: a history (of any length) over that alphabet that never holds more than
    [B] entries at a time never uses more than [2B + 1] slots *)
Theorem C16_churn_bound (ops : list hop) (B : nat) :
  forallb canon_op ops = true ->
  (forall k, (length (entries (root (hrun (firstn k ops)))) <= B)%nat) ->
  (alen (al (hrun ops)) <= 2 * N.of_nat B + 1)%N.
Proof. exact (canon_churn_bound pfx V _ _ _ _ _ _ ops B). Qed.

(** * The same at the level of the ARENA (Arena.v, Arena2.v: a transcription of src/inner.rs, of
      every mutator and lookup of src/map/mod.rs — insert, new_node, remove, _remove_node,
      remove_keep_tree, remove_children, _do_remove_children, retain, _retain, clear —, of the Entry
      insertions / OccupiedEntry writes of src/map/entry.rs, of get_mut and of the TrieViewMut writes
      over a vector of nodes with index links, where a slot linked twice, linked while free, a
      dangling or out-of-bounds link CAN be expressed; ArenaThm.v / Arena2Thm.v prove that it refines
      the tree model).  In every arena state reachable from the empty map by ANY history over that
      alphabet ([aop2]; retain with any closure, panicking ones included): every live slot exists,
      every link is in bounds, no live slot is on the free list, no slot is linked from two places,
      slot 0 is never a link target, and a slot below the arena length is live or free. *)
Lemma peq_len_N (p q : pfx) : peq w p q = true -> plen p = plen q.
Proof. exact (peqN_len w p q). Qed.

Theorem C16_arena_structure (am : amap pfx V) :
  reachable2 pfx V (peq w) (contains w fl) (is_bit_set w) plen (lcp w fl) pzero am ->
  (forall i, live pfx V (tbl am) i -> exists n, slot pfx V (tbl am) i = Some n) /\
  (forall i rt j, live pfx V (tbl am) i -> edge pfx V (tbl am) i rt j -> (j < N.of_nat (length (tbl am)))%N) /\
  (forall i, live pfx V (tbl am) i -> ~ In i (afree am)) /\
  (forall i1 rt1 i2 rt2 j, live pfx V (tbl am) i1 -> live pfx V (tbl am) i2 ->
     edge pfx V (tbl am) i1 rt1 j -> edge pfx V (tbl am) i2 rt2 j -> i1 = i2 /\ rt1 = rt2) /\
  (forall i rt, live pfx V (tbl am) i -> ~ edge pfx V (tbl am) i rt 0%N) /\
  (forall i, (i < N.of_nat (length (tbl am)))%N <-> (live pfx V (tbl am) i \/ In i (afree am))).
Proof. exact (reachable_structure2 pfx V (peq w) (contains w fl) (is_bit_set w) plen (lcp w fl) pzero peq_len_N eq_refl am). Qed.

(** the arena run of a history represents the tree run (same slots, same free list in the same
    order, same length, same counter), so the tree-level statements above are statements about
    the arena; this is also what the `arenax` lines of the correspondence check compare, slot by
    slot, with the implementation's arena *)
Theorem C16_arena_refines (ops : list (aop2 pfx V)) :
  exists am, a_run2 pfx V (peq w) (contains w fl) (is_bit_set w) plen (lcp w fl) pzero ops = Ok am /\
             Rep pfx V am (t_run2 pfx V (peq w) (contains w fl) (is_bit_set w) plen (lcp w fl) pzero ops) /\ Slots.minv pfx V (t_run2 pfx V (peq w) (contains w fl) (is_bit_set w) plen (lcp w fl) pzero ops).
Proof. exact (run_sim2_N V w fl ops). Qed.

End C16.

(** non-vacuity (w = 8): ten insert/remove cycles over a working set of three keys (with a
    NewBranch placement, i.e. two nodes per insertion), then remove_children and retain cycles: the
    arena length stays at the high-water mark 5; the free list is reused; the emptied map is the
    bare root with all four other slots free. *)
Example C16_example :
  let cyc : list (hop nat) :=
    [OInsert pfx nat (mkpfx 0x80 2) 1%nat; OInsert pfx nat (mkpfx 0xc0 2) 2%nat;
     OInsert pfx nat (mkpfx 0x20 3) 3%nat;
     ORemove pfx nat (mkpfx 0xc0 2); ORemove pfx nat (mkpfx 0x20 3); ORemove pfx nat (mkpfx 0x80 2)] in
  let cyc2 : list (hop nat) :=
    [OInsert pfx nat (mkpfx 0x80 2) 1%nat; OInsert pfx nat (mkpfx 0xc0 2) 2%nat;
     OInsert pfx nat (mkpfx 0x20 3) 3%nat; ORemoveChildren pfx nat (mkpfx 0x80 1);
     ORetain pfx nat (fun _ _ _ => Some false)] in
  let ops := cyc ++ cyc ++ cyc ++ cyc ++ cyc ++ cyc ++ cyc ++ cyc ++ cyc ++ cyc ++ cyc2 ++ cyc2 in
  let m := hrun 8 Generic nat ops in
  alen (al m) = 5%N /\ Slots.nnodes pfx nat (root m) = 1%N /\ length (free (al m)) = 4%nat /\
  entries (root m) = [] /\
  HistoryExtra.hpeak pfx nat (peq 8) (contains 8 Generic) (is_bit_set 8) plen (lcp 8 Generic) pzero
    ops (Trie.empty pfx nat pzero) = 5%N /\
  let m3 := hrun 8 Generic nat (firstn 3 ops) in
  let m5 := hrun 8 Generic nat (firstn 5 ops) in
  let m8 := hrun 8 Generic nat (firstn 8 ops) in
  (Slots.ids pfx nat (root m3), free (al m3), alen (al m3)) = ([0; 4; 2; 1; 3], [], 5)%N /\
  (Slots.ids pfx nat (root m5), free (al m5), alen (al m5)) = ([0; 1], [4; 2; 3], 5)%N /\
  (Slots.ids pfx nat (root m8), free (al m8), alen (al m8)) = ([0; 4; 1; 2], [3], 5)%N.
Proof. vm_compute. repeat split; reflexivity. Qed.

Print Assumptions C16_slots_ok.
Print Assumptions C16_partition.
Print Assumptions C16_reuse_before_grow.
Print Assumptions C16_reuse_free_slots.
Print Assumptions C16_reused_slots.
Print Assumptions C16_step_alen.
Print Assumptions C16_storage_bounded.
Print Assumptions C16_hpeak_unfold.
Print Assumptions C16_high_water.
Print Assumptions C16_high_water_since_reset.
Print Assumptions C16_emptied_by_remove.
Print Assumptions C16_nodes_linear.
Print Assumptions C16_churn_bound.
Print Assumptions C16_arena_structure.
Print Assumptions C16_arena_refines.
Print Assumptions peq_len_N.
