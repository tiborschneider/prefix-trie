(** C13 — Mutable traversals mirror the read-only ones, and writes land exactly there.

    In the model every item a traversal yields carries the arena slot [N] of its node; a mutable
    traversal "hands out the reference" to that slot, and a client that holds any set of such
    references and writes through them is [write_ids t ws] ([ws] = the (slot, new value) pairs).
    The mutable traversals are SEPARATE transcriptions of the Rust loops ([iter_mut_items],
    [children_mut], [lpmm_walk], [find_walk_m] ..., [um_expand], [im_expand], [dm_expand],
    [cdm_expand]), so every "mirrors" statement below is a theorem, not a definition.

    (a) [C13_*_mirrors]: each mutable traversal yields the same prefixes and current values, in
        the same order, as its read-only twin.
    (b) [C13_*_refs]: what each mutable traversal yields is a list of references to entries of
        the map ([refs_of]).  [C13_write_*]: for ANY sub-collection of such references held at
        once and ANY values (a function of the slot, so pairwise distinct values are allowed),
        the write changes the value of exactly the designated entries, keeps every other entry,
        the sequence of stored prefixes, the slots, the shape of the tree and well-formedness,
        and is seen by every later read ([iter], [get], [get_key_value], [get_lpm]).
    All statements hold for every width [w >= 1], flavour, value type, and every tree with
    pairwise distinct slots — in particular ([C13_reachable]) every state reachable by a
    history of public mutating calls. *)
From Coq Require Import List NArith Bool.
From PT Require Import Lookup Lookup2 ViewsThm Slots MutTrav MutTravExtra UnionThm InterDiffThm Arena Arena3 ArenaProps ArenaWrite.
From PT.Properties Require Import Common.
Import ListNotations.

Section C13.
Variables (w : N) (fl : flavour) (V R : Type).
Hypothesis Hw : (1 <= w)%N.
Notation tree := (Trie.tree pfx V).
Notation ids := (Slots.ids pfx V).
Notation slot := (MutTrav.slot3 pfx V).
Notation skel := (MutTrav.skel pfx V).
Notation LAWS := (laws w fl Hw).
Notation newval := (MutTravExtra.newval V).

(** every reachable state is well formed and has pairwise distinct slots: the two premises used
    below *)
Theorem C13_reachable (ops : list (hop V)) :
  Forall (hop_ok w V) ops ->
  wfm w V (root (hrun w fl V ops)) /\ NoDup (ids (root (hrun w fl V ops))).
Proof.
  intros H. split; [exact (reachable_wfm w fl V Hw ops H)|].
  exact (reachable_nodup pfx V _ _ _ _ _ _ _ _ _ LAWS ops H).
Qed.

(* ------------------------------------------------------------------------------------------ *)
(** * (a) the mutable traversals mirror the read-only ones *)

(** [iter_mut] = [iter] (same slots, prefixes, values, order); both yield the entry list *)
Theorem C13_iter_mut_mirrors (t : tree) : t_iter_mut_items V t = t_iter_items V t.
Proof. exact (iter_mut_items_eq pfx V t). Qed.

Theorem C13_iter_yields_entries (t : tree) :
  t_iter_items V t = entries_id t /\ map (fun '(_, p, x) => (p, x)) (entries_id t) = entries t.
Proof. split; [exact (iter_items_spec pfx V t) | exact (entries_id_entries pfx V t)]. Qed.

(** [values_mut] = [values] *)
Theorem C13_values_mut_mirrors (t : tree) :
  map (fun '(_, _, x) => x) (t_iter_mut_items V t) = map snd (entries t).
Proof.
  unfold t_iter_mut_items. rewrite (iter_mut_items_spec pfx V t), <- (entries_id_entries pfx V t), map_map.
  apply map_ext. intros [[i p] x]. reflexivity.
Qed.

(** [into_iter] (the third copy of the loop) *)
Theorem C13_into_iter_mirrors (t : tree) : t_into_iter_items V t = t_iter_items V t.
Proof. exact (into_iter_items_eq pfx V t). Qed.

(** [children_mut] = [children], [into_children] = [children] *)
Theorem C13_children_mut_mirrors (t : tree) (q : pfx) :
  t_children_mut w fl V t q = t_children w fl V t q.
Proof. exact (children_mut_eq pfx V _ _ _ _ t q). Qed.

Theorem C13_into_children_mirrors (t : tree) (q : pfx) :
  t_into_children w fl V t q = t_children w fl V t q.
Proof. exact (into_children_eq pfx V _ _ _ _ t q). Qed.

(** [get_mut]: the reference designates the entry [get] reads.  ([get] is the value of the node
    the shared descent [get_node] reaches; the descent of the write, [modify], is a separate
    recursion — that it reaches the same node is [C13_get_mut_write] below.) *)
Theorem C13_get_mut_mirrors (t : tree) (q : pfx) i p x :
  t_get_node w fl V t q = Some (i, p, Some x) ->
  t_get w fl V t q = Some x /\ In (i, p, x) (entries_id t).
Proof.
  intros H. split; [unfold t_get, Trie.get; fold (t_get_node w fl V); rewrite H; reflexivity|].
  exact (get_node_item pfx V _ _ _ _ t q i p x H).
Qed.

(** [get_lpm_mut] (its own loop) designates the entry [get_lpm] returns *)
Theorem C13_get_lpm_mut_mirrors (t : tree) (q : pfx) :
  option_map (fun '(_, p, x) => (p, x)) (t_get_lpm_mut w fl V t q) = t_get_lpm w fl V t q.
Proof. exact (get_lpm_mut_eq pfx V _ _ _ _ t q). Qed.

(** the view's [iter_mut] / [values_mut] / [into_iter] = the read-only view's [iter] *)
Theorem C13_view_iter_mut_mirrors (T : tree) (m : vmut pfx) :
  vm_iter_mut T m = v_iter (vm_view T m).
Proof. exact (vm_iter_mut_sim pfx V T m). Qed.

(** the view's [value_mut] / [prefix_value_mut] hand out what [value] / [prefix_value] read *)
Theorem C13_view_value_mut_mirrors (T : tree) (m : vmut pfx) (g : V -> V) :
  snd (vm_value_mut T m g) = v_prefix_value (vm_view T m) /\
  vm_value T m = v_value (vm_view T m) /\
  option_map snd (v_prefix_value (vm_view T m)) = v_value (vm_view T m).
Proof.
  split; [exact (vm_value_mut_sim pfx V T m g)|]. split; [exact (vm_value_sim pfx V T m)|].
  unfold vm_view. destruct (mvirt pfx m); [reflexivity|]. cbn [v_prefix_value v_value].
  destruct (vm_tree T m) as [|i p [x|] l r]; reflexivity.
Qed.

(** [union_mut] yields, item by item, what [union] yields (without the LPM annotations, which
    only the read-only iterator computes), plus the slots *)
Theorem C13_union_mut_mirrors ba bb (ta : tree) (tb : Trie.tree pfx R) :
  wfu w V ba ta -> wfu w R bb tb ->
  exists out outm, t_union w fl V R ta tb = Some out /\ t_union_mut w fl V R ta tb = Some outm /\
    map (fun it => match it with
                   | ILeft _ _ _ p l _ => (p, Some l, None)
                   | IRight _ _ _ p _ r => (p, None, Some r)
                   | IBoth _ _ _ p l r => (p, Some l, Some r)
                   end) out
    = map (fun '(p, l, r) => (p, option_map snd l, option_map snd r)) outm.
Proof. exact (union_mut_mirrors pfx V R _ _ _ _ _ _ _ _ _ LAWS ba bb ta tb). Qed.

Theorem C13_intersection_mut_mirrors ba bb (ta : tree) (tb : Trie.tree pfx R) :
  wfu w V ba ta -> wfu w R bb tb ->
  exists out outm, t_intersection w fl V R ta tb = Some out /\ t_intersection_mut w fl V R ta tb = Some outm /\
    out = map (fun '(p, (_, l), (_, r)) => (p, l, r)) outm /\
    (forall p i l j r, In (p, (i, l), (j, r)) outm ->
       In (i, p, l) (entries_id ta) /\ exists pr, In (j, pr, r) (entries_id tb) /\ kbits w pr = kbits w p).
Proof. exact (intersection_mut_mirrors pfx V R _ _ _ _ _ _ _ _ _ LAWS ba bb ta tb). Qed.

Theorem C13_difference_mut_mirrors ba bb (ta : tree) (tb : Trie.tree pfx R) :
  wfu w V ba ta -> wfu w R bb tb ->
  exists out outm, t_difference w fl V R ta tb = Some out /\ t_difference_mut w fl V R ta tb = Some outm /\
    out = map (fun '(p, (_, l), ann) => (p, l, ann)) outm /\
    (forall p i l ann, In (p, (i, l), ann) outm -> In (i, p, l) (entries_id ta)).
Proof. exact (difference_mut_mirrors pfx V R _ _ _ _ _ _ _ _ _ LAWS ba bb ta tb). Qed.

Theorem C13_covering_difference_mut_mirrors ba bb (ta : tree) (tb : Trie.tree pfx R) :
  wfu w V ba ta -> wfu w R bb tb ->
  exists out outm, t_covering_difference w fl V R ta tb = Some out /\
    t_covering_difference_mut w fl V R ta tb = Some outm /\
    out = map (fun '(p, (_, l)) => (p, l)) outm /\
    (forall p i l, In (p, (i, l)) outm -> In (i, p, l) (entries_id ta)).
Proof. exact (covering_difference_mut_mirrors pfx V R _ _ _ _ _ _ _ _ _ LAWS ba bb ta tb). Qed.

(* ------------------------------------------------------------------------------------------ *)
(** * (b) what is yielded are references to entries of the map *)

(** [items] is a collection of references (slot, stored prefix, current value) to entries of [t] *)
Definition refs_of {T} (t : Trie.tree pfx T) (items : list (N * pfx * T)) : Prop :=
  incl items (entries_id t).

Theorem C13_iter_mut_refs (t : tree) : refs_of t (t_iter_mut_items V t).
Proof. unfold refs_of, t_iter_mut_items. rewrite (iter_mut_items_spec pfx V t). apply incl_refl. Qed.

Theorem C13_children_mut_refs (t : tree) (q : pfx) :
  NoDup (ids t) -> refs_of t (t_children_mut w fl V t q).
Proof. intros H. exact (proj2 (children_mut_refs pfx V _ _ _ _ t q H)). Qed.

Theorem C13_get_mut_ref (t : tree) (q : pfx) i p x :
  t_get_node w fl V t q = Some (i, p, Some x) -> refs_of t [(i, p, x)].
Proof.
  intros H e [<-|[]]. exact (get_node_item pfx V _ _ _ _ t q i p x H).
Qed.

Theorem C13_get_lpm_mut_ref (t : tree) (q : pfx) e :
  t_get_lpm_mut w fl V t q = Some e -> refs_of t [e].
Proof.
  intros H e' [<-|[]]. destruct e as [[i p] x]. exact (get_lpm_mut_slot pfx V _ _ _ _ t q i p x H).
Qed.

Theorem C13_view_iter_mut_refs (T : tree) (m : vmut pfx) :
  NoDup (ids T) -> refs_of T (vm_iter_mut T m).
Proof. intros H. exact (proj2 (vm_iter_mut_refs pfx V T m H)). Qed.

(** [value_mut]/[prefix_value_mut] on a view whose node holds a value: one reference, and the
    model's write through it IS the [write_ids] of that slot *)
Theorem C13_view_value_mut_ref (T : tree) (m : vmut pfx) (g : V -> V) i p x l r :
  NoDup (ids T) -> mvirt pfx m = None -> vm_tree T m = Node i p (Some x) l r ->
  refs_of T [(i, p, x)] /\ snd (vm_value_mut T m g) = Some (p, x) /\
  fst (vm_value_mut T m g) = write_ids T [(i, g x)].
Proof.
  intros Hnd Hv Hs. split; [|split].
  - intros e [<-|[]]. apply (subtree_entries_id_incl pfx V (mpath pfx m) T). fold (vm_tree T m).
    rewrite Hs. left. reflexivity.
  - unfold vm_value_mut. rewrite Hv, Hs. reflexivity.
  - exact (vm_value_mut_write pfx V T m g i p x l r Hnd Hv Hs).
Qed.

(** ... and no reference (nothing changes) on a virtual view or a value-less node *)
Theorem C13_view_value_mut_none (T : tree) (m : vmut pfx) (g : V -> V) :
  vm_value T m = None -> vm_tree T m <> Leaf -> vm_value_mut T m g = (T, None).
Proof.
  unfold vm_value. destruct (mvirt pfx m) as [q|] eqn:Hv; intros H Hn.
  - unfold vm_value_mut. rewrite Hv. reflexivity.
  - destruct (vm_tree T m) as [|i p v l r] eqn:Hs; [contradiction|]. cbn [tval] in H. subst v.
    exact (vm_value_mut_none pfx V T m g i p l r Hv Hs).
Qed.

(** the four [*_mut] set operations: the left references are entries of the left operand, the
    right references (union, intersection) are entries of the right operand up to the reported
    prefix (an item with both sides reports the left node's stored prefix, which denotes the same
    key) *)
Theorem C13_union_mut_refs ba bb (ta : tree) (tb : Trie.tree pfx R) outm :
  wfu w V ba ta -> wfu w R bb tb -> t_union_mut w fl V R ta tb = Some outm ->
  refs_of ta (um_lrefs pfx V R outm) /\
  (forall i p y, In (i, p, y) (um_rrefs pfx V R outm) ->
     exists pr, In (i, pr, y) (entries_id tb) /\ kbits w pr = kbits w p).
Proof.
  intros Ha Hb Hm.
  destruct (union_mut_refs pfx V R _ _ _ _ _ _ _ _ _ LAWS ba bb ta tb outm Ha Hb Hm) as [A [B _]].
  split; assumption.
Qed.

Theorem C13_intersection_mut_refs ba bb (ta : tree) (tb : Trie.tree pfx R) outm :
  wfu w V ba ta -> wfu w R bb tb -> t_intersection_mut w fl V R ta tb = Some outm ->
  refs_of ta (im_lrefs pfx V R outm) /\
  (forall j p y, In (j, p, y) (im_rrefs pfx V R outm) ->
     exists pr, In (j, pr, y) (entries_id tb) /\ kbits w pr = kbits w p).
Proof.
  intros Ha Hb Hm.
  destruct (intersection_mut_refs pfx V R _ _ _ _ _ _ _ _ _ LAWS ba bb ta tb outm Ha Hb Hm) as [A [B _]].
  split; assumption.
Qed.

Theorem C13_difference_mut_refs ba bb (ta : tree) (tb : Trie.tree pfx R) outm :
  wfu w V ba ta -> wfu w R bb tb -> t_difference_mut w fl V R ta tb = Some outm ->
  refs_of ta (dm_refs pfx V R outm).
Proof.
  intros Ha Hb Hm.
  exact (proj1 (difference_mut_refs pfx V R _ _ _ _ _ _ _ _ _ LAWS ba bb ta tb outm Ha Hb Hm)).
Qed.

Theorem C13_covering_difference_mut_refs ba bb (ta : tree) (tb : Trie.tree pfx R) outm :
  wfu w V ba ta -> wfu w R bb tb -> t_covering_difference_mut w fl V R ta tb = Some outm ->
  refs_of ta (cdm_refs pfx V outm).
Proof.
  intros Ha Hb Hm.
  exact (proj1 (covering_difference_mut_refs pfx V R _ _ _ _ _ _ _ _ _ LAWS ba bb ta tb outm Ha Hb Hm)).
Qed.

(* ------------------------------------------------------------------------------------------ *)
(** * (b) writes through any of the yielded references *)

(** Hold ANY sub-collection [items] of references to entries of [t] (by the [*_refs] theorems:
    of what any mutable traversal yielded) and store [g slot old_value] through each: every
    entry keeps its position, slot and stored prefix; its value becomes the written one exactly
    when a reference to it was written through, and is unchanged otherwise. *)
Theorem C13_write_exact (t : tree) (items : list (N * pfx * V)) (g : N -> V -> V) :
  NoDup (ids t) -> refs_of t items ->
  entries_id (write_ids t (map (fun '(i, _, x) => (i, g i x)) items))
  = map (fun '(i, p, x) => (i, p, if is_slot_of pfx V items i then g i x else x)) (entries_id t).
Proof. exact (write_through_items pfx V t items g). Qed.

(** all references of [iter_mut] at once, a distinct value through each *)
Theorem C13_write_all (t : tree) (g : N -> V -> V) :
  NoDup (ids t) ->
  entries_id (write_ids t (map (fun '(i, _, x) => (i, g i x)) (t_iter_mut_items V t)))
  = map (fun '(i, p, x) => (i, p, g i x)) (t_iter_items V t).
Proof.
  intros H. unfold t_iter_mut_items, t_iter_items.
  rewrite (iter_mut_items_spec pfx V t), (iter_items_spec pfx V t).
  exact (write_through_all pfx V t g H).
Qed.

(** ... in every reachable state *)
Theorem C13_write_all_reachable (ops : list (hop V)) (g : N -> V -> V) :
  Forall (hop_ok w V) ops ->
  let t := root (hrun w fl V ops) in
  entries_id (write_ids t (map (fun '(i, _, x) => (i, g i x)) (t_iter_mut_items V t)))
  = map (fun '(i, p, x) => (i, p, g i x)) (t_iter_items V t).
Proof. intros H t. apply C13_write_all. exact (proj2 (C13_reachable ops H)). Qed.

(** The same for an arbitrary write list [ws] (slot, value) — e.g. through the right-hand
    references of [union_mut]: position by position, [newval ws i x] is the value written to
    slot [i] if there is one, else [x]. *)
Theorem C13_write_positions (t : tree) (ws : list (N * V)) :
  entries_id (write_ids t ws) = map (fun '(i, p, x) => (i, p, newval ws i x)) (entries_id t).
Proof. exact (write_ids_entries_id_newval pfx V t ws). Qed.

(** pointwise: the entry at a written slot holds the written value; every other entry keeps its
    value; no entry appears or disappears *)
Theorem C13_write_lands (t : tree) (ws : list (N * V)) :
  (forall i p x y, In (i, p, x) (entries_id t) -> assoc_id ws i = Some y ->
                   In (i, p, y) (entries_id (write_ids t ws))) /\
  (forall i p x, In (i, p, x) (entries_id t) -> ~ In i (map fst ws) ->
                 In (i, p, x) (entries_id (write_ids t ws))) /\
  (forall i p y, In (i, p, y) (entries_id (write_ids t ws)) ->
                 exists x, In (i, p, x) (entries_id t) /\ y = newval ws i x).
Proof.
  split; [|split].
  - exact (write_ids_written pfx V t ws).
  - exact (write_ids_untouched pfx V t ws).
  - exact (write_ids_in_inv pfx V t ws).
Qed.

(** when the references written through are pairwise distinct, "the value written through the
    reference to slot [i]" is the pair's second component *)
Theorem C13_write_lands_distinct (t : tree) (ws : list (N * V)) i p x y :
  NoDup (map fst ws) -> In (i, y) ws -> In (i, p, x) (entries_id t) ->
  In (i, p, y) (entries_id (write_ids t ws)).
Proof. exact (write_ids_written_nodup pfx V t ws i p x y). Qed.

(** a reference reported up to the key (right-hand side of [union_mut]/[intersection_mut]) *)
Theorem C13_write_lands_keyed (tb : tree) (ws : list (N * V)) i p y z :
  (exists pr, In (i, pr, y) (entries_id tb) /\ kbits w pr = kbits w p) -> assoc_id ws i = Some z ->
  exists pr, In (i, pr, z) (entries_id (write_ids tb ws)) /\ kbits w pr = kbits w p.
Proof.
  intros [pr [Hin Hk]] Ha. exists pr. split; [|exact Hk].
  exact (write_ids_written pfx V tb ws i pr y z Hin Ha).
Qed.

(** no write changes the sequence of stored prefixes, the slots, the shape of the tree (which
    nodes exist, where, and which hold a value), or well-formedness *)
Theorem C13_write_preserves (t : tree) (ws : list (N * V)) :
  map fst (entries (write_ids t ws)) = map fst (entries t) /\
  map (fun '(i, p, _) => (i, p)) (entries_id (write_ids t ws))
    = map (fun '(i, p, _) => (i, p)) (entries_id t) /\
  ids (write_ids t ws) = ids t /\
  skel (write_ids t ws) = skel t /\
  (wfm w V t -> wfm w V (write_ids t ws)).
Proof.
  split; [exact (write_ids_entries_keys pfx V t ws)|].
  split; [exact (write_ids_keys pfx V t ws)|].
  split; [exact (write_ids_ids pfx V t ws)|].
  split; [exact (write_ids_skel pfx V t ws)|].
  exact (write_ids_wf_root pfx V (kbits w) (okp w) ws t).
Qed.

(** writes through references of a view touch nothing outside the view's subtree *)
Theorem C13_write_inside_view (T : tree) (m : vmut pfx) (ws : list (N * V)) :
  NoDup (ids T) -> (forall i, In i (map fst ws) -> In i (ids (vm_tree T m))) ->
  write_ids T ws = subst T (mpath pfx m) (write_ids (vm_tree T m) ws).
Proof. exact (write_ids_local pfx V (mpath pfx m) T ws). Qed.

(* ------------------------------------------------------------------------------------------ *)
(** * (b) every later read sees the write *)

(** the iterators *)
Theorem C13_write_visible_iter (t : tree) (ws : list (N * V)) :
  t_iter_items V (write_ids t ws) = map (fun '(i, p, x) => (i, p, newval ws i x)) (t_iter_items V t) /\
  entries (write_ids t ws) = map (fun '(i, p, x) => (p, newval ws i x)) (t_iter_items V t).
Proof.
  unfold t_iter_items. rewrite !(iter_items_spec pfx V). split.
  - exact (write_ids_entries_id_newval pfx V t ws).
  - exact (write_ids_entries_newval pfx V t ws).
Qed.

(** [get] / [get_key_value] of ANY key: the same node is reached, and its value is the written
    one (no hypothesis at all: the descent only looks at prefixes) *)
Theorem C13_write_visible_get (t : tree) (ws : list (N * V)) (q : pfx) :
  t_get w fl V (write_ids t ws) q
  = match t_get_node w fl V t q with Some (i, _, v) => option_map (newval ws i) v | None => None end.
Proof. exact (get_write_ids pfx V _ _ _ _ t ws q). Qed.

Theorem C13_write_visible_get_key_value (t : tree) (ws : list (N * V)) (q : pfx) :
  t_get_key_value w fl V (write_ids t ws) q
  = match t_get_node w fl V t q with Some (i, p, Some x) => Some (p, newval ws i x) | _ => None end.
Proof. exact (get_key_value_write_ids pfx V _ _ _ _ t ws q). Qed.

(** [get_lpm]: the same entry, with the written value *)
Theorem C13_write_visible_get_lpm (t : tree) (ws : list (N * V)) (q : pfx) :
  t_get_lpm w fl V (write_ids t ws) q
  = option_map (fun '(i, p, x) => (p, newval ws i x)) (t_get_lpm_mut w fl V t q).
Proof. exact (get_lpm_write_ids pfx V _ _ _ _ t ws q). Qed.

(** by entry: in a well-formed map, looking up the key of the entry at slot [i] afterwards
    returns the value written to slot [i] (or the old value if none was) *)
Theorem C13_write_visible_by_key (t : tree) (ws : list (N * V)) i p x (q : pfx) :
  wfm w V t -> okp w q -> In (i, p, x) (entries_id t) -> kbits w q = kbits w p ->
  t_get w fl V (write_ids t ws) q = Some (newval ws i x).
Proof. exact (write_ids_get pfx V _ _ _ _ _ _ _ _ _ LAWS t ws i p x q). Qed.

(** [get_mut(q)] followed by a write of [g old]: the model's keyed update (its own descent,
    [modify]) IS the write through the slot [get] designates; a later [get(q)] returns it.  If
    [q] is not stored there is no reference and nothing changes. *)
Theorem C13_get_mut_write (m : pmap pfx V) (q : pfx) (g : V -> V) i p x :
  NoDup (ids (root m)) -> t_get_node w fl V (root m) q = Some (i, p, Some x) ->
  t_update_value w fl V m q g = mkmap (write_ids (root m) [(i, g x)]) (al m) /\
  t_get w fl V (root (t_update_value w fl V m q g)) q = Some (g x).
Proof.
  intros Hnd Hg.
  pose proof (update_value_write pfx V _ _ _ _ m q g i p x Hnd Hg) as E.
  split; [exact E|]. unfold t_update_value. rewrite E. cbn [root].
  rewrite C13_write_visible_get, Hg. cbn [option_map]. unfold MutTravExtra.newval. cbn [assoc_id].
  rewrite N.eqb_refl. reflexivity.
Qed.

Theorem C13_get_mut_absent (m : pmap pfx V) (q : pfx) (g : V -> V) :
  t_get w fl V (root m) q = None -> t_update_value w fl V m q g = m.
Proof. exact (update_value_absent pfx V _ _ _ _ m q g). Qed.

(* ---------------------------------------------------------------------------------------- *)
(** * The same statements about the ARENA-level transcription (ArenaWrite.v).  At the arena level a
      reference handed out by a mutable traversal is a slot index into the table, and a write through
      it is [table[i].value = Some x] on a slot that holds a value ([a_write]).  [am] is any arena
      reachable from the empty arena by a history over the whole mutator alphabet. *)

(** the two copies of the traversal loop ([Iter::next] / [IterMut::next]) are the same function up to
    the projection of the slot — for EVERY table, fuel and stack (no hypothesis at all) *)
Theorem C13_arena_iter_mirrors fuel (tb : list (Arena.anode pfx V)) st :
  Arena.a_iter pfx V fuel tb st
  = Arena.rbind (a_iter_mut pfx V fuel tb st) (fun items => Arena.Ok (map (drop3 pfx V) items)).
Proof. exact (iter_mirrors pfx V fuel tb st). Qed.

(** [iter_mut] returns [Ok], [iter] is its projection, and no two references alias *)
Theorem C13_arena_iter_mut (am : Arena.amap pfx V) : areach pfx V (peq w) (contains w fl) (is_bit_set w) plen (lcp w fl) pzero (okp w) am ->
  exists items, a_items pfx V am = Arena.Ok items /\
                Arena.a_entries pfx V am = Arena.Ok (map (drop3 pfx V) items) /\ NoDup (map slot items).
Proof.
  intros H. apply (arena_C13_iter_mut pfx V (peq w) (contains w fl) (is_bit_set w) plen (lcp w fl) pzero (kbits w) (okp w)).
  exact (areach_good pfx V _ _ _ _ _ _ _ _ _ LAWS am H).
Qed.

(** a write changes nothing but values: prefixes, links, which slots hold a value, the free list, the
    counter and the table length are literally the same; the written arena again represents a
    well-formed map with exact slot accounting ([agood]: the premise of the [ArenaWrite] / [ArenaEq]
    theorems, so those apply to it again; it is in general not [areach], which the arena theorems of
    the other property files ask for) *)
Theorem C13_arena_write_frame (am : Arena.amap pfx V) ws : areach pfx V (peq w) (contains w fl) (is_bit_set w) plen (lcp w fl) pzero (okp w) am ->
  map (nskel pfx V) (Arena.tbl (a_write pfx V am ws)) = map (nskel pfx V) (Arena.tbl am) /\
  Arena.afree (a_write pfx V am ws) = Arena.afree am /\ Arena.acount (a_write pfx V am ws) = Arena.acount am /\
  agood pfx V (kbits w) (okp w) (a_write pfx V am ws).
Proof.
  intros H. destruct (a_write_frame pfx V am ws) as (A & B & C & _). split; [exact A|]. split; [exact B|]. split; [exact C|].
  apply a_write_good. exact (areach_good pfx V _ _ _ _ _ _ _ _ _ LAWS am H).
Qed.

(** writing [g slot old] through ANY selection [sel] of the references handed out by [iter_mut]:
    the traversal of the written arena yields the same slots and prefixes in the same order, the
    value [g i x] exactly at the selected slots and the old value everywhere else *)
Theorem C13_arena_write_exact (am : Arena.amap pfx V) items sel (g : N -> V -> V) : areach pfx V (peq w) (contains w fl) (is_bit_set w) plen (lcp w fl) pzero (okp w) am ->
  a_items pfx V am = Arena.Ok items -> incl sel items ->
  a_items pfx V (a_write pfx V am (MutTrav.writes_of pfx V g sel))
  = Arena.Ok (map (fun '(i, p, x) => (i, p, if MutTrav.is_slot_of pfx V sel i then g i x else x)) items).
Proof.
  intros H. apply (arena_C13_write_exact pfx V (peq w) (contains w fl) (is_bit_set w) plen (lcp w fl) pzero (kbits w) (okp w)).
  exact (areach_good pfx V _ _ _ _ _ _ _ _ _ LAWS am H).
Qed.

Theorem C13_arena_write_all (am : Arena.amap pfx V) items (g : N -> V -> V) : areach pfx V (peq w) (contains w fl) (is_bit_set w) plen (lcp w fl) pzero (okp w) am ->
  a_items pfx V am = Arena.Ok items ->
  a_items pfx V (a_write pfx V am (MutTrav.writes_of pfx V g items)) = Arena.Ok (map (fun '(i, p, x) => (i, p, g i x)) items) /\
  Arena.a_entries pfx V (a_write pfx V am (MutTrav.writes_of pfx V g items)) = Arena.Ok (map (fun '(i, p, x) => (p, g i x)) items).
Proof.
  intros H. apply (arena_C13_write_all pfx V (peq w) (contains w fl) (is_bit_set w) plen (lcp w fl) pzero (kbits w) (okp w)).
  exact (areach_good pfx V _ _ _ _ _ _ _ _ _ LAWS am H).
Qed.

(** [get_lpm_mut] hands out one of the references of [iter_mut]; prefix and value are [get_lpm]'s *)
Theorem C13_arena_get_lpm_mut (am : Arena.amap pfx V) items q : areach pfx V (peq w) (contains w fl) (is_bit_set w) plen (lcp w fl) pzero (okp w) am ->
  a_items pfx V am = Arena.Ok items ->
  exists o, Arena3.a_get_lpm_mut pfx V (peq w) (contains w fl) (is_bit_set w) plen am q = Arena.Ok o /\
            Arena.a_get_lpm pfx V (peq w) (contains w fl) (is_bit_set w) plen am q = Arena.Ok (option_map (drop3 pfx V) o) /\
            match o with Some e => In e items | None => True end.
Proof.
  intros H. apply (arena_C13_get_lpm_mut pfx V (peq w) (contains w fl) (is_bit_set w) plen (lcp w fl) pzero (kbits w) (okp w)).
  exact (areach_good pfx V _ _ _ _ _ _ _ _ _ LAWS am H).
Qed.

End C13.

(** non-vacuity (w = 8): the map {00/2 -> 1, 40/2 -> 2, 80/1 -> 3, c0/2 -> 4}; inserting 40/2
    created the value-less branching node 0/1 (slot 2).  [iter_mut] yields the slots 1,3,4,5
    (pairwise distinct, the branching node yields nothing) and the same items as [iter]; writing
    20 and 40 through the references to slots 3 and 5 changes exactly those two entries, and a
    later [get] sees it. *)
Example C13_example :
  let ins := fun m q (x : nat) => fst (t_insert 8 Generic nat m q x) in
  let m := ins (ins (ins (ins (t_empty nat) (mkpfx 0x00 2) 1%nat) (mkpfx 0x40 2) 2%nat)
                    (mkpfx 0x80 1) 3%nat) (mkpfx 0xc0 2) 4%nat in
  let t := root m in
  let ws := [(3%N, 20%nat); (5%N, 40%nat)] in
  map (fun '(i, _, _) => i) (t_iter_mut_items nat t) = [1; 3; 4; 5]%N /\
  t_iter_mut_items nat t = t_iter_items nat t /\
  t_get_node 8 Generic nat t (mkpfx 0x00 1) = Some (2%N, mkpfx 0x00 1, None) /\
  entries t = [(mkpfx 0x00 2, 1%nat); (mkpfx 0x40 2, 2%nat); (mkpfx 0x80 1, 3%nat); (mkpfx 0xc0 2, 4%nat)] /\
  entries (write_ids t ws)
    = [(mkpfx 0x00 2, 1%nat); (mkpfx 0x40 2, 20%nat); (mkpfx 0x80 1, 3%nat); (mkpfx 0xc0 2, 40%nat)] /\
  t_get 8 Generic nat (write_ids t ws) (mkpfx 0x40 2) = Some 20%nat /\
  t_get_lpm 8 Generic nat (write_ids t ws) (mkpfx 0xc5 8) = Some (mkpfx 0xc0 2, 40%nat) /\
  Slots.ids pfx nat (write_ids t ws) = Slots.ids pfx nat t.
Proof. vm_compute. repeat split; reflexivity. Qed.

Print Assumptions C13_reachable.
Print Assumptions C13_iter_mut_mirrors.
Print Assumptions C13_iter_yields_entries.
Print Assumptions C13_values_mut_mirrors.
Print Assumptions C13_into_iter_mirrors.
Print Assumptions C13_children_mut_mirrors.
Print Assumptions C13_into_children_mirrors.
Print Assumptions C13_get_mut_mirrors.
Print Assumptions C13_get_lpm_mut_mirrors.
Print Assumptions C13_view_iter_mut_mirrors.
Print Assumptions C13_view_value_mut_mirrors.
Print Assumptions C13_union_mut_mirrors.
Print Assumptions C13_intersection_mut_mirrors.
Print Assumptions C13_difference_mut_mirrors.
Print Assumptions C13_covering_difference_mut_mirrors.
Print Assumptions C13_iter_mut_refs.
Print Assumptions C13_children_mut_refs.
Print Assumptions C13_get_mut_ref.
Print Assumptions C13_get_lpm_mut_ref.
Print Assumptions C13_view_iter_mut_refs.
Print Assumptions C13_view_value_mut_ref.
Print Assumptions C13_view_value_mut_none.
Print Assumptions C13_union_mut_refs.
Print Assumptions C13_intersection_mut_refs.
Print Assumptions C13_difference_mut_refs.
Print Assumptions C13_covering_difference_mut_refs.
Print Assumptions C13_write_exact.
Print Assumptions C13_write_all.
Print Assumptions C13_write_all_reachable.
Print Assumptions C13_write_positions.
Print Assumptions C13_write_lands.
Print Assumptions C13_write_lands_distinct.
Print Assumptions C13_write_lands_keyed.
Print Assumptions C13_write_preserves.
Print Assumptions C13_write_inside_view.
Print Assumptions C13_write_visible_iter.
Print Assumptions C13_write_visible_get.
Print Assumptions C13_write_visible_get_key_value.
Print Assumptions C13_write_visible_get_lpm.
Print Assumptions C13_write_visible_by_key.
Print Assumptions C13_get_mut_write.
Print Assumptions C13_get_mut_absent.
Print Assumptions C13_arena_iter_mirrors.
Print Assumptions C13_arena_iter_mut.
Print Assumptions C13_arena_write_frame.
Print Assumptions C13_arena_write_exact.
Print Assumptions C13_arena_write_all.
Print Assumptions C13_arena_get_lpm_mut.
