(** C09 — shortest-prefix match and cover list exactly the covering entries, in order.

    [cover] / [cover_keys] / [cover_values] (and the set's [cover], which is the key projection of
    the map's at [V = unit]) are the lazy iterator [Cover]: [t_cover_next] is one call of its
    [next()], [t_cover_drain] repeated calls until the first [None], and [t_cover_walk] the whole
    sequence as a direct recursion.  For every well-formed map (hence every reachable state, with
    any value-less leftovers on the path) and every valid query [q]:
    - the sequence is exactly the sub-list of the stored entries whose key covers [q] — [q] itself
      and the zero-length prefix included when stored — each once, in strictly increasing prefix
      length; the lazy iterator returns it item by item and is fused;
    - [get_spm] is its first element ([None] iff it is empty), i.e. the shortest stored prefix
      covering [q]; [get_spm_prefix] is the prefix of that; [get_lpm] is its last element.
    Proofs: Lookup2.v, IterExtra.v. *)
From Coq Require Import List NArith Sorted Lia.
From PT Require Import Lookup Lookup2 IterExtra Arena Arena3 ArenaProps.
From PT.Properties Require Import Common.
Import ListNotations.
Local Open Scope nat_scope.

Section C09.
Variables (w : N) (fl : flavour) (V : Type).
Hypothesis Hw : (1 <= w)%N.
(** [e]'s key covers [q] (boolean, for [filter]) *)
Notation covering := (IterExtra.covering pfx V (kbits w)).
(** what a [Cover] iterator in state [st] still has to yield ([CStart]: nothing yielded yet) *)
Notation pending := (cover_pending pfx V (peq w) (contains w fl) (is_bit_set w) plen).
(** strictly increasing prefix length *)
Definition plen_order (e1 e2 : pfx * V) : Prop := (plen (fst e1) < plen (fst e2))%N.

(** a whole well-formed map is a well-formed subtree under the empty bound, and is not [Leaf] *)
Lemma C09_wfm_under (t : tree pfx V) : wfm w V t -> wfu w V [] t /\ t <> Leaf.
Proof. destruct t as [|i p v l r]; [intros [] | intros H; split; [exact (proj2 H) | discriminate]]. Qed.

(** ** The sequence *)

(** exactly the stored entries covering [q], in the order in which the full iteration yields them *)
Theorem C09_cover_is_filter (t : tree pfx V) (q : pfx) :
  wfm w V t -> okp w q ->
  t_cover_walk w fl V t q = filter (covering q) (entries t).
Proof. exact (cover_walk_filter_root pfx V _ _ _ _ _ _ _ _ _ (laws w fl Hw) t q). Qed.

(** membership: a pair is yielded iff it is stored and its key covers [q] *)
Theorem C09_cover_members (t : tree pfx V) (q : pfx) (e : pfx * V) :
  wfm w V t -> okp w q ->
  (In e (t_cover_walk w fl V t q) <-> In e (entries t) /\ prefix_of (ekey w V e) (kbits w q)).
Proof. exact (cover_walk_spec_root pfx V _ _ _ _ _ _ _ _ _ (laws w fl Hw) t q e). Qed.

(** [q] itself is included when stored (under any representation with the same key) ... *)
Theorem C09_cover_includes_query (t : tree pfx V) (q : pfx) (e : pfx * V) :
  wfm w V t -> okp w q -> In e (entries t) -> ekey w V e = kbits w q -> In e (t_cover_walk w fl V t q).
Proof.
  intros Hwf Hq Hin E. apply C09_cover_members; try assumption. split; [exact Hin|]. rewrite E. apply prefix_of_refl.
Qed.

(** ... and so is the zero-length prefix, for every query *)
Theorem C09_cover_includes_zero (t : tree pfx V) (q : pfx) (e : pfx * V) :
  wfm w V t -> okp w q -> In e (entries t) -> plen (fst e) = 0%N -> In e (t_cover_walk w fl V t q).
Proof.
  intros Hwf Hq Hin E. apply C09_cover_members; try assumption. split; [exact Hin|].
  pose proof (entries_ok pfx V (kbits w) (okp w) [] t e (proj1 (C09_wfm_under t Hwf)) Hin) as Hok.
  pose proof (plen_bits _ _ _ _ _ _ _ _ _ _ (laws w fl Hw) (fst e) Hok) as Hl.
  unfold ekey. destruct (kbits w (fst e)); [apply prefix_of_nil | cbn in Hl; lia].
Qed.

(** each once, in strictly increasing prefix length *)
Theorem C09_cover_order (t : tree pfx V) (q : pfx) :
  wfm w V t -> okp w q ->
  StronglySorted plen_order (t_cover_walk w fl V t q) /\ NoDup (t_cover_walk w fl V t q).
Proof.
  intros Hwf Hq. destruct (C09_wfm_under t Hwf) as [Hu _]. split.
  - exact (cover_walk_sorted_plen pfx V _ _ _ _ _ _ _ _ _ (laws w fl Hw) [] t q Hu).
  - rewrite C09_cover_is_filter by assumption. apply NoDup_filter.
    apply (sorted_nodup pfx V (kbits w)). exact (entries_sorted pfx V (kbits w) (okp w) [] t Hu).
Qed.

(** ** The lazy iterator *)

(** nothing yielded yet: the whole sequence is pending *)
Theorem C09_pending_start (t : tree pfx V) (q : pfx) : pending t CStart q = t_cover_walk w fl V t q.
Proof. reflexivity. Qed.

(** one call of [next()]: it returns the head of the pending sequence and the tail stays pending;
    it returns [None] iff nothing is pending *)
Theorem C09_cover_next (t : tree pfx V) (st : cstate pfx V) (q : pfx) :
  wfm w V t ->
  match t_cover_next w fl V t st q with
  | (Some x, st') => exists xs, pending t st q = x :: xs /\ pending t st' q = xs
  | (None, st') => pending t st q = [] /\ pending t st' q = []
  end.
Proof.
  intros _. exact (cover_next_spec pfx V _ _ _ _ t st q).
Qed.

(** collecting the iterator ([fuel] bounds the number of calls) gives the whole sequence *)
Theorem C09_cover_drain (t : tree pfx V) (q : pfx) (fuel : nat) :
  wfm w V t -> length (t_cover_walk w fl V t q) < fuel ->
  t_cover_drain w fl V fuel t CStart q = t_cover_walk w fl V t q.
Proof.
  intros _. exact (cover_drain_pending pfx V _ _ _ _ t q fuel CStart).
Qed.

(** fused: once nothing is pending, every further call — any number [k] of them — returns [None] *)
Theorem C09_cover_fused (t : tree pfx V) (st : cstate pfx V) (q : pfx) (k : nat) :
  wfm w V t -> pending t st q = [] ->
  fst (t_cover_next w fl V t (Nat.iter k (fun s => snd (t_cover_next w fl V t s q)) st) q) = None.
Proof.
  intros _ Hp.
  assert (Hk : pending t (Nat.iter k (fun s => snd (t_cover_next w fl V t s q)) st) q = []).
  { induction k as [|k IH]; [exact Hp|]. cbn [Nat.iter].
    exact (proj2 (cover_fused pfx V _ _ _ _ t _ q IH)). }
  exact (proj1 (cover_fused pfx V _ _ _ _ t _ q Hk)).
Qed.

(** ** Shortest- and longest-prefix match *)

(** [get_spm] returns the first element of the sequence, [None] when it is empty *)
Theorem C09_get_spm_first (t : tree pfx V) (q : pfx) :
  t_get_spm w fl V t q = hd_error (t_cover_walk w fl V t q).
Proof. exact (get_spm_spec pfx V _ _ _ _ t q). Qed.

(** [get_spm_prefix] (and the set's [get_spm]) returns the prefix of that element *)
Theorem C09_get_spm_prefix (t : tree pfx V) (q : pfx) :
  t_get_spm_prefix w fl V t q = option_map fst (hd_error (t_cover_walk w fl V t q)).
Proof. unfold t_get_spm_prefix, get_spm_prefix. rewrite get_spm_spec. reflexivity. Qed.

(** longest-prefix match returns the last element *)
Theorem C09_get_lpm_last (t : tree pfx V) (q : pfx) :
  t_get_lpm w fl V t q = hd_error (rev (t_cover_walk w fl V t q)).
Proof. exact (get_lpm_last pfx V _ _ _ _ t q). Qed.

(** in terms of the stored entries only: [get_spm] returns a stored entry covering [q] of least
    prefix length, and [None] exactly when no stored entry covers [q] *)
Theorem C09_get_spm (t : tree pfx V) (q : pfx) :
  wfm w V t -> okp w q ->
  match t_get_spm w fl V t q with
  | Some e => In e (entries t) /\ prefix_of (ekey w V e) (kbits w q) /\
              forall e', In e' (entries t) -> prefix_of (ekey w V e') (kbits w q) ->
                         length (ekey w V e) <= length (ekey w V e')
  | None => forall e, In e (entries t) -> ~ prefix_of (ekey w V e) (kbits w q)
  end.
Proof. exact (get_spm_spec_root pfx V _ _ _ _ _ _ _ _ _ (laws w fl Hw) t q). Qed.

(** the answers depend on the stored entries alone, not on the shape left by earlier removals *)
Theorem C09_shape_independent (t1 t2 : tree pfx V) (q : pfx) :
  wfm w V t1 -> wfm w V t2 -> okp w q -> entries t1 = entries t2 ->
  t_cover_walk w fl V t1 q = t_cover_walk w fl V t2 q /\
  t_get_spm w fl V t1 q = t_get_spm w fl V t2 q /\
  t_get_spm_prefix w fl V t1 q = t_get_spm_prefix w fl V t2 q.
Proof.
  intros H1 H2 Hq E.
  assert (Ec : t_cover_walk w fl V t1 q = t_cover_walk w fl V t2 q)
    by (rewrite !C09_cover_is_filter by assumption; rewrite E; reflexivity).
  split; [exact Ec|]. rewrite !C09_get_spm_prefix, !C09_get_spm_first, Ec. split; reflexivity.
Qed.

(** ... all of it in every state reachable by a history of public mutating calls *)
Theorem C09_reachable (ops : list (hop V)) (q : pfx) :
  Forall (hop_ok w V) ops -> okp w q ->
  let t := root (hrun w fl V ops) in
  let c := filter (covering q) (entries t) in
  (forall fuel, length c < fuel -> t_cover_drain w fl V fuel t CStart q = c) /\
  StronglySorted plen_order c /\ NoDup c /\
  t_get_spm w fl V t q = hd_error c /\
  t_get_spm_prefix w fl V t q = option_map fst (hd_error c) /\
  t_get_lpm w fl V t q = hd_error (rev c).
Proof.
  intros Hops Hq t c. pose proof (reachable_wfm w fl V Hw ops Hops) as Hwf. fold t in Hwf.
  pose proof (C09_cover_is_filter t q Hwf Hq) as Ec. fold c in Ec.
  destruct (C09_cover_order t q Hwf Hq) as [Hs Hn]. rewrite Ec in Hs, Hn.
  split; [intros fuel Hf; rewrite <- Ec in *; apply C09_cover_drain; assumption|].
  split; [exact Hs|]. split; [exact Hn|]. rewrite <- Ec.
  split; [apply C09_get_spm_first|]. split; [apply C09_get_spm_prefix | apply C09_get_lpm_last].
Qed.

(** * At the arena level: the [Cover] iterator and [get_spm] / [get_spm_prefix] of the transcribed code
      (Arena3.v) on every arena [am] reached from the empty arena by arena-level mutator calls with
      valid prefixes ([areach am]), against the arena's own iteration [es]. *)
Theorem C09_arena (am : amap pfx V) (es : list (pfx * V)) (q : pfx) :
  areach pfx V (peq w) (contains w fl) (is_bit_set w) plen (lcp w fl) pzero (okp w) am -> okp w q -> a_entries pfx V am = Ok es ->
  Arena3.a_cover pfx V (peq w) (contains w fl) (is_bit_set w) plen am q = Ok (filter (IterExtra.covering pfx V (kbits w) q) es) /\
  StronglySorted (Lookup2.len_lt pfx V (kbits w)) (filter (IterExtra.covering pfx V (kbits w) q) es) /\
  Arena3.a_get_spm pfx V (peq w) (contains w fl) (is_bit_set w) plen am q = Ok (hd_error (filter (IterExtra.covering pfx V (kbits w) q) es)) /\
  Arena3.a_get_spm_prefix pfx V (peq w) (contains w fl) (is_bit_set w) plen am q
  = Ok (option_map fst (hd_error (filter (IterExtra.covering pfx V (kbits w) q) es))).
Proof. exact (arena_C09_cover pfx V _ _ _ _ _ _ _ _ _ (laws w fl Hw) am es q). Qed.

End C09.

(** non-vacuity: a reachable state with a value-less leftover ON the path to the query (128/1
    after [remove_keep_tree]), an entry off the path (71/2, host bits), an entry equal to the
    query (229/8).  In [m2] the root is populated: the cover of 229/8 starts with the zero-length
    prefix, skips the leftover, and ends with the query itself; [get_spm] is the zero-length
    prefix, [get_lpm] the query.  In [m1] the root is value-less: [get_spm] passes the root and the
    leftover and returns 192/2.  The query 144/4 is covered by the leftover only: empty cover. *)
Example C09_example :
  let ins m p x := fst (t_insert 8 Generic nat m p x) in
  let m0 := ins (ins (ins (ins (ins (t_empty nat) (mkpfx 0xc0 2) 2) (mkpfx 0x80 1) 1)
                  (mkpfx 0x47 2) 3) (mkpfx 0xe0 3) 4) (mkpfx 0xe5 8) 5 in
  let m1 := fst (t_remove_keep_tree 8 Generic nat m0 (mkpfx 0x80 1)) in
  let m2 := ins m1 (mkpfx 0 0) 0 in
  let q := mkpfx 0xe5 8 in
  t_cover_drain 8 Generic nat 9 (root m2) CStart q
    = [(mkpfx 0 0, 0); (mkpfx 0xc0 2, 2); (mkpfx 0xe0 3, 4); (mkpfx 0xe5 8, 5)] /\
  t_get_spm 8 Generic nat (root m2) q = Some (mkpfx 0 0, 0) /\
  t_get_lpm 8 Generic nat (root m2) q = Some (mkpfx 0xe5 8, 5) /\
  t_cover_drain 8 Generic nat 9 (root m1) CStart q = [(mkpfx 0xc0 2, 2); (mkpfx 0xe0 3, 4); (mkpfx 0xe5 8, 5)] /\
  t_get_spm 8 Generic nat (root m1) q = Some (mkpfx 0xc0 2, 2) /\
  t_get_spm_prefix 8 Generic nat (root m1) (mkpfx 0x90 4) = None /\
  t_cover_drain 8 Generic nat 9 (root m1) CStart (mkpfx 0x90 4) = [].
Proof. vm_compute. repeat split; reflexivity. Qed.

Print Assumptions C09_wfm_under.
Print Assumptions C09_cover_is_filter.
Print Assumptions C09_cover_members.
Print Assumptions C09_cover_includes_query.
Print Assumptions C09_cover_includes_zero.
Print Assumptions C09_cover_order.
Print Assumptions C09_pending_start.
Print Assumptions C09_cover_next.
Print Assumptions C09_cover_drain.
Print Assumptions C09_cover_fused.
Print Assumptions C09_get_spm_first.
Print Assumptions C09_get_spm_prefix.
Print Assumptions C09_get_lpm_last.
Print Assumptions C09_get_spm.
Print Assumptions C09_shape_independent.
Print Assumptions C09_reachable.
Print Assumptions C09_arena.
