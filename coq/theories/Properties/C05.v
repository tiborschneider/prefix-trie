(** C05 — Union yields each prefix of either operand once, in order, correctly tagged.

    The operands of the model's [union] / [union_mut] are two SUBTREES [ta : tree pfx L] and
    [tb : tree pfx R]: a view denotes the subtree at its real node ([Views.v_tree]; a virtual root
    addresses the same entries as the node below it).  The theorems quantify over every subtree
    [ta] that is well-formed under SOME bound [ba] and every [tb] well-formed under SOME bound
    [bb], with no relation whatsoever between [ba] and [bb] and between the two trees: equal,
    nested or disjoint roots; stored, value-less branching or virtual roots; the same or two
    different maps; arbitrary shapes (value-less leftover nodes included); two value types.
    ([C05_union_views] restates the main theorem for well-formed views.)

    For every such pair: [union] terminates (the fuel [1 + |ta| + |tb|] suffices) and its output
    has strictly ascending keys (hence every key once); a key occurs iff it is stored in [ta] or
    in [tb]; an item has a left (right) value iff its key is stored in [ta] ([tb]) — i.e. it is
    [Both] iff stored in both, [Left] / [Right] otherwise; it carries the values stored under that
    key, and reports the stored representation of the left entry if there is one, else of the
    right entry.  [union_mut] terminates and yields, item by item, the same prefix with the same
    presence pattern and the same values, together with the slots of exactly those entries.
    (The [right]/[left] annotations of one-sided items are the subject of C08.)
    Proofs: UnionThm.v ([union_correct], [union_mut_mirrors], [union_mut_slots]), SetOpsExtra.v. *)
From Coq Require Import List NArith Sorted.
From PT Require Import Lookup ViewsThm UnionThm SetOpsExtra Arena Arena3 ArenaProps ArenaViews ArenaSetViews.
From PT.Properties Require Import Common.
Import ListNotations.

#[local] Arguments SetOps.ILeft {pfx L R}.
#[local] Arguments SetOps.IRight {pfx L R}.
#[local] Arguments SetOps.IBoth {pfx L R}.

Section C05.
Variables (w : N) (fl : flavour) (L R : Type).
Hypothesis Hw : (1 <= w)%N.
Notation wfL := (wf_under pfx L (kbits w) (okp w)).
Notation wfR := (wf_under pfx R (kbits w) (okp w)).
Notation keyL := (ekey w L).
Notation keyR := (ekey w R).
Notation uitem := (uitem pfx L R).
(** the key of an item: the [len] leading bits of the prefix it reports *)
Notation ikey := (UnionThm.ikey pfx L R (kbits w)).
(** the reported prefix / the left value / the right value of an item
    ([Left p l _ ↦ p, Some l, None], [Right p _ r ↦ p, None, Some r], [Both p l r ↦ p, Some l, Some r]) *)
Notation iprefix := (iprefix pfx L R).
Notation ilval := (ilval pfx L R).
Notation irval := (irval pfx L R).

(** [union] terminates on every pair of well-formed operands. *)
Theorem C05_union_terminates ba bb (ta : tree pfx L) (tb : tree pfx R) :
  wfL ba ta -> wfR bb tb -> exists out, t_union w fl L R ta tb = Some out.
Proof using Hw. intros _ _. exact (union_total pfx L R _ _ _ _ _ ta tb). Qed.

(** MAIN STATEMENT.  The output is strictly ascending in the lexicographic order of keys; every
    item is [Both] with the left entry [(p, l)] and a right entry of the same key and value [r],
    or [Left] with an entry of [ta] whose key is not stored in [tb], or [Right] with an entry of
    [tb] whose key is not stored in [ta]; every entry of either operand is represented. *)
Theorem C05_union ba bb (ta : tree pfx L) (tb : tree pfx R) out :
  wfL ba ta -> wfR bb tb -> t_union w fl L R ta tb = Some out ->
  StronglySorted (fun i j => lex_lt (ikey i) (ikey j)) out /\
  (forall it, In it out ->
     match it with
     | IBoth p l r => In (p, l) (entries ta) /\ exists pr, In (pr, r) (entries tb) /\ kbits w pr = kbits w p
     | ILeft p l _ => In (p, l) (entries ta) /\ forall e, In e (entries tb) -> keyR e <> kbits w p
     | IRight p _ r => In (p, r) (entries tb) /\ forall e, In e (entries ta) -> keyL e <> kbits w p
     end) /\
  (forall e, In e (entries ta) -> exists it, In it out /\ ikey it = keyL e) /\
  (forall e, In e (entries tb) -> exists it, In it out /\ ikey it = keyR e).
Proof.
  intros Ha Hb E.
  destruct (union_some (laws w fl Hw) Ha Hb E) as (Hs & Hi & Hca & Hcb).
  split; [exact Hs|]. split; [|split; assumption].
  intros it Hit. specialize (Hi it Hit). destruct it as [p l ann|p ann r|p l r].
  - exact (conj (proj1 Hi) (proj1 (proj2 Hi))).
  - exact (conj (proj1 Hi) (proj1 (proj2 Hi))).
  - exact Hi.
Qed.

(** One item per stored key, in order: the key list of the output is strictly ascending, has no
    repetition, and contains exactly the keys stored in at least one operand. *)
Theorem C05_union_keys ba bb (ta : tree pfx L) (tb : tree pfx R) out :
  wfL ba ta -> wfR bb tb -> t_union w fl L R ta tb = Some out ->
  StronglySorted lex_lt (map ikey out) /\ NoDup (map ikey out) /\
  forall k, In k (map ikey out) <-> In k (map keyL (entries ta)) \/ In k (map keyR (entries tb)).
Proof.
  intros Ha Hb E.
  pose proof (union_some (laws w fl Hw) Ha Hb E) as U.
  split; [exact (union_keys_sorted U)|]. split; [exact (ss_lex_nodup _ (union_keys_sorted U)) | exact (union_keys_iff U)].
Qed.

(** each key once (named separately: it is [C05_union_keys]'s second clause) *)
Theorem C05_union_once ba bb (ta : tree pfx L) (tb : tree pfx R) out :
  wfL ba ta -> wfR bb tb -> t_union w fl L R ta tb = Some out -> NoDup (map ikey out).
Proof. intros Ha Hb E. exact (proj1 (proj2 (C05_union_keys ba bb ta tb out Ha Hb E))). Qed.

(** The tag: an item carries a left value exactly when its key is stored in [ta], and a right
    value exactly when its key is stored in [tb].  Hence it is [Both] iff the key is stored in
    both operands, [Left] iff in [ta] only, [Right] iff in [tb] only. *)
Theorem C05_union_presence ba bb (ta : tree pfx L) (tb : tree pfx R) out it :
  wfL ba ta -> wfR bb tb -> t_union w fl L R ta tb = Some out -> In it out ->
  (ilval it <> None <-> In (ikey it) (map keyL (entries ta))) /\
  (irval it <> None <-> In (ikey it) (map keyR (entries tb))).
Proof.
  intros Ha Hb E.
  exact (union_presence (union_some (laws w fl Hw) Ha Hb E)).
Qed.

(** The values: every entry [(p, l)] of [ta] is carried by an item that reports the prefix [p]
    itself and the left value [l]; every entry [(pr, r)] of [tb] is carried by an item of key
    [pr] with right value [r], which reports [pr] itself unless it also has a left value.  (By
    [C05_union_keys] the item of a key is unique, so these are THE items of those keys.) *)
Theorem C05_union_left_entry ba bb (ta : tree pfx L) (tb : tree pfx R) out p l :
  wfL ba ta -> wfR bb tb -> t_union w fl L R ta tb = Some out -> In (p, l) (entries ta) ->
  exists it, In it out /\ iprefix it = p /\ ilval it = Some l.
Proof.
  intros Ha Hb E.
  exact (union_item_left Ha (union_some (laws w fl Hw) Ha Hb E)).
Qed.

Theorem C05_union_right_entry ba bb (ta : tree pfx L) (tb : tree pfx R) out pr r :
  wfL ba ta -> wfR bb tb -> t_union w fl L R ta tb = Some out -> In (pr, r) (entries tb) ->
  exists it, In it out /\ ikey it = kbits w pr /\ irval it = Some r /\ (ilval it = None -> iprefix it = pr).
Proof.
  intros Ha Hb E.
  exact (union_item_right Hb (union_some (laws w fl Hw) Ha Hb E)).
Qed.

(** ... and an item carries nothing else: its left value is stored in [ta] under the reported
    prefix, its right value is stored in [tb] under a prefix of the same key (under the reported
    prefix itself if the item has no left value). *)
Theorem C05_union_item_values ba bb (ta : tree pfx L) (tb : tree pfx R) out it :
  wfL ba ta -> wfR bb tb -> t_union w fl L R ta tb = Some out -> In it out ->
  (forall l, ilval it = Some l -> In (iprefix it, l) (entries ta)) /\
  (forall r, irval it = Some r -> exists pr, In (pr, r) (entries tb) /\ kbits w pr = ikey it) /\
  (forall r, ilval it = None -> irval it = Some r -> In (iprefix it, r) (entries tb)).
Proof.
  intros Ha Hb E.
  exact (union_item_sound (union_some (laws w fl Hw) Ha Hb E)).
Qed.

(** [union_mut] terminates too and yields, position by position, the same prefix with the same
    presence pattern and the same values as [union] (so everything above holds for it). *)
Theorem C05_union_mut ba bb (ta : tree pfx L) (tb : tree pfx R) :
  wfL ba ta -> wfR bb tb ->
  exists out outm, t_union w fl L R ta tb = Some out /\ t_union_mut w fl L R ta tb = Some outm /\
    map (fun '(p, l, r) => (p, option_map snd l, option_map snd r)) outm =
    map (fun it => (iprefix it, ilval it, irval it)) out.
Proof.
  intros Ha Hb.
  destruct (union_mut_mirrors pfx L R _ _ _ _ _ _ _ _ _ (laws w fl Hw) _ _ _ _ Ha Hb) as (out & outm & E1 & E2 & M).
  exists out, outm. split; [exact E1|]. split; [exact E2|].
  etransitivity; [exact (eq_sym M)|]. apply map_ext. intros it. apply projU_parts.
Qed.

(** in particular the same keys in the same order *)
Theorem C05_union_mut_keys ba bb (ta : tree pfx L) (tb : tree pfx R) :
  wfL ba ta -> wfR bb tb ->
  exists out outm, t_union w fl L R ta tb = Some out /\ t_union_mut w fl L R ta tb = Some outm /\
    map (fun it : umitem pfx L R => kbits w (fst (fst it))) outm = map ikey out.
Proof.
  intros Ha Hb.
  destruct (union_mut_mirrors pfx L R _ _ _ _ _ _ _ _ _ (laws w fl Hw) _ _ _ _ Ha Hb) as (out & outm & E1 & E2 & M).
  exists out, outm. split; [exact E1|]. split; [exact E2|]. exact (union_mut_keys (eq_sym M)).
Qed.

(** the mutable references [union_mut] hands out are the slots of exactly those entries
    ([entries_id] lists (slot, prefix, value)); an item with both sides reports the LEFT entry's
    stored prefix, so the right clause is then up to the denoted key *)
Theorem C05_union_mut_slots ba bb (ta : tree pfx L) (tb : tree pfx R) outm :
  wfL ba ta -> wfR bb tb -> t_union_mut w fl L R ta tb = Some outm ->
  forall p l r, In (p, l, r) outm ->
    (forall i x, l = Some (i, x) -> In (i, p, x) (entries_id ta)) /\
    (forall i y, r = Some (i, y) ->
       (l = None -> In (i, p, y) (entries_id tb)) /\
       exists pr, In (i, pr, y) (entries_id tb) /\ kbits w pr = kbits w p).
Proof. exact (union_mut_slots pfx L R _ _ _ _ _ _ _ _ _ (laws w fl Hw) ba bb ta tb outm). Qed.

(** Views.  A well-formed view ([ViewsThm.view_wf]: what [view()], [view_at()], [find()], [left()],
    [right()], [split()] produce from a well-formed map, with a stored, branching or virtual root)
    is an admissible operand: the operand is [v_tree v], its entries are [v_entries v]. *)
Theorem C05_union_views (va : view pfx L) (vb : view pfx R) :
  view_wf pfx L pzero (kbits w) (okp w) va -> view_wf pfx R pzero (kbits w) (okp w) vb ->
  exists out, t_union w fl L R (v_tree va) (v_tree vb) = Some out /\
              union_spec pfx L R (kbits w) (v_entries pfx L va) (v_entries pfx R vb) out.
Proof.
  intros Ha Hb. destruct (view_operand_wf Ha) as [ba Wa].
  destruct (view_operand_wf Hb) as [bb Wb].
  exact (union_correct pfx L R _ _ _ _ _ _ _ _ _ (laws w fl Hw) ba bb _ _ Wa Wb).
Qed.

(** Reachable states.  For any two histories of public mutating calls (over [L] resp. [R]; running
    the same history twice gives two views of one map) and any two valid [view_at] positions, the
    resulting views are well-formed operands — every reachable state is well-formed (C15,
    [Common.reachable_wfm]) and [view_at] yields well-formed views ([SetOpsExtra.view_at_wf]).
    Views derived from them by [find] / [left] / [right] / [split] are well-formed again
    ([ViewsThm.v_find_spec], [v_side_spec]; C11), so the [view_wf] premise above is always met. *)
Theorem C05_reachable (opsA : list (hop L)) (opsB : list (hop R)) qa qb va vb :
  Forall (hop_ok w L) opsA -> Forall (hop_ok w R) opsB -> okp w qa -> okp w qb ->
  t_view_at w fl L (root (hrun w fl L opsA)) qa = Some va ->
  t_view_at w fl R (root (hrun w fl R opsB)) qb = Some vb ->
  exists out, t_union w fl L R (v_tree va) (v_tree vb) = Some out /\
              union_spec pfx L R (kbits w) (v_entries pfx L va) (v_entries pfx R vb) out.
Proof.
  intros HA HB Hqa Hqb Ea Eb. apply C05_union_views.
  - exact (view_at_wf (laws w fl Hw) (reachable_wfm w fl L Hw opsA HA) Hqa Ea).
  - exact (view_at_wf (laws w fl Hw) (reachable_wfm w fl R Hw opsB HB) Hqb Eb).
Qed.

(** * At the arena level: [union] / [union_mut] of the transcribed code (Arena3.v) started at the roots
      of two arenas reachable from the empty arena by any history over the whole alphabet, against the
      two maps' own iterations [esL], [esR]. *)
Theorem C05_arena (amL : Arena.amap pfx L) (amR : Arena.amap pfx R) esL esR :
  areach pfx L (peq w) (contains w fl) (is_bit_set w) plen (lcp w fl) pzero (okp w) amL -> areach pfx R (peq w) (contains w fl) (is_bit_set w) plen (lcp w fl) pzero (okp w) amR ->
  Arena.a_entries pfx L amL = Arena.Ok esL -> Arena.a_entries pfx R amR = Arena.Ok esR ->
  exists out outm,
    Arena3.a_union pfx L R (contains w fl) (is_bit_set w) plen (mcmp w) (Arena.tbl amL) (Arena.tbl amR) 0 0 = Arena.Ok out /\
    UnionThm.union_spec pfx L R (kbits w) esL esR out /\
    Arena3.a_union_mut pfx L R (contains w fl) (is_bit_set w) plen (mcmp w) (Arena.tbl amL) (Arena.tbl amR) 0 0 = Arena.Ok outm /\
    map (fun it => (iprefix it, ilval it, irval it)) out
    = map (fun '(p, l, r) => (p, option_map snd l, option_map snd r)) outm.
Proof.
  intros HL HR EL ER.
  destruct (arena_C05_C08_union pfx L R _ _ _ _ _ _ _ _ _ (laws w fl Hw) amL amR esL esR HL HR EL ER)
    as (out & outm & E1 & S & E2 & M).
  exists out, outm. split; [exact E1|]. split; [exact S|]. split; [exact E2|].
  etransitivity; [|exact M]. apply map_ext. intros [p l a|p a r|p l r]; reflexivity.
Qed.

(** * ... and at ANY pair of view locations (ArenaSetViews.v): [lL], [lR] are obtained by any sequence
      of navigation calls ([a_vreach]: stored, branching and VIRTUAL roots; equal, nested, disjoint
      positions) on the two arenas; [esL], [esR] are what the two views' own iterations yield; the arena
      iterators start at the two slots [loc_idx], exactly as the Rust constructors do. *)
Theorem C05_arena_views (amL : Arena.amap pfx L) (amR : Arena.amap pfx R) lL lR esL esR :
  areach pfx L (peq w) (contains w fl) (is_bit_set w) plen (lcp w fl) pzero (okp w) amL -> areach pfx R (peq w) (contains w fl) (is_bit_set w) plen (lcp w fl) pzero (okp w) amR ->
  a_vreach pfx L (peq w) (contains w fl) (is_bit_set w) plen (lcp w fl) (okp w) (Arena.tbl amL) lL ->
  a_vreach pfx R (peq w) (contains w fl) (is_bit_set w) plen (lcp w fl) (okp w) (Arena.tbl amR) lR ->
  a_v_iter pfx L (Arena.tbl amL) lL = Arena.Ok esL -> a_v_iter pfx R (Arena.tbl amR) lR = Arena.Ok esR ->
  exists out outm,
    Arena3.a_union pfx L R (contains w fl) (is_bit_set w) plen (mcmp w) (Arena.tbl amL) (Arena.tbl amR) (Arena3.loc_idx lL) (Arena3.loc_idx lR) = Arena.Ok out /\
    UnionThm.union_spec pfx L R (kbits w) esL esR out /\
    Arena3.a_union_mut pfx L R (contains w fl) (is_bit_set w) plen (mcmp w) (Arena.tbl amL) (Arena.tbl amR) (Arena3.loc_idx lL) (Arena3.loc_idx lR) = Arena.Ok outm /\
    map (fun it => (iprefix it, ilval it, irval it)) out
    = map (fun '(p, l, r) => (p, option_map snd l, option_map snd r)) outm.
Proof.
  intros HL HR VL VR EL ER.
  destruct (arena_views_union pfx L R _ _ _ _ _ _ _ _ _ (laws w fl Hw) amL amR lL lR esL esR HL HR VL VR EL ER)
    as (out & outm & E1 & S & E2 & M).
  exists out, outm. split; [exact E1|]. split; [exact S|]. split; [exact E2|].
  etransitivity; [|exact M]. apply map_ext. intros [p l a|p a r|p l r]; reflexivity.
Qed.

End C05.

(** Non-vacuity (w = 8).  Map A = {00/2 ↦ 1, 01/2 ↦ 2, 1/1 ↦ 3, 110/3 ↦ 4} over [nat] (its node
    0/1 is a value-less branching node), map B = {0/1 ↦ true, 01/2 ↦ false, 11/2 ↦ true,
    111/3 ↦ false} over [bool].  Left operand: the view of A at 0/1 (branching root, entries 00/2
    and 01/2); right operand: the whole map B (root = zero-length prefix): different roots,
    different maps, different value types.  All three tags occur; [union_mut] agrees.
    Second: the VIRTUAL view of A at 11/2 (real node 110/3) against the view of B at 11/2. *)
Definition C05_ins {V} (m : pmap pfx V) (r l : N) (v : V) : pmap pfx V :=
  fst (t_insert 8 Generic V m (mkpfx r l) v).
Definition C05_A : tree pfx nat :=
  root (C05_ins (C05_ins (C05_ins (C05_ins (t_empty nat) 0x00 2 1%nat) 0x40 2 2%nat) 0x80 1 3%nat) 0xC0 3 4%nat).
Definition C05_B : tree pfx bool :=
  root (C05_ins (C05_ins (C05_ins (C05_ins (t_empty bool) 0x00 1 true) 0x40 2 false) 0xC0 2 true) 0xE0 3 false).

Example C05_example :
  t_view_at 8 Generic nat C05_A (mkpfx 0x00 1) =
    Some (VNode (Node 2 (mkpfx 0 1) None (Node 1 (mkpfx 0 2) (Some 1%nat) Leaf Leaf)
                                          (Node 3 (mkpfx 0x40 2) (Some 2%nat) Leaf Leaf))) /\
  (forall va, t_view_at 8 Generic nat C05_A (mkpfx 0x00 1) = Some va ->
     t_union 8 Generic nat bool (v_tree va) C05_B =
       Some [IRight (mkpfx 0x00 1) None true;
             ILeft (mkpfx 0x00 2) 1%nat (Some (mkpfx 0x00 1, true));
             IBoth (mkpfx 0x40 2) 2%nat false;
             IRight (mkpfx 0xC0 2) None true;
             IRight (mkpfx 0xE0 3) None false] /\
     t_union_mut 8 Generic nat bool (v_tree va) C05_B =
       Some [(mkpfx 0x00 1, None, Some (1%N, true));
             (mkpfx 0x00 2, Some (1%N, 1%nat), None);
             (mkpfx 0x40 2, Some (3%N, 2%nat), Some (2%N, false));
             (mkpfx 0xC0 2, None, Some (3%N, true));
             (mkpfx 0xE0 3, None, Some (4%N, false))]) /\
  t_view_at 8 Generic nat C05_A (mkpfx 0xC0 2) =
    Some (VVirt (mkpfx 0xC0 2) (Node 5 (mkpfx 0xC0 3) (Some 4%nat) Leaf Leaf)) /\
  (forall va vb, t_view_at 8 Generic nat C05_A (mkpfx 0xC0 2) = Some va ->
                 t_view_at 8 Generic bool C05_B (mkpfx 0xC0 2) = Some vb ->
     t_union 8 Generic nat bool (v_tree va) (v_tree vb) =
       Some [IRight (mkpfx 0xC0 2) None true;
             ILeft (mkpfx 0xC0 3) 4%nat (Some (mkpfx 0xC0 2, true));
             IRight (mkpfx 0xE0 3) None false]).
Proof.
  split; [vm_compute; reflexivity|]. split.
  { intros va E. vm_compute in E. injection E as <-. split; vm_compute; reflexivity. }
  split; [vm_compute; reflexivity|].
  intros va vb Ea Eb. vm_compute in Ea, Eb. injection Ea as <-. injection Eb as <-. vm_compute. reflexivity.
Qed.

Print Assumptions C05_union_terminates.
Print Assumptions C05_union.
Print Assumptions C05_union_keys.
Print Assumptions C05_union_once.
Print Assumptions C05_union_presence.
Print Assumptions C05_union_left_entry.
Print Assumptions C05_union_right_entry.
Print Assumptions C05_union_item_values.
Print Assumptions C05_union_mut.
Print Assumptions C05_union_mut_keys.
Print Assumptions C05_union_mut_slots.
Print Assumptions C05_union_views.
Print Assumptions C05_reachable.
Print Assumptions C05_arena.
Print Assumptions C05_arena_views.
