(** C11 — A view addresses exactly the entries under its prefix; left/right split by bit.

    (a) [view_at q] / [view_mut_at q] return [None] only if no stored prefix is covered by [q]; a
        returned view is positioned at [q] (its [prefix()] has the key of [q]; for a real node it is
        the stored node's prefix, for a virtual position it is [q] itself), its [value()] is the
        value stored exactly at [q], and its iterators yield exactly the stored entries covered by
        [q], in the map's (lexicographic) order: the list is the [filter] of [entries T].
    (b) for EVERY well-formed view (real, branching or virtual root; obtained by any sequence of
        left / right / find / find_exact / find_lpm): [left()] ([right()]) addresses exactly the
        entries of the view whose next bit after the view's prefix is 0 (1); [split()] is the pair;
        [has_left]/[has_right] agree; the entry list of the view is its own entry, then the entries
        of the left side, then those of the right side, and the three parts are pairwise disjoint.
    (c) in every state reachable by insert / entry-insert / or_insert / get_mut / remove / retain /
        clear / collect (the alphabet [History.canon_op]), a sub-view or a side exists EXACTLY when
        it contains an entry; the whole-map view always exists.
    Generic proofs: ViewsThm.v, ViewsExtra.v, MutTrav.v, Canon.v, History.v. *)
From Coq Require Import List NArith Bool Sorted.
From PT Require Import Lookup Lookup2 ViewsThm ViewsExtra MutTrav Canon Arena Arena3 ArenaProps ArenaViews.
From PT.Properties Require Import Common.
Import ListNotations.

Section C11.
Variables (w : N) (fl : flavour) (V : Type).
Hypothesis Hw : (1 <= w)%N.

Notation view := (Views.view pfx V).
Notation vwf := (view_wf pfx V pzero (kbits w) (okp w)).
Notation mwf := (vmut_wf pfx V pzero (kbits w) (okp w)).
Notation ventries := (v_entries pfx V).
Notation key := (ekey w V).
Notation under := (ViewsExtra.under pfx V (kbits w)).
Notation key_lt := (TrieWf.key_lt pfx V (kbits w)).
Notation drop_id := (Lookup2.drop_id pfx V).
Notation reach := (v_reach pfx V (peq w) (contains w fl) (is_bit_set w) plen pzero (okp w)).
Notation vcanon := (ViewsExtra.vcanon pfx V pzero (kbits w)).
Notation LAWS := (laws w fl Hw).

(** [AsViewMut::view_mut_at] of a map = [view_mut().find(q).ok()] *)
Definition view_mut_at (T : tree pfx V) (q : pfx) : option (vmut pfx) :=
  t_vm_find w fl V T (vm_root pfx) q.

(** the whole-map view of a well-formed map is a well-formed view *)
Theorem C11_whole_map_view (T : tree pfx V) : wfm w V T -> vwf (view_of T) /\ ventries (view_of T) = entries T.
Proof. intros HT. split; [exact (view_wf_root pfx V pzero _ _ T HT) | reflexivity]. Qed.

(** * (a) view_at *)

(** [view_at q = None] only if no stored prefix is covered by [q] *)
Theorem C11_view_at_none (T : tree pfx V) (q : pfx) :
  wfm w V T -> okp w q -> t_view_at w fl V T q = None ->
  forall e, In e (entries T) -> ~ prefix_of (kbits w q) (key e).
Proof.
  intros HT Hq. exact (v_find_none pfx V _ _ _ _ _ _ _ _ _ LAWS (view_of T) q (proj1 (C11_whole_map_view T HT)) Hq).
Qed.

(** the returned view is well-formed, positioned at [q], and addresses exactly the stored entries
    covered by [q] *)
Theorem C11_view_at_some (T : tree pfx V) (q : pfx) (v : view) :
  wfm w V T -> okp w q -> t_view_at w fl V T q = Some v ->
  vwf v /\ kbits w (t_v_prefix V v) = kbits w q /\
  forall e, In e (ventries v) <-> In e (entries T) /\ prefix_of (kbits w q) (key e).
Proof.
  intros HT Hq. exact (v_find_some pfx V _ _ _ _ _ _ _ _ _ LAWS (view_of T) q v (proj1 (C11_whole_map_view T HT)) Hq).
Qed.

(** the literal value of [prefix()]: for a virtual position it is [q] as passed (host bits
    included — "network form" holds up to host bits, i.e. as keys, see [C11_view_at_some]); for a
    real node it is the prefix stored in that node *)
Theorem C11_view_at_prefix_literal (T : tree pfx V) (q p : pfx) (c : tree pfx V) :
  t_view_at w fl V T q = Some (VVirt p c) -> t_v_prefix V (VVirt p c) = q.
Proof. intros H. exact (v_find_virt_prefix pfx V _ _ _ _ (view_of T) q p c H). Qed.

(** its [value()] is the value stored exactly at [q] ([None] if [q] is not stored) — equivalently,
    what [get q] returns *)
Theorem C11_view_at_value (T : tree pfx V) (q : pfx) (v : view) :
  wfm w V T -> okp w q -> t_view_at w fl V T q = Some v ->
  (forall x, v_value v = Some x <-> exists p, In (p, x) (entries T) /\ kbits w p = kbits w q) /\
  v_value v = t_get w fl V T q.
Proof.
  intros HT Hq H. split; [|exact (view_at_value_get pfx V _ _ _ _ _ _ _ _ _ LAWS T q v HT Hq H)].
  intros x. exact (v_find_value pfx V _ _ _ _ _ _ _ _ _ LAWS (view_of T) q v x (proj1 (C11_whole_map_view T HT)) Hq H).
Qed.

(** its iterators ([iter], [keys], [values], [into_iter]) yield exactly the stored entries covered
    by [q], in the order of the map's own iteration: the list is [entries T] filtered by "covered by
    [q]"; that list is strictly ascending in the lexicographic order of the keys *)
Theorem C11_view_at_iter (T : tree pfx V) (q : pfx) (v : view) :
  wfm w V T -> okp w q -> t_view_at w fl V T q = Some v ->
  map drop_id (v_iter v) = filter (under (kbits w q)) (entries T) /\
  StronglySorted key_lt (map drop_id (v_iter v)).
Proof.
  intros HT Hq H. rewrite v_iter_entries. destruct (C11_whole_map_view T HT) as [Hv _].
  split; [exact (v_find_filter_some pfx V _ _ _ _ _ _ _ _ _ LAWS (view_of T) q v Hv Hq H)|].
  exact (v_entries_sorted pfx V pzero _ _ v (proj1 (C11_view_at_some T q v HT Hq H))).
Qed.

(** no result only if the filter is empty (list form of [C11_view_at_none]) *)
Theorem C11_view_at_none_filter (T : tree pfx V) (q : pfx) :
  wfm w V T -> okp w q -> t_view_at w fl V T q = None -> filter (under (kbits w q)) (entries T) = [].
Proof.
  intros HT Hq.
  exact (v_find_filter_none pfx V _ _ _ _ _ _ _ _ _ LAWS (view_of T) q (proj1 (C11_whole_map_view T HT)) Hq).
Qed.

(** the filter test is "the key of [q] is a prefix of the key of the entry" *)
Theorem C11_under_spec (k : list bool) (e : pfx * V) : under k e = true <-> prefix_of k (key e).
Proof. exact (under_spec pfx V (kbits w) k e). Qed.

(** [view_mut_at] locates the same position as [view_at] ([None] = [None]); [prefix()], [value()]
    and the mutable iterators of a mutable view are those of the read-only view at the same
    location *)
Theorem C11_view_mut_at_sim (T : tree pfx V) (q : pfx) :
  option_map (vm_view T) (view_mut_at T q) = t_view_at w fl V T q.
Proof.
  exact (vm_find_root_sim pfx V _ _ _ _ T q).
Qed.

Theorem C11_mut_accessors (T : tree pfx V) (m : vmut pfx) :
  t_vm_prefix V T m = t_v_prefix V (vm_view T m) /\
  vm_value T m = v_value (vm_view T m) /\
  vm_iter_mut T m = v_iter (vm_view T m).
Proof.
  split; [exact (vm_prefix_sim pfx V pzero T m)|].
  split; [exact (vm_value_sim pfx V T m) | exact (vm_iter_mut_sim pfx V T m)].
Qed.

Theorem C11_view_mut_at_none (T : tree pfx V) (q : pfx) :
  wfm w V T -> okp w q -> view_mut_at T q = None ->
  forall e, In e (entries T) -> ~ prefix_of (kbits w q) (key e).
Proof.
  intros HT Hq H. apply C11_view_at_none; [exact HT | exact Hq|].
  rewrite <- C11_view_mut_at_sim, H. reflexivity.
Qed.

Theorem C11_view_mut_at_some (T : tree pfx V) (q : pfx) (m : vmut pfx) :
  wfm w V T -> okp w q -> view_mut_at T q = Some m ->
  mwf T m /\ kbits w (t_vm_prefix V T m) = kbits w q /\
  (forall x, vm_value T m = Some x <-> exists p, In (p, x) (entries T) /\ kbits w p = kbits w q) /\
  vm_value T m = t_get w fl V T q /\
  map drop_id (vm_iter_mut T m) = filter (under (kbits w q)) (entries T).
Proof.
  intros HT Hq H.
  assert (H' : t_view_at w fl V T q = Some (vm_view T m)) by (rewrite <- C11_view_mut_at_sim, H; reflexivity).
  destruct (C11_mut_accessors T m) as [E1 [E2 E3]]. rewrite E1, E2, E3.
  destruct (C11_view_at_some T q _ HT Hq H') as [A [B _]].
  destruct (C11_view_at_value T q _ HT Hq H') as [C D].
  destruct (C11_view_at_iter T q _ HT Hq H') as [E _].
  split; [exact A|]. split; [exact B|]. split; [exact C|]. split; [exact D | exact E].
Qed.

(** * (b) left / right / split, for every well-formed view *)

(** [left()] ([s = false]) / [right()] ([s = true]) return a well-formed view on a real node that
    addresses exactly the entries of the view under the view's prefix whose next bit is [s]; they
    return [None] only if there is no such entry *)
Theorem C11_side (v : view) (s : bool) :
  vwf v ->
  match (if s then t_v_right w V v else t_v_left w V v) with
  | Some v' =>
    vwf v' /\ v_is_virtual v' = false /\
    forall e, In e (ventries v') <-> In e (ventries v) /\ prefix_of (kbits w (t_v_prefix V v) ++ [s]) (key e)
  | None => forall e, In e (ventries v) -> ~ prefix_of (kbits w (t_v_prefix V v) ++ [s]) (key e)
  end.
Proof. exact (v_side_spec pfx V _ _ _ _ _ _ _ _ _ LAWS v s). Qed.

(** the same as an equality of entry lists (order included) *)
Theorem C11_side_filter (v : view) (s : bool) :
  vwf v ->
  match (if s then t_v_right w V v else t_v_left w V v) with
  | Some v' => ventries v' = filter (under (kbits w (t_v_prefix V v) ++ [s])) (ventries v)
  | None => filter (under (kbits w (t_v_prefix V v) ++ [s])) (ventries v) = []
  end.
Proof. exact (v_side_filter pfx V _ _ _ _ _ _ _ _ _ LAWS v s). Qed.

(** the view's entries are its own entry, then the left side, then the right side ... *)
Theorem C11_decomposition (v : view) :
  ventries v = own_entry pfx V v ++ opt_entries pfx V (t_v_left w V v) ++ opt_entries pfx V (t_v_right w V v).
Proof. exact (v_entries_decomp pfx V _ _ _ v). Qed.

(** ... where the own entry (if any) is [(prefix(), value())], the only entry with the view's key *)
Theorem C11_own_entry (v : view) (e : pfx * V) :
  vwf v -> In e (ventries v) -> key e = kbits w (t_v_prefix V v) ->
  v_is_virtual v = false /\ fst e = t_v_prefix V v /\ v_value v = Some (snd e).
Proof. exact (v_own_entry pfx V pzero _ _ v e). Qed.

(** ... every entry is the own entry or lies on exactly one side (next bit 0 / next bit 1) ... *)
Theorem C11_entries_split (v : view) (e : pfx * V) :
  vwf v -> In e (ventries v) ->
  key e = kbits w (t_v_prefix V v) \/
  prefix_of (kbits w (t_v_prefix V v) ++ [false]) (key e) \/
  prefix_of (kbits w (t_v_prefix V v) ++ [true]) (key e).
Proof. exact (v_entries_split pfx V pzero _ _ v e). Qed.

(** ... and the three cases exclude each other *)
Theorem C11_parts_disjoint (k k' : list bool) :
  (prefix_of (k ++ [false]) k' -> prefix_of (k ++ [true]) k' -> False) /\
  (forall s, prefix_of (k ++ [s]) k' -> k' <> k).
Proof. split; [apply sides_disjoint | intros s H E; exact (below_neq _ _ _ H E)]. Qed.

(** the mutable view: [left]/[right] simulate the read-only ones; [split()] returns both;
    [has_left]/[has_right] say whether they exist *)
Theorem C11_mut_sides_sim (T : tree pfx V) (m : vmut pfx) :
  option_map (vm_view T) (t_vm_left w V T m) = t_v_left w V (vm_view T m) /\
  option_map (vm_view T) (t_vm_right w V T m) = t_v_right w V (vm_view T m).
Proof. split; [exact (vm_left_sim pfx V _ _ _ T m) | exact (vm_right_sim pfx V _ _ _ T m)]. Qed.

Theorem C11_split (T : tree pfx V) (m : vmut pfx) :
  t_vm_split w V T m = (t_vm_left w V T m, t_vm_right w V T m).
Proof. exact (vm_split_eq pfx V _ _ _ T m). Qed.

Theorem C11_has_left (T : tree pfx V) (m : vmut pfx) :
  t_vm_has_left w V T m = true <-> t_vm_left w V T m <> None.
Proof. exact (vm_has_left_spec pfx V _ _ _ T m). Qed.

Theorem C11_has_right (T : tree pfx V) (m : vmut pfx) :
  t_vm_has_right w V T m = true <-> t_vm_right w V T m <> None.
Proof. exact (vm_has_right_spec pfx V _ _ _ T m). Qed.

(** the content of the mutable sides (hence of both halves of [split()]) *)
Theorem C11_mut_side (T : tree pfx V) (m : vmut pfx) (s : bool) :
  mwf T m ->
  match (if s then t_vm_right w V T m else t_vm_left w V T m) with
  | Some m' =>
    mwf T m' /\ mvirt pfx m' = None /\
    forall e, In e (ventries (vm_view T m')) <->
              In e (ventries (vm_view T m)) /\ prefix_of (kbits w (t_vm_prefix V T m) ++ [s]) (key e)
  | None => forall e, In e (ventries (vm_view T m)) -> ~ prefix_of (kbits w (t_vm_prefix V T m) ++ [s]) (key e)
  end.
Proof. exact (vm_side_spec pfx V _ _ _ _ _ _ _ _ _ LAWS T m s). Qed.

(** recursion: every view reachable from a well-formed view by any sequence of
    left / right / find / find_exact / find_lpm is well-formed again — so all statements of this
    file (and of C12) hold for it — and addresses a subset of the entries *)
Theorem C11_reachable_views (v v' : view) :
  vwf v -> reach v v' -> vwf v' /\ incl (ventries v') (ventries v).
Proof. exact (v_reach_wf pfx V _ _ _ _ _ _ _ _ _ LAWS v v'). Qed.

(** ... in particular every view reachable from the whole-map view of a reachable state *)
Theorem C11_reachable_state_views (ops : list (hop V)) (v : view) :
  Forall (hop_ok w V) ops -> reach (view_of (root (hrun w fl V ops))) v ->
  vwf v /\ incl (ventries v) (entries (root (hrun w fl V ops))).
Proof.
  intros Hops Hr.
  exact (C11_reachable_views _ v (proj1 (C11_whole_map_view _ (reachable_wfm w fl V Hw ops Hops))) Hr).
Qed.

(** * (c) canonical histories: a sub-view or side exists exactly when it is non-empty *)

(** the states reachable over the alphabet insert / entry().insert / or_insert / get_mut-style
    updates / remove / retain / clear / collect / writes through iterators ([History.canon_op];
    excluded: [remove_keep_tree], [remove_children], [OccupiedEntry::remove] and the view-level
    [set]/[remove], which leave value-less nodes behind) *)
Definition canon_ops (ops : list (hop V)) : Prop := forallb (History.canon_op pfx V) ops = true.

Lemma C11_canon_root (ops : list (hop V)) :
  Forall (hop_ok w V) ops -> canon_ops ops ->
  vwf (view_of (root (hrun w fl V ops))) /\ vcanon (view_of (root (hrun w fl V ops))).
Proof.
  intros Hops Hc. pose proof (reachable_wfm w fl V Hw ops Hops) as HT.
  split; [exact (proj1 (C11_whole_map_view _ HT))|].
  apply (vcanon_root pfx V pzero (kbits w) (okp w) _ HT).
  exact (reachable_canonical pfx V _ _ _ _ _ _ ops Hc).
Qed.

(** a sub-view of the map (at a non-empty prefix) exists exactly when it contains an entry *)
Theorem C11_canon_view_at (ops : list (hop V)) (q : pfx) :
  Forall (hop_ok w V) ops -> canon_ops ops -> okp w q -> plen q <> 0%N ->
  let T := root (hrun w fl V ops) in
  t_view_at w fl V T q <> None <-> exists e, In e (entries T) /\ prefix_of (kbits w q) (key e).
Proof.
  intros Hops Hc Hq Hlen T. destruct (C11_canon_root ops Hops Hc) as [A B].
  apply (v_find_canon_iff pfx V _ _ _ _ _ _ _ _ _ LAWS (view_of T) q A B Hq).
  left. apply (plen_pos_bits pfx _ _ _ _ _ _ _ _ _ LAWS q Hq). exact Hlen.
Qed.

(** the whole-map view always exists: [view()] is total, and [view_at] of the empty prefix returns
    it, whatever the map contains (also when it is empty) *)
Theorem C11_whole_map_view_exists (T : tree pfx V) (q : pfx) :
  wfm w V T -> okp w q -> plen q = 0%N -> t_view_at w fl V T q = Some (view_of T).
Proof.
  intros HT Hq Hlen. apply (view_at_root pfx V _ _ _ _ _ _ _ _ _ LAWS T q HT Hq).
  destruct (kbits w q) eqn:E; [reflexivity|]. exfalso.
  apply (plen_pos_bits pfx _ _ _ _ _ _ _ _ _ LAWS q Hq); [|exact Hlen]. rewrite E. discriminate.
Qed.

(** for EVERY view reachable from the whole-map view: a side exists exactly when some entry of
    the view has that next bit *)
Theorem C11_canon_side (ops : list (hop V)) (v : view) (s : bool) :
  Forall (hop_ok w V) ops -> canon_ops ops -> reach (view_of (root (hrun w fl V ops))) v ->
  (if s then t_v_right w V v else t_v_left w V v) <> None <->
  exists e, In e (ventries v) /\ prefix_of (kbits w (t_v_prefix V v) ++ [s]) (key e).
Proof.
  intros Hops Hc Hr. destruct (C11_canon_root ops Hops Hc) as [A B].
  apply (v_side_canon_iff pfx V _ _ _ _ _ _ _ _ _ LAWS v s).
  - exact (proj1 (C11_reachable_views _ v A Hr)).
  - exact (v_reach_canon pfx V _ _ _ _ _ _ _ _ _ LAWS _ v A B Hr).
Qed.

(** ... and a sub-view (at a non-empty prefix) exists exactly when some entry of the view is
    covered by the query *)
Theorem C11_canon_find (ops : list (hop V)) (v : view) (q : pfx) :
  Forall (hop_ok w V) ops -> canon_ops ops -> reach (view_of (root (hrun w fl V ops))) v ->
  okp w q -> plen q <> 0%N ->
  t_v_find w fl V v q <> None <-> exists e, In e (ventries v) /\ prefix_of (kbits w q) (key e).
Proof.
  intros Hops Hc Hr Hq Hlen. destruct (C11_canon_root ops Hops Hc) as [A B].
  apply (v_find_canon_iff pfx V _ _ _ _ _ _ _ _ _ LAWS v q).
  - exact (proj1 (C11_reachable_views _ v A Hr)).
  - exact (v_reach_canon pfx V _ _ _ _ _ _ _ _ _ LAWS _ v A B Hr).
  - exact Hq.
  - left. apply (plen_pos_bits pfx _ _ _ _ _ _ _ _ _ LAWS q Hq). exact Hlen.
Qed.

(** every view other than the whole-map view holds at least one entry *)
Theorem C11_canon_nonempty (ops : list (hop V)) (v : view) :
  Forall (hop_ok w V) ops -> canon_ops ops -> reach (view_of (root (hrun w fl V ops))) v ->
  v = view_of (root (hrun w fl V ops)) \/ exists e, In e (ventries v).
Proof.
  intros Hops Hc Hr. pose proof (reachable_wfm w fl V Hw ops Hops) as HT.
  destruct (v_reach_canon_root pfx V _ _ _ _ _ _ _ _ _ LAWS _ v HT (reachable_canonical pfx V _ _ _ _ _ _ ops Hc) Hr)
    as [E|[_ H]]; [left; exact E | right; exact H].
Qed.

(** the mutable twins: [has_left]/[has_right] (= existence of [left]/[right] = the halves of
    [split]) hold exactly when that side contains an entry *)
Theorem C11_canon_mut_side (ops : list (hop V)) (m : vmut pfx) (s : bool) :
  let T := root (hrun w fl V ops) in
  Forall (hop_ok w V) ops -> canon_ops ops -> reach (view_of T) (vm_view T m) ->
  (if s then t_vm_has_right w V T m else t_vm_has_left w V T m) = true <->
  exists e, In e (ventries (vm_view T m)) /\ prefix_of (kbits w (t_vm_prefix V T m) ++ [s]) (key e).
Proof.
  intros T Hops Hc Hr.
  pose proof (C11_canon_side ops (vm_view T m) s Hops Hc Hr) as H.
  destruct (C11_mut_accessors T m) as [E _]. rewrite E. rewrite <- H. clear H.
  destruct (C11_mut_sides_sim T m) as [Sl Sr].
  destruct s.
  - rewrite C11_has_right, <- Sr. destruct (t_vm_right w V T m); cbn; split; intros H; congruence.
  - rewrite C11_has_left, <- Sl. destruct (t_vm_left w V T m); cbn; split; intros H; congruence.
Qed.

(** * the arena-level model of [TrieView] / [TrieViewMut] ([Arena3.a_v_*] / [a_vm_*], proofs in
      ArenaViews.v): [am] is any arena reachable from the empty arena by a history over the whole
      mutator alphabet; [es] is what the map's / the view's own iteration yields; the statements
      mention arena-level observations only *)
Notation avreach am := (a_vreach pfx V (peq w) (contains w fl) (is_bit_set w) plen (lcp w fl) (okp w) (Arena.tbl am)).
Notation aviter am := (a_v_iter pfx V (Arena.tbl am)).

(** [view_at q] / [view_mut_at q] ([find q] at the root location, both families) *)
Theorem C11_arena_view_at (am : Arena.amap pfx V) q es :
  areach pfx V (peq w) (contains w fl) (is_bit_set w) plen (lcp w fl) pzero (okp w) am -> okp w q -> Arena.a_entries pfx V am = Arena.Ok es ->
  exists o, Arena3.a_v_find pfx V (peq w) (contains w fl) (is_bit_set w) plen (lcp w fl) (Arena.tbl am) (Arena3.LNode 0) q = Arena.Ok o /\
            Arena3.a_vm_find pfx V (peq w) (contains w fl) (is_bit_set w) plen (lcp w fl) (Arena.tbl am) (Arena3.LNode 0) q = Arena.Ok o /\
    match o with
    | Some l' => avreach am l' /\ aviter am l' = Arena.Ok (filter (under (kbits w q)) es) /\
                 exists p, Arena3.a_v_prefix pfx V (Arena.tbl am) l' = Arena.Ok p /\ kbits w p = kbits w q
    | None => filter (under (kbits w q)) es = []
    end.
Proof. exact (arena_C11_view_at pfx V _ _ _ _ _ _ _ _ _ LAWS am q es). Qed.

(** [left()] ([s = false]) / [right()] ([s = true]) at any location reachable by navigation *)
Theorem C11_arena_side (am : Arena.amap pfx V) l (s : bool) p es :
  areach pfx V (peq w) (contains w fl) (is_bit_set w) plen (lcp w fl) pzero (okp w) am -> avreach am l ->
  Arena3.a_v_prefix pfx V (Arena.tbl am) l = Arena.Ok p -> aviter am l = Arena.Ok es ->
  exists o, (if s then Arena3.a_v_right pfx V (is_bit_set w) plen (Arena.tbl am) l
             else Arena3.a_v_left pfx V (is_bit_set w) plen (Arena.tbl am) l) = Arena.Ok o /\
    match o with
    | Some l' => avreach am l' /\ aviter am l' = Arena.Ok (filter (under (kbits w p ++ [s])) es)
    | None => filter (under (kbits w p ++ [s])) es = []
    end.
Proof. exact (arena_C11_side pfx V _ _ _ _ _ _ _ _ _ LAWS am l s p es). Qed.

End C11.

(** non-vacuity, [w = 8], the map {1/1 -> 1, 10/2 -> 2, 11/2 -> 3, 101/3 -> 4, 11010/5 -> 5}:
    - [view_at 110/3] (query given with host bits, [0xc7]) is a VIRTUAL view on the edge
      11/2 -> 11010/5: prefix as passed, no value, entries {11010/5};
    - [view_at 1/1] is a real view holding all five entries, in order, with value 1;
    - [view_at 0/1] does not exist; [view_at 0/0] is the whole-map view;
    - [view_mut_at 110/3] is the same location (path right-right-left, virtual);
    - the virtual view has no left side, its right side is the real node 11010/5; [split],
      [has_left], [has_right] of the mutable twin agree;
    - the sides of the view at 1/1 are {10/2, 101/3} and {11/2, 11010/5}. *)
Example C11_example :
  let ins := fun m p x => fst (t_insert 8 Generic nat m p x) in
  let M := ins (ins (ins (ins (ins (t_empty nat) (mkpfx 0x80 1) 1%nat) (mkpfx 0x80 2) 2%nat)
                 (mkpfx 0xc0 2) 3%nat) (mkpfx 0xa0 3) 4%nat) (mkpfx 0xd0 5) 5%nat in
  let T := root M in
  let info := option_map (fun v : view pfx nat =>
                (v_is_virtual v, t_v_prefix nat v, v_value v, map (Lookup2.drop_id pfx nat) (v_iter v))) in
  let at_ := t_view_at 8 Generic nat T in
  info (at_ (mkpfx 0xc7 3)) = Some (true, mkpfx 0xc7 3, None, [(mkpfx 0xd0 5, 5%nat)]) /\
  info (at_ (mkpfx 0x80 1)) =
    Some (false, mkpfx 0x80 1, Some 1%nat,
          [(mkpfx 0x80 1, 1%nat); (mkpfx 0x80 2, 2%nat); (mkpfx 0xa0 3, 4%nat); (mkpfx 0xc0 2, 3%nat); (mkpfx 0xd0 5, 5%nat)]) /\
  at_ (mkpfx 0x00 1) = None /\
  at_ (mkpfx 0x00 0) = Some (view_of T) /\
  view_mut_at 8 Generic nat T (mkpfx 0xc7 3) = Some (mkvmut pfx [true; true; false] (Some (mkpfx 0xc7 3))) /\
  (match at_ (mkpfx 0xc7 3) with
   | Some v => info (t_v_left 8 nat v) = None /\
               info (t_v_right 8 nat v) = Some (false, mkpfx 0xd0 5, Some 5%nat, [(mkpfx 0xd0 5, 5%nat)])
   | None => False
   end) /\
  (let m := mkvmut pfx [true; true; false] (Some (mkpfx 0xc7 3)) in
   t_vm_split 8 nat T m = (None, Some (mkvmut pfx [true; true; false] None)) /\
   t_vm_has_left 8 nat T m = false /\ t_vm_has_right 8 nat T m = true) /\
  (match at_ (mkpfx 0x80 1) with
   | Some v => info (t_v_left 8 nat v) = Some (false, mkpfx 0x80 2, Some 2%nat, [(mkpfx 0x80 2, 2%nat); (mkpfx 0xa0 3, 4%nat)]) /\
               info (t_v_right 8 nat v) = Some (false, mkpfx 0xc0 2, Some 3%nat, [(mkpfx 0xc0 2, 3%nat); (mkpfx 0xd0 5, 5%nat)])
   | None => False
   end).
Proof. vm_compute. repeat split; reflexivity. Qed.

(** the restriction of (c) to the canonical alphabet is necessary: after [remove_keep_tree] the
    value-less leaf 101/3 is still a node, so [view_at 101/3] exists although it holds no entry
    (parts (a) and (b) still hold for it) *)
Example C11_noncanonical_example :
  let ins := fun m p x => fst (t_insert 8 Generic nat m p x) in
  let M := ins (ins (t_empty nat) (mkpfx 0x80 1) 1%nat) (mkpfx 0xa0 3) 4%nat in
  let T := root (fst (t_remove_keep_tree 8 Generic nat M (mkpfx 0xa0 3))) in
  option_map (fun v : view pfx nat => (v_is_virtual v, v_value v, v_iter v)) (t_view_at 8 Generic nat T (mkpfx 0xa0 3))
  = Some (false, None, []) /\
  entries T = [(mkpfx 0x80 1, 1%nat)].
Proof. vm_compute. split; reflexivity. Qed.

Print Assumptions C11_whole_map_view.
Print Assumptions C11_view_at_none.
Print Assumptions C11_view_at_some.
Print Assumptions C11_view_at_prefix_literal.
Print Assumptions C11_view_at_value.
Print Assumptions C11_view_at_iter.
Print Assumptions C11_view_at_none_filter.
Print Assumptions C11_under_spec.
Print Assumptions C11_view_mut_at_sim.
Print Assumptions C11_mut_accessors.
Print Assumptions C11_view_mut_at_none.
Print Assumptions C11_view_mut_at_some.
Print Assumptions C11_side.
Print Assumptions C11_side_filter.
Print Assumptions C11_decomposition.
Print Assumptions C11_own_entry.
Print Assumptions C11_entries_split.
Print Assumptions C11_parts_disjoint.
Print Assumptions C11_mut_sides_sim.
Print Assumptions C11_split.
Print Assumptions C11_has_left.
Print Assumptions C11_has_right.
Print Assumptions C11_mut_side.
Print Assumptions C11_reachable_views.
Print Assumptions C11_reachable_state_views.
Print Assumptions C11_canon_root.
Print Assumptions C11_canon_view_at.
Print Assumptions C11_whole_map_view_exists.
Print Assumptions C11_canon_side.
Print Assumptions C11_canon_find.
Print Assumptions C11_canon_nonempty.
Print Assumptions C11_canon_mut_side.
Print Assumptions C11_arena_view_at.
Print Assumptions C11_arena_side.
