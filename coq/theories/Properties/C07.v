(** C07 — Difference and covering difference select exactly the specified left entries.

    Operands as in C05/C06: any subtree [ta : tree pfx L] well-formed under SOME bound [ba] and any
    subtree [tb : tree pfx R] well-formed under SOME bound [bb]; no relation between them is
    assumed ([tb]'s root may lie above, strictly below or beside [ta]'s root, be stored,
    value-less or the node under a virtual view root; [tb] may hold no entry at all, or the
    zero-length prefix; arbitrary shapes incl. value-less leftover nodes; two value types).

    For every such pair:
    - [difference ta tb] terminates and yields exactly the entries of [ta] whose key is not stored
      in [tb] — as a list: [filter (key not stored in tb) (entries ta)], i.e. each selected entry
      once, with [ta]'s stored prefix and value, in ascending lexicographic order;
    - [covering_difference ta tb] terminates and yields exactly
      [filter (no key of tb covers the key; an equal key covers) (entries ta)];
    - [difference_mut] / [covering_difference_mut] terminate and select the same entries (same list
      after dropping the slot), and the slots they hand out are those entries' slots;
    - edge cases: [tb] without entries gives every entry of [ta] (both operations); [tb] storing the
      zero-length prefix gives an empty covering difference; the covering difference is always
      contained in the difference.
    (The [right] annotation of difference items is the subject of C08.)
    Proofs: InterDiffThm.v ([difference_correct], [difference_filter],
    [covering_difference_correct], [*_mut_mirrors]), SetOpsExtra.v. *)
From Coq Require Import List NArith Sorted Bool.
From PT Require Import Lookup ViewsThm InterDiffThm SetOpsExtra Arena Arena3 ArenaProps ArenaViews ArenaSetViews.
From PT.Properties Require Import Common.
Import ListNotations.

Section C07.
Variables (w : N) (fl : flavour) (L R : Type).
Hypothesis Hw : (1 <= w)%N.
Notation wfL := (wf_under pfx L (kbits w) (okp w)).
Notation wfR := (wf_under pfx R (kbits w) (okp w)).
Notation keyL := (ekey w L).
Notation keyR := (ekey w R).
(** [key_absent B e = true] iff no entry of [B] has the key of [e];
    [uncovered B e = true] iff no entry of [B] has a key that is a prefix of (or equal to) the key of [e] *)
Notation key_absent := (key_absent pfx L R (kbits w)).
Notation uncovered := (uncovered pfx L R (kbits w)).

Theorem C07_key_absent_spec (B : list (pfx * R)) (e : pfx * L) :
  key_absent B e = true <-> forall e', In e' B -> keyR e' <> keyL e.
Proof. exact (key_absent_spec B e). Qed.

Theorem C07_uncovered_spec (B : list (pfx * R)) (e : pfx * L) :
  uncovered B e = true <-> forall e', In e' B -> ~ prefix_of (keyR e') (keyL e).
Proof. exact (uncovered_spec B e). Qed.

(** ** difference *)

Theorem C07_difference_terminates ba bb (ta : tree pfx L) (tb : tree pfx R) :
  wfL ba ta -> wfR bb tb -> exists out, t_difference w fl L R ta tb = Some out.
Proof using Hw. intros _ _. exact (difference_total pfx L R _ _ _ _ _ ta tb). Qed.

(** MAIN STATEMENT (difference): the (prefix, value) pairs yielded are, in this order, the entries
    of [ta] whose key is not stored in [tb].  [entries ta] is strictly ascending and repetition-free
    ([TrieWf.entries_sorted]), hence so is the output. *)
Theorem C07_difference ba bb (ta : tree pfx L) (tb : tree pfx R) out :
  wfL ba ta -> wfR bb tb -> t_difference w fl L R ta tb = Some out ->
  map fst out = filter (key_absent (entries tb)) (entries ta).
Proof. exact (diff_filter (laws w fl Hw)). Qed.

(** the same as membership + order: an entry is yielded iff it is an entry of [ta] whose key is
    not stored in [tb]; keys strictly ascending, none twice *)
Theorem C07_difference_members ba bb (ta : tree pfx L) (tb : tree pfx R) out :
  wfL ba ta -> wfR bb tb -> t_difference w fl L R ta tb = Some out ->
  (forall e, In e (map fst out) <-> In e (entries ta) /\ forall e', In e' (entries tb) -> keyR e' <> keyL e) /\
  StronglySorted lex_lt (map (fun it : ditem pfx L R => kbits w (fst (fst it))) out) /\
  NoDup (map (fun it : ditem pfx L R => kbits w (fst (fst it))) out).
Proof.
  intros Ha Hb E.
  pose proof (diff_some (laws w fl Hw) Ha Hb E) as D.
  split; [exact (diff_in_iff D)|]. split; [exact (diff_keys_sorted D) | exact (ss_lex_nodup _ (diff_keys_sorted D))].
Qed.

(** [difference_mut] terminates and yields the same (prefix, value, match) triples in the same
    order; the references are the slots of exactly those entries of [ta] *)
Theorem C07_difference_mut ba bb (ta : tree pfx L) (tb : tree pfx R) :
  wfL ba ta -> wfR bb tb ->
  exists out outm, t_difference w fl L R ta tb = Some out /\ t_difference_mut w fl L R ta tb = Some outm /\
    map (fun '(p, (_, l), ann) => (p, l, ann)) outm = out /\
    (forall p i l ann, In (p, (i, l), ann) outm -> In (i, p, l) (entries_id ta)).
Proof.
  intros Ha Hb.
  destruct (difference_mut_mirrors pfx L R _ _ _ _ _ _ _ _ _ (laws w fl Hw) _ _ _ _ Ha Hb) as (out & outm & E1 & E2 & M & S).
  exists out, outm. split; [exact E1|]. split; [exact E2|]. split; [symmetry; exact M | exact S].
Qed.

(** ** covering difference *)

Theorem C07_covering_difference_terminates ba bb (ta : tree pfx L) (tb : tree pfx R) :
  wfL ba ta -> wfR bb tb -> exists out, t_covering_difference w fl L R ta tb = Some out.
Proof using Hw. intros _ _. exact (covering_difference_total pfx L R _ _ _ _ _ ta tb). Qed.

(** MAIN STATEMENT (covering difference): the output is, in this order, the entries of [ta] whose
    key is not covered by any key stored in [tb] (an equal key covers). *)
Theorem C07_covering_difference ba bb (ta : tree pfx L) (tb : tree pfx R) out :
  wfL ba ta -> wfR bb tb -> t_covering_difference w fl L R ta tb = Some out ->
  out = filter (uncovered (entries tb)) (entries ta).
Proof.
  intros Ha Hb E.
  exact (cdiff_filter Ha (cdiff_some (laws w fl Hw) Ha Hb E)).
Qed.

Theorem C07_covering_difference_members ba bb (ta : tree pfx L) (tb : tree pfx R) out :
  wfL ba ta -> wfR bb tb -> t_covering_difference w fl L R ta tb = Some out ->
  (forall e, In e out <->
             In e (entries ta) /\ forall e', In e' (entries tb) -> ~ prefix_of (keyR e') (keyL e)) /\
  StronglySorted (fun i j => lex_lt (keyL i) (keyL j)) out /\ NoDup (map keyL out).
Proof.
  intros Ha Hb E.
  pose proof (cdiff_some (laws w fl Hw) Ha Hb E) as C.
  split; [exact (proj2 C)|]. split; [exact (proj1 C) | exact (cdiff_keys_nodup C)].
Qed.

Theorem C07_covering_difference_mut ba bb (ta : tree pfx L) (tb : tree pfx R) :
  wfL ba ta -> wfR bb tb ->
  exists out outm, t_covering_difference w fl L R ta tb = Some out /\
    t_covering_difference_mut w fl L R ta tb = Some outm /\
    map (fun '(p, (_, l)) => (p, l)) outm = out /\
    (forall p i l, In (p, (i, l)) outm -> In (i, p, l) (entries_id ta)).
Proof.
  intros Ha Hb.
  destruct (covering_difference_mut_mirrors pfx L R _ _ _ _ _ _ _ _ _ (laws w fl Hw) _ _ _ _ Ha Hb) as (out & outm & E1 & E2 & M & S).
  exists out, outm. split; [exact E1|]. split; [exact E2|]. split; [symmetry; exact M | exact S].
Qed.

(** ** edge cases named by the property *)

(** [b] empty (no stored entry — e.g. a fresh map, or a sub-view made of value-less nodes only):
    both operations yield every entry of [a]; all [right] annotations are [None] *)
Theorem C07_right_empty ba bb (ta : tree pfx L) (tb : tree pfx R) outd outc :
  wfL ba ta -> wfR bb tb -> entries tb = [] ->
  t_difference w fl L R ta tb = Some outd -> t_covering_difference w fl L R ta tb = Some outc ->
  map fst outd = entries ta /\ (forall it, In it outd -> snd it = None) /\ outc = entries ta.
Proof.
  intros Ha Hb Eb Ed Ec.
  destruct (diff_right_empty (laws w fl Hw) Ha Hb Eb Ed) as [H1 H2].
  split; [exact H1|]. split; [exact H2|].
  pose proof (cdiff_some (laws w fl Hw) Ha Hb Ec) as C. rewrite Eb in C. exact (cdiff_right_empty Ha C).
Qed.

(** [b] holding the zero-length prefix: it covers everything, the covering difference is empty *)
Theorem C07_right_zero ba bb (ta : tree pfx L) (tb : tree pfx R) out :
  wfL ba ta -> wfR bb tb -> (exists e, In e (entries tb) /\ keyR e = []) ->
  t_covering_difference w fl L R ta tb = Some out -> out = [].
Proof.
  intros Ha Hb Hz E.
  exact (cdiff_right_zero (cdiff_some (laws w fl Hw) Ha Hb E) Hz).
Qed.

(** every entry of the covering difference is an entry of the difference *)
Theorem C07_covering_sub_difference ba bb (ta : tree pfx L) (tb : tree pfx R) outd outc e :
  wfL ba ta -> wfR bb tb ->
  t_difference w fl L R ta tb = Some outd -> t_covering_difference w fl L R ta tb = Some outc ->
  In e outc -> In e (map fst outd).
Proof.
  intros Ha Hb Ed Ec.
  exact (cdiff_sub_diff (cdiff_some (laws w fl Hw) Ha Hb Ec) (diff_some (laws w fl Hw) Ha Hb Ed)).
Qed.

(** Views as operands (cf. [C05_union_views]). *)
Theorem C07_views (va : view pfx L) (vb : view pfx R) :
  view_wf pfx L pzero (kbits w) (okp w) va -> view_wf pfx R pzero (kbits w) (okp w) vb ->
  exists outd outc,
    t_difference w fl L R (v_tree va) (v_tree vb) = Some outd /\
    map fst outd = filter (key_absent (v_entries pfx R vb)) (v_entries pfx L va) /\
    t_covering_difference w fl L R (v_tree va) (v_tree vb) = Some outc /\
    outc = filter (uncovered (v_entries pfx R vb)) (v_entries pfx L va).
Proof.
  intros Ha Hb. destruct (view_operand_wf Ha) as [ba Wa].
  destruct (view_operand_wf Hb) as [bb Wb].
  destruct (C07_difference_terminates ba bb _ _ Wa Wb) as [outd Ed].
  destruct (C07_covering_difference_terminates ba bb _ _ Wa Wb) as [outc Ec].
  exists outd, outc. split; [exact Ed|]. split; [exact (C07_difference ba bb _ _ outd Wa Wb Ed)|].
  split; [exact Ec | exact (C07_covering_difference ba bb _ _ outc Wa Wb Ec)].
Qed.

(** Reachable states: two views obtained by [view_at] from any two histories are well-formed
    operands (as for [C05_reachable]). *)
Theorem C07_reachable (opsA : list (hop L)) (opsB : list (hop R)) qa qb va vb :
  Forall (hop_ok w L) opsA -> Forall (hop_ok w R) opsB -> okp w qa -> okp w qb ->
  t_view_at w fl L (root (hrun w fl L opsA)) qa = Some va ->
  t_view_at w fl R (root (hrun w fl R opsB)) qb = Some vb ->
  exists outd outc,
    t_difference w fl L R (v_tree va) (v_tree vb) = Some outd /\
    map fst outd = filter (key_absent (v_entries pfx R vb)) (v_entries pfx L va) /\
    t_covering_difference w fl L R (v_tree va) (v_tree vb) = Some outc /\
    outc = filter (uncovered (v_entries pfx R vb)) (v_entries pfx L va).
Proof.
  intros HA HB Hqa Hqb Ea Eb. apply C07_views.
  - exact (view_at_wf (laws w fl Hw) (reachable_wfm w fl L Hw opsA HA) Hqa Ea).
  - exact (view_at_wf (laws w fl Hw) (reachable_wfm w fl R Hw opsB HB) Hqb Eb).
Qed.

(** * The same statement about the arena-level transcription (ArenaProps.v), at the roots of two
      reachable arenas *)
Theorem C07_arena_difference (amL : Arena.amap pfx L) (amR : Arena.amap pfx R) esL esR :
  areach pfx L (peq w) (contains w fl) (is_bit_set w) plen (lcp w fl) pzero (okp w) amL -> areach pfx R (peq w) (contains w fl) (is_bit_set w) plen (lcp w fl) pzero (okp w) amR ->
  Arena.a_entries pfx L amL = Arena.Ok esL -> Arena.a_entries pfx R amR = Arena.Ok esR ->
  exists out outm,
    Arena3.a_difference pfx L R (contains w fl) (is_bit_set w) plen (mcmp w) (Arena.tbl amL) (Arena.tbl amR) 0 0 = Arena.Ok out /\
    InterDiffThm.diff_spec pfx L R (kbits w) esL esR out /\
    map fst out = filter (fun e => negb (existsb (fun e' => Bits.beq (kbits w (fst e')) (kbits w (fst e))) esR)) esL /\
    Arena3.a_difference_mut pfx L R (contains w fl) (is_bit_set w) plen (mcmp w) (Arena.tbl amL) (Arena.tbl amR) 0 0 = Arena.Ok outm /\
    out = map (fun '(p, (_, l), ann) => (p, l, ann)) outm.
Proof.
  exact (arena_C07_C08_difference pfx L R _ _ _ _ _ _ _ _ _ (laws w fl Hw) amL amR esL esR).
Qed.

Theorem C07_arena_covering_difference (amL : Arena.amap pfx L) (amR : Arena.amap pfx R) esL esR :
  areach pfx L (peq w) (contains w fl) (is_bit_set w) plen (lcp w fl) pzero (okp w) amL -> areach pfx R (peq w) (contains w fl) (is_bit_set w) plen (lcp w fl) pzero (okp w) amR ->
  Arena.a_entries pfx L amL = Arena.Ok esL -> Arena.a_entries pfx R amR = Arena.Ok esR ->
  exists out outm,
    Arena3.a_covering_difference pfx L R (contains w fl) (is_bit_set w) plen (mcmp w) (Arena.tbl amL) (Arena.tbl amR) 0 0 = Arena.Ok out /\
    InterDiffThm.cdiff_spec pfx L R (kbits w) esL esR out /\
    Arena3.a_covering_difference_mut pfx L R (contains w fl) (is_bit_set w) plen (mcmp w) (Arena.tbl amL) (Arena.tbl amR) 0 0 = Arena.Ok outm /\
    out = map (fun '(p, (_, l)) => (p, l)) outm.
Proof.
  exact (arena_C07_covering_difference pfx L R _ _ _ _ _ _ _ _ _ (laws w fl Hw) amL amR esL esR).
Qed.

(** * ... and at any two view locations reached by navigation calls (ArenaSetViews.v), as for
      [C05_arena_views]. *)
Theorem C07_arena_views_difference (amL : Arena.amap pfx L) (amR : Arena.amap pfx R) lL lR esL esR :
  areach pfx L (peq w) (contains w fl) (is_bit_set w) plen (lcp w fl) pzero (okp w) amL -> areach pfx R (peq w) (contains w fl) (is_bit_set w) plen (lcp w fl) pzero (okp w) amR ->
  a_vreach pfx L (peq w) (contains w fl) (is_bit_set w) plen (lcp w fl) (okp w) (Arena.tbl amL) lL ->
  a_vreach pfx R (peq w) (contains w fl) (is_bit_set w) plen (lcp w fl) (okp w) (Arena.tbl amR) lR ->
  a_v_iter pfx L (Arena.tbl amL) lL = Arena.Ok esL -> a_v_iter pfx R (Arena.tbl amR) lR = Arena.Ok esR ->
  exists out outm,
    Arena3.a_difference pfx L R (contains w fl) (is_bit_set w) plen (mcmp w) (Arena.tbl amL) (Arena.tbl amR) (Arena3.loc_idx lL) (Arena3.loc_idx lR) = Arena.Ok out /\
    InterDiffThm.diff_spec pfx L R (kbits w) esL esR out /\
    map fst out = filter (fun e => negb (existsb (fun e' => Bits.beq (kbits w (fst e')) (kbits w (fst e))) esR)) esL /\
    Arena3.a_difference_mut pfx L R (contains w fl) (is_bit_set w) plen (mcmp w) (Arena.tbl amL) (Arena.tbl amR) (Arena3.loc_idx lL) (Arena3.loc_idx lR) = Arena.Ok outm /\
    out = map (fun '(p, (_, l), ann) => (p, l, ann)) outm.
Proof. exact (arena_views_difference pfx L R _ _ _ _ _ _ _ _ _ (laws w fl Hw) amL amR lL lR esL esR). Qed.

Theorem C07_arena_views_covering_difference (amL : Arena.amap pfx L) (amR : Arena.amap pfx R) lL lR esL esR :
  areach pfx L (peq w) (contains w fl) (is_bit_set w) plen (lcp w fl) pzero (okp w) amL -> areach pfx R (peq w) (contains w fl) (is_bit_set w) plen (lcp w fl) pzero (okp w) amR ->
  a_vreach pfx L (peq w) (contains w fl) (is_bit_set w) plen (lcp w fl) (okp w) (Arena.tbl amL) lL ->
  a_vreach pfx R (peq w) (contains w fl) (is_bit_set w) plen (lcp w fl) (okp w) (Arena.tbl amR) lR ->
  a_v_iter pfx L (Arena.tbl amL) lL = Arena.Ok esL -> a_v_iter pfx R (Arena.tbl amR) lR = Arena.Ok esR ->
  exists out outm,
    Arena3.a_covering_difference pfx L R (contains w fl) (is_bit_set w) plen (mcmp w) (Arena.tbl amL) (Arena.tbl amR) (Arena3.loc_idx lL) (Arena3.loc_idx lR) = Arena.Ok out /\
    InterDiffThm.cdiff_spec pfx L R (kbits w) esL esR out /\
    Arena3.a_covering_difference_mut pfx L R (contains w fl) (is_bit_set w) plen (mcmp w) (Arena.tbl amL) (Arena.tbl amR) (Arena3.loc_idx lL) (Arena3.loc_idx lR) = Arena.Ok outm /\
    out = map (fun '(p, (_, l)) => (p, l)) outm.
Proof. exact (arena_views_covering_difference pfx L R _ _ _ _ _ _ _ _ _ (laws w fl Hw) amL amR lL lR esL esR). Qed.

End C07.

(** Non-vacuity (w = 8).  Map A = {00/2 ↦ 1, 01/2 ↦ 2, 1/1 ↦ 3, 110/3 ↦ 4} over [nat] (node 0/1
    is a value-less branching node), map B = {0/1 ↦ true, 01/2 ↦ false, 11/2 ↦ true, 111/3 ↦ false}
    over [bool].
    (1) whole A minus the view of B at 11/2 (b's root strictly below a's root, beside a's 0-side):
        difference keeps all four entries (110/3 annotated with its match 11/2); the covering
        difference drops 110/3, which 11/2 covers.
    (2) the view of A at 0/1 (value-less branching root) minus whole B (b's root above a's):
        01/2 is stored in B, 00/2 is covered by B's 0/1.
    (3) b empty; (4) b holding the zero-length prefix. *)
Definition C07_ins {V} (m : pmap pfx V) (r l : N) (v : V) : pmap pfx V :=
  fst (t_insert 8 Generic V m (mkpfx r l) v).
Definition C07_A : tree pfx nat :=
  root (C07_ins (C07_ins (C07_ins (C07_ins (t_empty nat) 0x00 2 1%nat) 0x40 2 2%nat) 0x80 1 3%nat) 0xC0 3 4%nat).
Definition C07_B : tree pfx bool :=
  root (C07_ins (C07_ins (C07_ins (C07_ins (t_empty bool) 0x00 1 true) 0x40 2 false) 0xC0 2 true) 0xE0 3 false).

Example C07_example :
  match t_view_at 8 Generic nat C07_A (mkpfx 0x00 1), t_view_at 8 Generic bool C07_B (mkpfx 0xC0 2) with
  | Some va, Some vb =>
    v_tree vb = Node 3 (mkpfx 0xC0 2) (Some true) Leaf (Node 4 (mkpfx 0xE0 3) (Some false) Leaf Leaf) /\
    t_difference 8 Generic nat bool C07_A (v_tree vb) =
      Some [(mkpfx 0x00 2, 1%nat, None); (mkpfx 0x40 2, 2%nat, None); (mkpfx 0x80 1, 3%nat, None);
            (mkpfx 0xC0 3, 4%nat, Some (mkpfx 0xC0 2, true))] /\
    t_covering_difference 8 Generic nat bool C07_A (v_tree vb) =
      Some [(mkpfx 0x00 2, 1%nat); (mkpfx 0x40 2, 2%nat); (mkpfx 0x80 1, 3%nat)] /\
    t_covering_difference_mut 8 Generic nat bool C07_A (v_tree vb) =
      Some [(mkpfx 0x00 2, (1%N, 1%nat)); (mkpfx 0x40 2, (3%N, 2%nat)); (mkpfx 0x80 1, (4%N, 3%nat))] /\
    t_difference 8 Generic nat bool (v_tree va) C07_B =
      Some [(mkpfx 0x00 2, 1%nat, Some (mkpfx 0x00 1, true))] /\
    t_difference_mut 8 Generic nat bool (v_tree va) C07_B =
      Some [(mkpfx 0x00 2, (1%N, 1%nat), Some (mkpfx 0x00 1, true))] /\
    t_covering_difference 8 Generic nat bool (v_tree va) C07_B = Some [] /\
    t_covering_difference 8 Generic nat bool C07_A (root (t_empty bool)) = Some (entries C07_A) /\
    t_covering_difference 8 Generic nat bool C07_A (root (C07_ins (t_empty bool) 0 0 true)) = Some []
  | _, _ => False
  end.
Proof. vm_compute. repeat split; reflexivity. Qed.

Print Assumptions C07_key_absent_spec.
Print Assumptions C07_uncovered_spec.
Print Assumptions C07_difference_terminates.
Print Assumptions C07_difference.
Print Assumptions C07_difference_members.
Print Assumptions C07_difference_mut.
Print Assumptions C07_covering_difference_terminates.
Print Assumptions C07_covering_difference.
Print Assumptions C07_covering_difference_members.
Print Assumptions C07_covering_difference_mut.
Print Assumptions C07_right_empty.
Print Assumptions C07_right_zero.
Print Assumptions C07_covering_sub_difference.
Print Assumptions C07_views.
Print Assumptions C07_reachable.
Print Assumptions C07_arena_difference.
Print Assumptions C07_arena_covering_difference.
Print Assumptions C07_arena_views_difference.
Print Assumptions C07_arena_views_covering_difference.
