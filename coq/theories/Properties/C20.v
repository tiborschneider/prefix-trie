(** C20 — no panic, overflow or divergence on valid input; user panics keep the map valid.

    What "panic / overflow / divergence" are in the model.  Every model function is a total Coq
    function: all descents are structural recursions (so they terminate; [C15_depth] bounds every
    path by width+1 nodes).  The places where the Rust code can fail are explicit:
      - traversals with an explicit stack (iterators, children, the eight set-operation
        iterators) run on FUEL and return [None] when it is exhausted = the Rust loop would not
        stop after the number of steps the tree size allows;
      - shifts by the prefix length have a checked variant [mask_from_len_chk] ([None] = the
        debug-build overflow panic of [!0 >> len]); [is_bit_set] uses [checked_shr] semantics;
      - the cached counter is a [Z]: a negative value = [count -= 1] underflowed;
      - [OccupiedEntry] methods [unwrap] the node's value: [None] in the model = that panic;
      - user closures are modelled as functions that may answer [None] = the closure panics.
    The theorems below say that none of these failures happens on valid input in reachable
    states (outside the two recorded known classes: [C20_occupied_reuse_refuted] is a witness of the
    first; the second, counter underflow, needs a counter already desynchronised as in
    [C04_view_refuted] / [C04_entry_reuse_refuted]),
    and that a panicking [retain] predicate leaves a well-formed, size-consistent map holding
    exactly the old entries minus those already rejected.
    Arena indexing and the [unwrap]s on child links, which the tree model cannot express, are the
    subject of the [C20_arena_*] theorems at the end, over the arena-level transcription. *)
From Coq Require Import List NArith ZArith Bool Lia Permutation.
From PT Require Import Lookup Lookup2 Mutate Slots Retain MutTrav UnionThm InterDiffThm HistoryExtra EntryApi InstEntry Arena ArenaThm Arena2 Arena2Thm Arena3 Arena3Thm InstArena.
From PT.Properties Require Import Common.
Import ListNotations.

Lemma entries_id_length {V} (t : tree pfx V) : (length (entries_id t) <= tsize t)%nat.
Proof.
  induction t as [|i p v l IHl r IHr]; [apply le_n|]. cbn [entries_id tsize].
  rewrite !app_length. destruct v; cbn [length]; lia.
Qed.

Section C20.
Variables (w : N) (fl : flavour) (V : Type).
Hypothesis Hw : (1 <= w)%N.
Notation wfR R := (wf_under pfx R (kbits w) (okp w)).

(** * termination of the stack traversals: the fuel derived from the tree size always suffices,
      and an iterator yields at most as many items as there are nodes *)
Theorem C20_iter_terminates (t : tree pfx V) :
  iter_run pfx V (nodes_of [t]) = Some (t_iter_items V t) /\
  t_iter_mut_items V t = t_iter_items V t /\ t_into_iter_items V t = t_iter_items V t /\
  (length (t_iter_items V t) <= tsize t)%nat.
Proof.
  unfold t_iter_items, t_iter_mut_items, t_into_iter_items.
  rewrite iter_mut_items_eq, into_iter_items_eq, iter_items_spec.
  repeat split; [|apply entries_id_length].
  rewrite iter_run_spec by apply nodes_of_is_node. f_equal. apply flat_entries_id_nodes_of1.
Qed.

Theorem C20_children_terminates (t : tree pfx V) (q : pfx) :
  iter_run pfx V (children_start pfx V (peq w) (contains w fl) (is_bit_set w) plen t q)
  = Some (t_children w fl V t q) /\
  t_children_mut w fl V t q = t_children w fl V t q /\
  t_into_children w fl V t q = t_children w fl V t q.
Proof.
  unfold t_children, t_children_mut, t_into_children. split; [|split].
  - unfold children. rewrite iter_run_spec by apply children_start_nodes. reflexivity.
  - apply children_mut_eq.
  - apply into_children_eq.
Qed.

(** the lazy [Cover] iterator stops: after [length cover] calls nothing is pending *)
Theorem C20_cover_terminates (T : tree pfx V) (q : pfx) : T <> Leaf ->
  forall fuel, (length (t_cover_walk w fl V T q) < fuel)%nat ->
  t_cover_drain w fl V fuel T CStart q = t_cover_walk w fl V T q.
Proof. intros _ fuel. exact (cover_drain_pending pfx V _ _ _ _ T q fuel CStart). Qed.

(** all eight set-operation iterators terminate on every pair of well-formed operands (any
    roots, any two value types) *)
Theorem C20_setops_terminate (L R : Type) ba bb (ta : tree pfx L) (tb : tree pfx R) :
  wfR L ba ta -> wfR R bb tb ->
  t_union w fl L R ta tb <> None /\ t_union_mut w fl L R ta tb <> None /\
  t_intersection w fl L R ta tb <> None /\ t_intersection_mut w fl L R ta tb <> None /\
  t_difference w fl L R ta tb <> None /\ t_difference_mut w fl L R ta tb <> None /\
  t_covering_difference w fl L R ta tb <> None /\ t_covering_difference_mut w fl L R ta tb <> None.
Proof using Hw. intros _ _. exact (setops_total pfx L R _ _ _ _ _ ta tb). Qed.

(** * no shift overflow for valid lengths; [is_bit_set] is defined (and false) for every bit
      index at or beyond the length — in particular for 128..=255 on every width *)
Theorem C20_no_shift_overflow (len : N) :
  (len <= w)%N -> mask_from_len_chk w len = Some (mask_from_len w len).
Proof. exact (mask_chk_total w len). Qed.

Theorem C20_bit_index_total (p : pfx) (i : N) :
  okp w p -> (plen p <= i)%N -> is_bit_set w p i = false.
Proof using Hw. intros _. exact (is_bit_set_high w p i). Qed.

(** * the counter never underflows: outside the two view operations that cannot reach it
      (known finding, class view-counter), [len()] is the number of entries after every step,
      hence never negative, and wherever a call is about to take a value out ([count -= 1])
      the counter is at least 1 *)
Theorem C20_counter_never_negative (ops : list (hop V)) (k : nat) :
  forallb (counts pfx V) ops = true ->
  (0 <= len (hrun w fl V (firstn k ops)))%Z.
Proof.
  intros Hc.
  assert (Hk : forallb (counts pfx V) (firstn k ops) = true).
  { apply forallb_firstn. exact Hc. }
  pose proof (reachable_count pfx V (peq w) (contains w fl) (is_bit_set w) plen (lcp w fl) pzero
                (firstn k ops) Hk) as Hci.
  unfold hrun. rewrite (cinv_len pfx V _ Hci). lia.
Qed.

Theorem C20_decrement_safe (m : pmap pfx V) (q : pfx) (y : V) :
  wfm w V (root m) -> cinv pfx V m -> okp w q -> t_get w fl V (root m) q = Some y ->
  (1 <= len m)%Z.
Proof.
  intros Hwf Hc Hq G.
  apply (get_spec_root pfx V _ _ _ _ _ _ _ _ _ (laws w fl Hw) (root m) q y Hwf Hq) in G.
  destruct G as [p0 [Hin _]].
  rewrite (cinv_len pfx V _ Hc). destruct (entries (root m)); [destruct Hin | cbn [length]; lia].
Qed.

(** * [retain]: whatever the predicate does — including panicking at ANY call — the map it
      leaves is well-formed, has consistent slot accounting and a counter equal to its number
      of entries; its entries are the old ones minus those rejected before the panic *)
Theorem C20_retain_any_closure (f : nat -> pfx -> V -> option bool) (m : pmap pfx V) :
  wfm w V (root m) -> minv pfx V m -> cinv pfx V m ->
  let m' := fst (fst (t_retain V f m)) in
  wfm w V (root m') /\ minv pfx V m' /\ cinv pfx V m' /\ (0 <= len m')%Z.
Proof.
  intros Hwf Hm Hc m'. destruct (t_retain V f m) as [[m1 pn] calls] eqn:E. unfold m'. cbn [fst].
  assert (Hc' : cinv pfx V m1).
  { pose proof (retain_cinv pfx V (peq w) (contains w fl) (is_bit_set w) plen (lcp w fl) pzero f m Hc) as H. unfold t_retain in E. rewrite E in H. exact H. }
  split; [eapply (retain_wf pfx V (kbits w) (okp w)); eauto|].
  split; [pose proof (retain_minv pfx V (peq w) (contains w fl) (is_bit_set w) plen (lcp w fl) pzero f m Hm) as H; unfold t_retain in E; rewrite E in H; exact H|].
  split; [exact Hc'|]. rewrite (cinv_len pfx V _ Hc'). lia.
Qed.

(** the scripted closure: invocation [k] panics iff [panics k]; otherwise the verdict is [g] *)
Theorem C20_retain_callback_panic (panics : nat -> bool) (g : pfx -> V -> bool) (m m' : pmap pfx V)
        (panicked : bool) (calls : list (pfx * V)) :
  wfm w V (root m) ->
  t_retain V (pf pfx V panics g) m = (m', panicked, calls) ->
  wfm w V (root m') /\
  incl calls (entries (root m)) /\ NoDup calls /\
  (forall e, In e (entries (root m')) <->
             In e (entries (root m)) /\ ~ (In e calls /\ g (fst e) (snd e) = false)) /\
  (panicked = true -> panics (length calls) = true /\ (length calls < length (entries (root m)))%nat) /\
  (panicked = false <-> forall k, (k < length (entries (root m)))%nat -> panics k = false).
Proof.
  intros Hwf E.
  destruct (retain_pf_spec pfx V (kbits w) (okp w) panics g m m' panicked calls Hwf E)
    as (W & _ & Pi & Pn & Pk & _ & Pp & Piff).
  split; [exact W|]. split; [exact Pi|]. split; [exact Pn|]. split; [exact Pk|]. split; [exact Pp | exact Piff].
Qed.

(** * [OccupiedEntry] on an entry that is occupied: no [unwrap] fails *)
Theorem C20_occupied_entry_total (m : pmap pfx V) (q : pfx) (x y : V) :
  wfm w V (root m) -> okp w q -> t_get w fl V (root m) q = Some y ->
  snd (t_occ_insert w fl V m q x) = Some y /\ snd (t_occ_remove w fl V m q) = Some y /\
  t_h_get w fl V m (t_entry w fl V m q) = Some y.
Proof.
  intros Hwf Hq G. pose proof (laws w fl Hw) as LW. split; [|split].
  - destruct (t_occ_insert w fl V m q x) as [m' o] eqn:E.
    destruct (occ_insert_spec pfx V _ _ _ _ _ _ _ _ _ LW m q x y m' o Hwf Hq G E) as (_ & _ & -> & _). reflexivity.
  - destruct (t_occ_remove w fl V m q) as [m' o] eqn:E.
    destruct (occ_remove_spec pfx V _ _ _ _ _ _ _ _ _ LW m q m' o Hwf Hq E) as (_ & _ & -> & _). exact G.
  - unfold t_h_get, t_entry, h_get, entry. unfold t_get, get in G.
    destruct (get_node pfx V (peq w) (contains w fl) (is_bit_set w) plen (root m) q) as [[[i p] [v|]]|] eqn:N;
      try discriminate. cbn. unfold get. rewrite N. exact G.
Qed.

(** * the Entry API as a whole: ANY sequence of method calls on one entry handle
      ([EntryApi.entry_chain] is the state machine the extracted driver runs for [entry] lines).
      Outside the recorded known class (an accessor other than [key()] after
      [OccupiedEntry::remove] on the same handle) no call panics unless a user closure does; a
      closure panic ([or_insert_with], [and_modify], [VacantEntry::insert_with]) leaves the map
      exactly as the calls before it left it; whatever happens — known class and panicking
      closures included — the map stays well-formed with consistent slot accounting, and outside
      the known class the counter stays exact. *)
Theorem C20_entry_chain_no_panic (m : pmap pfx V) (q : pfx) (acts : list (eact V)) :
  wfm w V (root m) -> okp w q -> occupied_reuse V acts = false -> closure_panics V acts = false ->
  ~ In (TPanic (pfx:=pfx) (V:=V)) (snd (t_entry_chain w fl V m q acts)).
Proof. exact (entry_chain_no_panic pfx V _ _ _ _ _ _ _ _ _ (laws w fl Hw) m q acts). Qed.

Theorem C20_entry_chain_closure_panic (m : pmap pfx V) (q : pfx) (acts : list (eact V)) :
  wfm w V (root m) -> okp w q -> occupied_reuse V acts = false ->
  In (TPanic (pfx:=pfx) (V:=V)) (snd (t_entry_chain w fl V m q acts)) ->
  exists acts1 a acts2,
    acts = acts1 ++ a :: acts2 /\
    (a = EOrInsertWith None \/ a = EAndModify None \/ a = VacInsertWith None) /\
    fst (t_entry_chain w fl V m q acts) = fst (t_entry_chain w fl V m q acts1).
Proof.
  intros Hwf Hq Hr Hin.
  destruct (entry_chain_closure_panic pfx V _ _ _ _ _ _ _ _ _ (laws w fl Hw) m q acts Hwf Hq Hr Hin)
    as [a1 [a [a2 [E [C F]]]]].
  exists a1, a, a2. split; [exact E|]. split; [apply closure_panic_act_spec; exact C | exact F].
Qed.

Theorem C20_entry_chain_keeps_invariants (m : pmap pfx V) (q : pfx) (acts : list (eact V)) :
  wfm w V (root m) -> okp w q ->
  let m' := fst (t_entry_chain w fl V m q acts) in
  wfm w V (root m') /\
  (minv pfx V m -> minv pfx V m') /\
  (cinv pfx V m -> occupied_reuse V acts = false -> cinv pfx V m' /\ (0 <= len m')%Z) /\
  (forall e, ekey w V e <> kbits w q -> (In e (entries (root m')) <-> In e (entries (root m)))).
Proof.
  intros Hwf Hq m'. pose proof (laws w fl Hw) as LW. split; [|split; [|split]].
  - exact (entry_chain_wf pfx V _ _ _ _ _ _ _ _ _ LW m q acts Hwf Hq).
  - exact (entry_chain_minv pfx V (peq w) (contains w fl) (is_bit_set w) plen (lcp w fl) pzero m q acts).
  - intros Hc Hr.
    pose proof (entry_chain_cinv pfx V _ _ _ _ _ _ _ _ _ LW m q acts Hc Hwf Hq Hr) as Hc'.
    split; [exact Hc'|]. pose proof (cinv_len pfx V _ Hc') as E. unfold m', t_entry_chain. rewrite E. lia.
  - exact (entry_chain_frame pfx V _ _ _ _ _ _ _ _ _ LW m q acts Hwf Hq).
Qed.

(** * At the level of the ARENA (Arena.v, Arena2.v: the transcription of src/inner.rs, of the
      lookups and of EVERY mutator of src/map/mod.rs, of the Entry insertions and OccupiedEntry
      writes, of get_mut and of the TrieViewMut writes over a vector of nodes with index links, in
      which every index out of bounds and every [unwrap] of a missing link or value is an explicit
      [Panic] and every link-following loop / recursion runs on fuel): in every arena state
      reachable from the empty map by ANY history over that alphabet, none of these operations
      panics or runs out of fuel, and each loop returns within [length table] iterations. *)
Theorem C20_arena_total (am : amap pfx V) (q : pfx) (x : V)
        (f : nat -> pfx -> V -> option bool) (g : V -> V) :
  reachable2 pfx V (peq w) (contains w fl) (is_bit_set w) plen (lcp w fl) pzero am ->
  (exists o, t_a_get w fl V am q = Ok o) /\ (exists o, t_a_get_lpm w fl V am q = Ok o) /\
  (exists r, t_a_insert w fl V am q x = Ok r) /\ (exists r, t_a_remove w fl V am q = Ok r) /\
  (exists r, t_a_remove_keep_tree w fl V am q = Ok r) /\ (exists es, t_a_entries V am = Ok es) /\
  (exists am', t_a_remove_children w fl V am q = Ok am') /\
  (exists r, t_a_retain V f am = Ok r) /\
  (exists r, t_a_entry_insert w fl V am q x = Ok r) /\
  (exists am', t_a_get_mut w fl V am q g = Ok am').
Proof.
  intros H.
  destruct (reachable_total2 pfx V (peq w) (contains w fl) (is_bit_set w) plen (lcp w fl) pzero (peqN_len w) eq_refl am q x f g H)
    as (A1 & A2 & A3 & A4 & A5 & A6 & A7 & A8 & _ & A10 & _ & _ & A13 & _).
  repeat split; assumption.
Qed.

(** ... and so do the READ-ONLY observers transcribed at arena level (Arena3.v): the remaining
    lookups, the start of [children*] and the lazy [Cover] iterator at every state it can reach *)
Theorem C20_arena_lookups_total (am : amap pfx V) (q : pfx) :
  reachable2 pfx V (peq w) (contains w fl) (is_bit_set w) plen (lcp w fl) pzero am ->
  (exists o, a_get_key_value pfx V (peq w) (contains w fl) (is_bit_set w) plen am q = Ok o) /\
  (exists o, a_contains_key pfx V (peq w) (contains w fl) (is_bit_set w) plen am q = Ok o) /\
  (exists o, a_get_lpm_prefix pfx V (peq w) (contains w fl) (is_bit_set w) plen am q = Ok o) /\
  (exists o, a_get_lpm_mut pfx V (peq w) (contains w fl) (is_bit_set w) plen am q = Ok o) /\
  (exists o, a_get_spm pfx V (peq w) (contains w fl) (is_bit_set w) plen am q = Ok o) /\
  (exists o, a_get_spm_prefix pfx V (peq w) (contains w fl) (is_bit_set w) plen am q = Ok o) /\
  (exists st, a_children_start pfx V (peq w) (contains w fl) (is_bit_set w) plen am q = Ok st) /\
  (exists es, a_children pfx V (peq w) (contains w fl) (is_bit_set w) plen am q = Ok es) /\
  (exists es, a_cover pfx V (peq w) (contains w fl) (is_bit_set w) plen am q = Ok es) /\
  (forall st, cover_reach pfx V (peq w) (contains w fl) (is_bit_set w) plen (tbl am) q st ->
     exists r, a_cover_next pfx V (peq w) (contains w fl) (is_bit_set w) plen (S (length (tbl am))) (tbl am) st q = Ok r).
Proof. exact (reachable_total3 pfx V (peq w) (contains w fl) (is_bit_set w) plen (lcp w fl) pzero (peqN_len w) eq_refl am q). Qed.

(** at every view location linked from the root: [find] / [find_exact] / [find_lpm] of [TrieView]
    and [TrieViewMut] return, and the location they hand out is again linked from the root *)
Theorem C20_arena_views_total (am : amap pfx V) (l : vloc pfx) (q : pfx) :
  reachable2 pfx V (peq w) (contains w fl) (is_bit_set w) plen (lcp w fl) pzero am -> live_loc pfx V (tbl am) l ->
  (exists o, a_v_find pfx V (peq w) (contains w fl) (is_bit_set w) plen (lcp w fl) (tbl am) l q = Ok o /\ olive pfx V (tbl am) o) /\
  (exists o, a_v_find_exact pfx V (peq w) (contains w fl) (is_bit_set w) plen (tbl am) l q = Ok o /\ olive pfx V (tbl am) o) /\
  (exists o, a_v_find_lpm pfx V (peq w) (contains w fl) (is_bit_set w) plen (tbl am) l q = Ok o /\ olive pfx V (tbl am) o) /\
  (exists o, a_vm_find pfx V (peq w) (contains w fl) (is_bit_set w) plen (lcp w fl) (tbl am) l q = Ok o /\ olive pfx V (tbl am) o) /\
  (exists o, a_vm_find_exact pfx V (peq w) (contains w fl) (is_bit_set w) plen (tbl am) l q = Ok o /\ olive pfx V (tbl am) o) /\
  (exists o, a_vm_find_lpm pfx V (peq w) (contains w fl) (is_bit_set w) plen (tbl am) l q = Ok o /\ olive pfx V (tbl am) o).
Proof.
  intros H L.
  destruct (reachable_views pfx V (peq w) (contains w fl) (is_bit_set w) plen (lcp w fl) pzero (peqN_len w) eq_refl am l q H L)
    as (A1 & A2 & A3 & _ & _ & _ & _ & _ & A9 & A10 & A11 & _).
  repeat split; assumption.
Qed.

(** ... and the eight simultaneous-traversal iterators (union, intersection, difference, covering
    difference and their [_mut] twins) as index-pair stack machines over TWO arenas, at any two view
    locations of any two reachable arenas (possibly of different value types): they return within
    the fuel [1 + length tableL + length tableR] *)
Theorem C20_arena_setops_total (R : Type) (amL : amap pfx V) (amR : amap pfx R) (lL lR : vloc pfx) :
  reachable2 pfx V (peq w) (contains w fl) (is_bit_set w) plen (lcp w fl) pzero amL -> reachable2 pfx R (peq w) (contains w fl) (is_bit_set w) plen (lcp w fl) pzero amR ->
  live_loc pfx V (tbl amL) lL -> live_loc pfx R (tbl amR) lR ->
  (exists out, a_union pfx V R (contains w fl) (is_bit_set w) plen (mcmp w) (tbl amL) (tbl amR) (loc_idx lL) (loc_idx lR) = Ok out) /\
  (exists out, a_union_mut pfx V R (contains w fl) (is_bit_set w) plen (mcmp w) (tbl amL) (tbl amR) (loc_idx lL) (loc_idx lR) = Ok out) /\
  (exists out, a_intersection pfx V R (contains w fl) (is_bit_set w) plen (mcmp w) (tbl amL) (tbl amR) (loc_idx lL) (loc_idx lR) = Ok out) /\
  (exists out, a_intersection_mut pfx V R (contains w fl) (is_bit_set w) plen (mcmp w) (tbl amL) (tbl amR) (loc_idx lL) (loc_idx lR) = Ok out) /\
  (exists out, a_difference pfx V R (contains w fl) (is_bit_set w) plen (mcmp w) (tbl amL) (tbl amR) (loc_idx lL) (loc_idx lR) = Ok out) /\
  (exists out, a_difference_mut pfx V R (contains w fl) (is_bit_set w) plen (mcmp w) (tbl amL) (tbl amR) (loc_idx lL) (loc_idx lR) = Ok out) /\
  (exists out, a_covering_difference pfx V R (contains w fl) (is_bit_set w) plen (mcmp w) (tbl amL) (tbl amR) (loc_idx lL) (loc_idx lR) = Ok out) /\
  (exists out, a_covering_difference_mut pfx V R (contains w fl) (is_bit_set w) plen (mcmp w) (tbl amL) (tbl amR) (loc_idx lL) (loc_idx lR) = Ok out).
Proof. exact (reachable_setops pfx V R (peq w) (contains w fl) (is_bit_set w) plen (lcp w fl) pzero (mcmp w) (peqN_len w) eq_refl amL amR lL lR). Qed.

(** the values the arena operations return along a history are those of the tree model *)
Theorem C20_arena_outputs (ops : list (aop pfx V)) :
  a_outs pfx V (peq w) (contains w fl) (is_bit_set w) plen (lcp w fl) ops (a_empty pfx V pzero) = Ok (t_outs pfx V (peq w) (contains w fl) (is_bit_set w) plen (lcp w fl) ops (Trie.empty pfx V pzero)).
Proof. exact (outs_sim pfx V (peq w) (contains w fl) (is_bit_set w) plen (lcp w fl) pzero ops). Qed.

End C20.

(** KNOWN FINDING (class occupied-reuse, recorded in KNOWN_FINDINGS.txt): [OccupiedEntry::remove]
    takes [&mut self], so the handle survives; a second accessor then [unwrap]s a [None].  The
    model reproduces it: after [occ_remove], [occ_insert] on the same key reports the panic. *)
Theorem C20_occupied_reuse_refuted :
  exists (ops : list (hop nat)) (q : pfx),
    Forall (hop_ok 8 nat) ops /\ okp 8 q /\
    let m := hrun 8 Generic nat ops in
    t_get 8 Generic nat (root m) q <> None /\
    snd (t_occ_insert 8 Generic nat (fst (t_occ_remove 8 Generic nat m q)) q 7%nat) = None.
Proof.
  exists [OInsert pfx nat (mkpfx 0x80 1) 1%nat], (mkpfx 0x80 1).
  split; [repeat constructor|]. split; [reflexivity|].
  split; [vm_compute; discriminate | vm_compute; reflexivity].
Qed.

(** non-vacuity: a retain whose predicate panics at its third call, on a 5-entry map: two calls
    are logged, the one rejected entry is gone, the others (incl. the unvisited ones) are kept,
    the counter equals the number of entries *)
Example C20_example :
  let ins m r l x := fst (t_insert 8 Generic nat m (mkpfx r l) x) in
  let m := ins (ins (ins (ins (ins (t_empty nat) 0x00 2 1%nat) 0x40 2 2%nat) 0x80 1 3%nat) 0xc0 2 4%nat) 0xe0 3 5%nat in
  let '(m', panicked, calls) :=
      t_retain nat (pf pfx nat (fun k => Nat.eqb k 2) (fun _ x => Nat.even x)) m in
  (panicked, List.length calls, map snd (entries (root m')), len m') = (true, 2%nat, [2; 3; 4; 5]%nat, 4%Z).
Proof. vm_compute. reflexivity. Qed.

Print Assumptions C20_iter_terminates.
Print Assumptions C20_children_terminates.
Print Assumptions C20_cover_terminates.
Print Assumptions C20_setops_terminate.
Print Assumptions C20_no_shift_overflow.
Print Assumptions C20_bit_index_total.
Print Assumptions C20_counter_never_negative.
Print Assumptions C20_decrement_safe.
Print Assumptions C20_retain_any_closure.
Print Assumptions C20_retain_callback_panic.
Print Assumptions C20_occupied_entry_total.
Print Assumptions C20_occupied_reuse_refuted.
Print Assumptions C20_entry_chain_no_panic.
Print Assumptions C20_entry_chain_closure_panic.
Print Assumptions C20_entry_chain_keeps_invariants.
Print Assumptions C20_arena_total.
Print Assumptions C20_arena_outputs.
Print Assumptions C20_arena_lookups_total.
Print Assumptions C20_arena_views_total.
Print Assumptions C20_arena_setops_total.
Print Assumptions entries_id_length.
