(** C12 — Searching from any view is relative to that view's entries, for every query.

    For every well-formed view [v] — rooted at a stored node, a branching node or a virtual position;
    every view reachable from a reachable map state by view_at / find / find_exact / find_lpm / left /
    right / split is one ([C12_reachable_views]) — and EVERY valid query [q] (inside the view, equal
    to its prefix, covering it, between a virtual root and its real node, disjoint from it):
    - [find q] returns a view positioned at [q] that addresses exactly the entries of [v] covered by
      [q] (as a list: the filter of [v]'s entries), and [None] only if there are none;
    - [find_exact q] answers exactly when [q] is stored in [v], with the very view [find q] returns;
    - [find_lpm q] answers exactly when [v] stores a prefix covering [q], with the view [find_exact]
      returns for the longest such prefix;
    - the [TrieViewMut] twins compute the same locations and fail (hand back the original view:
      [None] in the model, the caller keeps [m]) in exactly the same cases;
    - [view_at] on a view is [find] (in the code: the default method [self.view().find(p)]).
    Generic proofs: ViewsThm.v, ViewsExtra.v, MutTrav.v. *)
From Coq Require Import List NArith Bool Sorted.
From PT Require Import Lookup Lookup2 ViewsThm ViewsExtra MutTrav Arena Arena3 ArenaProps ArenaViews.
From PT.Properties Require Import Common.
Import ListNotations.

Section C12.
Variables (w : N) (fl : flavour) (V : Type).
Hypothesis Hw : (1 <= w)%N.

Notation view := (Views.view pfx V).
Notation vwf := (view_wf pfx V pzero (kbits w) (okp w)).
Notation mwf := (vmut_wf pfx V pzero (kbits w) (okp w)).
Notation ventries := (v_entries pfx V).
Notation key := (ekey w V).
Notation under := (ViewsExtra.under pfx V (kbits w)).
Notation reach := (v_reach pfx V (peq w) (contains w fl) (is_bit_set w) plen pzero (okp w)).
Notation is_lpm := (Lookup.is_lpm pfx V (kbits w)).
Notation no_cover := (Lookup.no_cover pfx V (kbits w)).
Notation LAWS := (laws w fl Hw).

(** the views the theorems range over include every view obtainable from a reachable state *)
Theorem C12_reachable_views (ops : list (hop V)) (v : view) :
  Forall (hop_ok w V) ops -> reach (view_of (root (hrun w fl V ops))) v -> vwf v.
Proof.
  intros Hops Hr.
  exact (proj1 (v_reach_wf pfx V _ _ _ _ _ _ _ _ _ LAWS _ v
                  (view_wf_root pfx V pzero _ _ _ (reachable_wfm w fl V Hw ops Hops)) Hr)).
Qed.

(** * find *)

(** [find q] returns a well-formed view positioned at [q] addressing exactly the entries of [v]
    covered by [q]; [None] only if there are none *)
Theorem C12_find (v : view) (q : pfx) :
  vwf v -> okp w q ->
  match t_v_find w fl V v q with
  | Some v' =>
    vwf v' /\ kbits w (t_v_prefix V v') = kbits w q /\
    forall e, In e (ventries v') <-> In e (ventries v) /\ prefix_of (kbits w q) (key e)
  | None => forall e, In e (ventries v) -> ~ prefix_of (kbits w q) (key e)
  end.
Proof. exact (v_find_spec pfx V _ _ _ _ _ _ _ _ _ LAWS v q). Qed.

(** the same as an equality of entry lists (what the iterators of the result yield, in order) *)
Theorem C12_find_filter (v : view) (q : pfx) :
  vwf v -> okp w q ->
  match t_v_find w fl V v q with
  | Some v' => ventries v' = filter (under (kbits w q)) (ventries v)
  | None => filter (under (kbits w q)) (ventries v) = []
  end.
Proof. exact (v_find_filter pfx V _ _ _ _ _ _ _ _ _ LAWS v q). Qed.

Theorem C12_under_spec (k : list bool) (e : pfx * V) : under k e = true <-> prefix_of k (key e).
Proof. exact (under_spec pfx V (kbits w) k e). Qed.

(** the value of the view found is the value [v] stores exactly at [q]; a virtual result carries
    [q] itself as its prefix *)
Theorem C12_find_value (v v' : view) (q : pfx) (x : V) :
  vwf v -> okp w q -> t_v_find w fl V v q = Some v' ->
  (v_value v' = Some x <-> exists p, In (p, x) (ventries v) /\ kbits w p = kbits w q).
Proof. exact (v_find_value pfx V _ _ _ _ _ _ _ _ _ LAWS v q v' x). Qed.

Theorem C12_find_prefix_literal (v : view) (q p : pfx) (c : tree pfx V) :
  t_v_find w fl V v q = Some (VVirt p c) -> p = q.
Proof. exact (v_find_virt_prefix pfx V _ _ _ _ v q p c). Qed.

(** queries covering the view's real node — this includes every query covering the view's prefix
    and every query between a virtual root and its real node — address the whole view: the result
    exists, sits on the same node, and has the same entries *)
Theorem C12_find_covering (v : view) (q : pfx) :
  vwf v -> okp w q -> prefix_of (kbits w q) (kbits w (tpfx pfx V pzero (v_tree v))) ->
  exists v', t_v_find w fl V v q = Some v' /\ v_tree v' = v_tree v /\ ventries v' = ventries v.
Proof. exact (v_find_above pfx V _ _ _ _ _ _ _ _ _ LAWS v q). Qed.

Theorem C12_find_covering_prefix (v : view) (q : pfx) :
  vwf v -> okp w q -> prefix_of (kbits w q) (kbits w (t_v_prefix V v)) ->
  exists v', t_v_find w fl V v q = Some v' /\ v_tree v' = v_tree v /\ ventries v' = ventries v.
Proof.
  intros Hv Hq Hc. apply (C12_find_covering v q Hv Hq).
  exact (prefix_of_trans _ _ _ Hc (v_prefix_above pfx V pzero _ _ v Hv)).
Qed.

(** queries disjoint from the view's prefix find nothing, by any of the three searches *)
Theorem C12_disjoint (v : view) (q : pfx) :
  vwf v -> okp w q ->
  ~ prefix_of (kbits w q) (kbits w (t_v_prefix V v)) -> ~ prefix_of (kbits w (t_v_prefix V v)) (kbits w q) ->
  t_v_find w fl V v q = None /\ t_v_find_exact w fl V v q = None /\ t_v_find_lpm w fl V v q = None.
Proof. exact (v_find_disjoint pfx V _ _ _ _ _ _ _ _ _ LAWS v q). Qed.

(** * find_exact *)

(** [find_exact q] answers EXACTLY when [q] is stored in the view *)
Theorem C12_find_exact_iff (v : view) (q : pfx) :
  vwf v -> okp w q ->
  (t_v_find_exact w fl V v q <> None <-> exists e, In e (ventries v) /\ key e = kbits w q).
Proof. exact (v_find_exact_iff pfx V _ _ _ _ _ _ _ _ _ LAWS v q). Qed.

(** the view it returns is the view positioned at [q]: a real node, well-formed, with the key of
    [q], carrying the value [v] stores at [q], addressing exactly the entries of [v] covered by [q] *)
Theorem C12_find_exact (v v' : view) (q : pfx) :
  vwf v -> okp w q -> t_v_find_exact w fl V v q = Some v' ->
  vwf v' /\ v_is_virtual v' = false /\ kbits w (t_v_prefix V v') = kbits w q /\
  (exists x, v_value v' = Some x /\ In (t_v_prefix V v', x) (ventries v)) /\
  (forall e, In e (ventries v') <-> In e (ventries v) /\ prefix_of (kbits w q) (key e)).
Proof. exact (v_find_exact_full pfx V _ _ _ _ _ _ _ _ _ LAWS v q v'). Qed.

(** ... it is the very view [find q] returns *)
Theorem C12_find_exact_is_find (v v' : view) (q : pfx) :
  vwf v -> okp w q -> t_v_find_exact w fl V v q = Some v' -> t_v_find w fl V v q = Some v'.
Proof. exact (v_find_exact_find pfx V _ _ _ _ _ _ _ _ _ LAWS v q v'). Qed.

(** * find_lpm *)

(** [find_lpm q] answers EXACTLY when the view stores a prefix covering [q] ... *)
Theorem C12_find_lpm_iff (v : view) (q : pfx) :
  vwf v -> okp w q ->
  (t_v_find_lpm w fl V v q <> None <-> exists e, In e (ventries v) /\ prefix_of (key e) (kbits w q)).
Proof. exact (v_find_lpm_iff pfx V _ _ _ _ _ _ _ _ _ LAWS v q). Qed.

Theorem C12_find_lpm_none (v : view) (q : pfx) :
  vwf v -> okp w q -> t_v_find_lpm w fl V v q = None -> no_cover (ventries v) q.
Proof.
  intros Hv Hq. exact (match_none (v_find_lpm_spec pfx V _ _ _ _ _ _ _ _ _ LAWS v q Hv Hq)).
Qed.

(** ... and then returns the view positioned at the longest prefix [e] stored in [v] that covers
    [q]: a real, well-formed view whose prefix and value are [e], addressing exactly the entries of
    [v] under [e] *)
Theorem C12_find_lpm (v v' : view) (q : pfx) :
  vwf v -> okp w q -> t_v_find_lpm w fl V v q = Some v' ->
  exists e, is_lpm (ventries v) q e /\
    vwf v' /\ v_is_virtual v' = false /\ t_v_prefix V v' = fst e /\ v_value v' = Some (snd e) /\
    (forall e', In e' (ventries v') <-> In e' (ventries v) /\ prefix_of (key e) (key e')).
Proof. exact (v_find_lpm_view pfx V _ _ _ _ _ _ _ _ _ LAWS v q v'). Qed.

(** ... it is the very view [find_exact] (hence [find]) returns for that prefix *)
Theorem C12_find_lpm_is_find_exact (v v' : view) (q : pfx) :
  vwf v -> okp w q -> t_v_find_lpm w fl V v q = Some v' ->
  exists e, is_lpm (ventries v) q e /\ v_prefix_value v' = Some e /\
            t_v_find_exact w fl V v (fst e) = Some v'.
Proof. exact (v_find_lpm_full pfx V _ _ _ _ _ _ _ _ _ LAWS v q v'). Qed.

(** * the mutable twins *)

(** [TrieViewMut::find] / [find_exact] / [find_lpm] compute the location of the read-only search
    from the read-only view at the same location ([AsView for &TrieViewMut]) *)
Theorem C12_mut_sim (T : tree pfx V) (m : vmut pfx) (q : pfx) :
  option_map (vm_view T) (t_vm_find w fl V T m q) = t_v_find w fl V (vm_view T m) q /\
  option_map (vm_view T) (t_vm_find_exact w fl V T m q) = t_v_find_exact w fl V (vm_view T m) q /\
  option_map (vm_view T) (t_vm_find_lpm w fl V T m q) = t_v_find_lpm w fl V (vm_view T m) q.
Proof.
  split; [exact (vm_find_sim pfx V _ _ _ _ T m q)|].
  split; [exact (vm_find_exact_sim pfx V _ _ _ _ T m q) | exact (vm_find_lpm_sim pfx V _ _ _ _ T m q)].
Qed.

(** they fail ([Err(self)]: the original view is handed back) exactly when the read-only search
    returns [None] *)
Theorem C12_mut_failure (T : tree pfx V) (m : vmut pfx) (q : pfx) :
  (t_vm_find w fl V T m q = None <-> t_v_find w fl V (vm_view T m) q = None) /\
  (t_vm_find_exact w fl V T m q = None <-> t_v_find_exact w fl V (vm_view T m) q = None) /\
  (t_vm_find_lpm w fl V T m q = None <-> t_v_find_lpm w fl V (vm_view T m) q = None).
Proof.
  destruct (C12_mut_sim T m q) as [A [B C]]. rewrite <- A, <- B, <- C.
  repeat split; intros H; try (rewrite H; reflexivity).
  - destruct (t_vm_find w fl V T m q); [discriminate | reflexivity].
  - destruct (t_vm_find_exact w fl V T m q); [discriminate | reflexivity].
  - destruct (t_vm_find_lpm w fl V T m q); [discriminate | reflexivity].
Qed.

Theorem C12_mut_find (T : tree pfx V) (m : vmut pfx) (q : pfx) :
  mwf T m -> okp w q ->
  match t_vm_find w fl V T m q with
  | Some m' =>
    mwf T m' /\ kbits w (t_vm_prefix V T m') = kbits w q /\
    forall e, In e (ventries (vm_view T m')) <-> In e (ventries (vm_view T m)) /\ prefix_of (kbits w q) (key e)
  | None => forall e, In e (ventries (vm_view T m)) -> ~ prefix_of (kbits w q) (key e)
  end.
Proof. exact (vm_find_spec pfx V _ _ _ _ _ _ _ _ _ LAWS T m q). Qed.

Theorem C12_mut_find_exact (T : tree pfx V) (m : vmut pfx) (q : pfx) :
  mwf T m -> okp w q ->
  match t_vm_find_exact w fl V T m q with
  | Some m' => mwf T m' /\ mvirt pfx m' = None /\ kbits w (t_vm_prefix V T m') = kbits w q /\
               exists x, vm_value T m' = Some x /\ In (t_vm_prefix V T m', x) (ventries (vm_view T m))
  | None => forall e, In e (ventries (vm_view T m)) -> key e <> kbits w q
  end.
Proof. exact (vm_find_exact_spec pfx V _ _ _ _ _ _ _ _ _ LAWS T m q). Qed.

Theorem C12_mut_find_exact_iff (T : tree pfx V) (m : vmut pfx) (q : pfx) :
  mwf T m -> okp w q ->
  (t_vm_find_exact w fl V T m q <> None <-> exists e, In e (ventries (vm_view T m)) /\ key e = kbits w q).
Proof.
  intros Hm Hq. rewrite <- (C12_find_exact_iff (vm_view T m) q Hm Hq).
  destruct (C12_mut_failure T m q) as [_ [B _]]. rewrite B. reflexivity.
Qed.

Theorem C12_mut_find_lpm (T : tree pfx V) (m : vmut pfx) (q : pfx) :
  mwf T m -> okp w q ->
  match t_vm_find_lpm w fl V T m q with
  | Some m' => exists e, mvirt pfx m' = None /\ v_prefix_value (vm_view T m') = Some e /\
                         is_lpm (ventries (vm_view T m)) q e
  | None => no_cover (ventries (vm_view T m)) q
  end.
Proof. exact (vm_find_lpm_spec pfx V _ _ _ _ _ _ _ _ _ LAWS T m q). Qed.

Theorem C12_mut_find_lpm_iff (T : tree pfx V) (m : vmut pfx) (q : pfx) :
  mwf T m -> okp w q ->
  (t_vm_find_lpm w fl V T m q <> None <-> exists e, In e (ventries (vm_view T m)) /\ prefix_of (key e) (kbits w q)).
Proof.
  intros Hm Hq. rewrite <- (C12_find_lpm_iff (vm_view T m) q Hm Hq).
  destruct (C12_mut_failure T m q) as [_ [_ C]]. rewrite C. reflexivity.
Qed.

(** a successful mutable search is a well-formed mutable view again, for all three searches (so
    the theorems apply recursively) *)
Theorem C12_mut_results_wf (T : tree pfx V) (m m' : vmut pfx) (q : pfx) :
  mwf T m -> okp w q ->
  t_vm_find w fl V T m q = Some m' \/ t_vm_find_exact w fl V T m q = Some m' \/ t_vm_find_lpm w fl V T m q = Some m' ->
  mwf T m'.
Proof.
  intros Hm Hq H. destruct (C12_mut_sim T m q) as [A [B C]].
  apply (v_search_wf pfx V _ _ _ _ _ _ _ _ _ LAWS (vm_view T m) (vm_view T m') q Hm Hq).
  unfold t_v_find, t_v_find_exact, t_v_find_lpm in *. rewrite <- A, <- B, <- C.
  destruct H as [-> | [-> | ->]]; auto.
Qed.

(** * view_at on a view equals find *)

(** [AsView::view_at] is the default method [self.view().find(p)] for every implementor: for a
    map, [view()] is the whole-map view; for a [TrieView], [view()] is the view itself, so
    [view_at] IS [find]; for [&TrieViewMut], [view()] is [vm_view].  [AsViewMut::view_mut_at] is
    [self.view_mut().find(p).ok()] likewise ([view_mut()] of a [TrieViewMut] is itself). *)
Theorem C12_view_at_is_find (T : tree pfx V) (q : pfx) :
  t_view_at w fl V T q = t_v_find w fl V (view_of T) q.
Proof. reflexivity. Qed.

Theorem C12_view_mut_at_is_find (T : tree pfx V) (q : pfx) :
  option_map (vm_view T) (t_vm_find w fl V T (vm_root pfx) q) = t_view_at w fl V T q.
Proof.
  exact (vm_find_root_sim pfx V _ _ _ _ T q).
Qed.

(** * the arena-level model of [TrieView] / [TrieViewMut] ([Arena3.a_v_*] / [a_vm_*], proofs in
      ArenaViews.v): [am] is any arena reachable from the empty arena by a history over the whole
      mutator alphabet, [l] any location obtained from the root location by any sequence of [find] /
      [find_exact] / [find_lpm] / [left] / [right] calls of either family ([a_vreach]); [es] is what
      the view's own iteration yields; the statements mention arena-level observations only *)
Notation avreach am := (a_vreach pfx V (peq w) (contains w fl) (is_bit_set w) plen (lcp w fl) (okp w) (Arena.tbl am)).
Notation aviter am := (a_v_iter pfx V (Arena.tbl am)).

Theorem C12_arena_find (am : Arena.amap pfx V) l q es :
  areach pfx V (peq w) (contains w fl) (is_bit_set w) plen (lcp w fl) pzero (okp w) am -> avreach am l -> okp w q -> aviter am l = Arena.Ok es ->
  exists o, Arena3.a_v_find pfx V (peq w) (contains w fl) (is_bit_set w) plen (lcp w fl) (Arena.tbl am) l q = Arena.Ok o /\
            Arena3.a_vm_find pfx V (peq w) (contains w fl) (is_bit_set w) plen (lcp w fl) (Arena.tbl am) l q = Arena.Ok o /\
    match o with
    | Some l' => avreach am l' /\ aviter am l' = Arena.Ok (filter (under (kbits w q)) es) /\
                 exists p, Arena3.a_v_prefix pfx V (Arena.tbl am) l' = Arena.Ok p /\ kbits w p = kbits w q
    | None => filter (under (kbits w q)) es = []
    end.
Proof. exact (arena_C12_find pfx V _ _ _ _ _ _ _ _ _ LAWS am l q es). Qed.

Theorem C12_arena_find_exact (am : Arena.amap pfx V) l q es :
  areach pfx V (peq w) (contains w fl) (is_bit_set w) plen (lcp w fl) pzero (okp w) am -> avreach am l -> okp w q -> aviter am l = Arena.Ok es ->
  exists o, Arena3.a_v_find_exact pfx V (peq w) (contains w fl) (is_bit_set w) plen (Arena.tbl am) l q = Arena.Ok o /\
            Arena3.a_vm_find_exact pfx V (peq w) (contains w fl) (is_bit_set w) plen (Arena.tbl am) l q = Arena.Ok o /\
    (o <> None <-> exists e, In e es /\ key e = kbits w q) /\
    match o with
    | Some l' => avreach am l' /\
                 Arena3.a_v_find pfx V (peq w) (contains w fl) (is_bit_set w) plen (lcp w fl) (Arena.tbl am) l q = Arena.Ok (Some l') /\
                 aviter am l' = Arena.Ok (filter (under (kbits w q)) es) /\
                 exists p x, Arena3.a_v_prefix pfx V (Arena.tbl am) l' = Arena.Ok p /\
                             Arena3.a_v_value pfx V (Arena.tbl am) l' = Arena.Ok (Some x) /\
                             In (p, x) es /\ kbits w p = kbits w q
    | None => True
    end.
Proof. exact (arena_C12_find_exact pfx V _ _ _ _ _ _ _ _ _ LAWS am l q es). Qed.

Theorem C12_arena_find_lpm (am : Arena.amap pfx V) l q es :
  areach pfx V (peq w) (contains w fl) (is_bit_set w) plen (lcp w fl) pzero (okp w) am -> avreach am l -> okp w q -> aviter am l = Arena.Ok es ->
  exists o, Arena3.a_v_find_lpm pfx V (peq w) (contains w fl) (is_bit_set w) plen (Arena.tbl am) l q = Arena.Ok o /\
            Arena3.a_vm_find_lpm pfx V (peq w) (contains w fl) (is_bit_set w) plen (Arena.tbl am) l q = Arena.Ok o /\
    match o with
    | Some l' => avreach am l' /\
                 exists e, is_lpm es q e /\ Arena3.a_v_prefix_value pfx V (Arena.tbl am) l' = Arena.Ok (Some e) /\
                           Arena3.a_v_find_exact pfx V (peq w) (contains w fl) (is_bit_set w) plen (Arena.tbl am) l (fst e) = Arena.Ok (Some l') /\
                           aviter am l' = Arena.Ok (filter (under (kbits w (fst e))) es)
    | None => no_cover es q
    end.
Proof. exact (arena_C12_find_lpm pfx V _ _ _ _ _ _ _ _ _ LAWS am l q es). Qed.

End C12.

(** non-vacuity, [w = 8], the map {1/1 -> 1, 10/2 -> 2, 11/2 -> 3, 101/3 -> 4, 11010/5 -> 5} and the
    VIRTUAL view [v] = [view_at 110/3] (on the edge 11/2 -> 11010/5; entries {11010/5}):
    - [find 1101/4] (between the virtual root and its real node): virtual view at 1101/4, same entry;
    - [find 11010/5] (the real node): the real view with value 5;
    - [find 11/2], [find 1/1] (covering [v]; 11/2 and 1/1 are stored in the MAP, not in [v]): virtual
      views at the query holding only [v]'s entry — relative to [v], not to the map;
    - [find 1100/4] (inside [v]'s prefix, beside the real node): [None];
    - [find 10/2] (disjoint): [None];
    - [find_exact 11010/5] answers, [find_exact 11/2] does not (not stored in [v]);
    - [find_lpm 11010111/8] is the view at 11010/5; [find_lpm 11/2] is [None] although the map
      stores 11/2: nothing in [v] covers it;
    - the mutable twin at the same location answers / fails in the same cases;
    - from the real view at 1/1: [find_lpm 10100111/8] is the view at 101/3 (not 1/1, not 10/2),
      [find 0/0] (covering) is a virtual view on the node 1/1 holding all five entries. *)
Example C12_example :
  let ins := fun m p x => fst (t_insert 8 Generic nat m p x) in
  let M := ins (ins (ins (ins (ins (t_empty nat) (mkpfx 0x80 1) 1%nat) (mkpfx 0x80 2) 2%nat)
                 (mkpfx 0xc0 2) 3%nat) (mkpfx 0xa0 3) 4%nat) (mkpfx 0xd0 5) 5%nat in
  let T := root M in
  let info := option_map (fun v : view pfx nat =>
                (v_is_virtual v, t_v_prefix nat v, v_value v, map (Lookup2.drop_id pfx nat) (v_iter v))) in
  let e5 := [(mkpfx 0xd0 5, 5%nat)] in
  match t_view_at 8 Generic nat T (mkpfx 0xc0 3), t_view_at 8 Generic nat T (mkpfx 0x80 1) with
  | Some v, Some v1 =>
    info (Some v) = Some (true, mkpfx 0xc0 3, None, e5) /\
    info (t_v_find 8 Generic nat v (mkpfx 0xd0 4)) = Some (true, mkpfx 0xd0 4, None, e5) /\
    info (t_v_find 8 Generic nat v (mkpfx 0xd0 5)) = Some (false, mkpfx 0xd0 5, Some 5%nat, e5) /\
    info (t_v_find 8 Generic nat v (mkpfx 0xc0 2)) = Some (true, mkpfx 0xc0 2, None, e5) /\
    info (t_v_find 8 Generic nat v (mkpfx 0x80 1)) = Some (true, mkpfx 0x80 1, None, e5) /\
    t_v_find 8 Generic nat v (mkpfx 0xc0 4) = None /\
    t_v_find 8 Generic nat v (mkpfx 0x80 2) = None /\
    info (t_v_find_exact 8 Generic nat v (mkpfx 0xd0 5)) = Some (false, mkpfx 0xd0 5, Some 5%nat, e5) /\
    t_v_find_exact 8 Generic nat v (mkpfx 0xc0 2) = None /\
    info (t_v_find_lpm 8 Generic nat v (mkpfx 0xd7 8)) = Some (false, mkpfx 0xd0 5, Some 5%nat, e5) /\
    t_v_find_lpm 8 Generic nat v (mkpfx 0xc0 2) = None /\
    (let m := mkvmut pfx [true; true; false] (Some (mkpfx 0xc0 3)) in
     vm_view T m = v /\
     t_vm_find 8 Generic nat T m (mkpfx 0xd0 4) = Some (mkvmut pfx [true; true; false] (Some (mkpfx 0xd0 4))) /\
     t_vm_find 8 Generic nat T m (mkpfx 0xc0 2) = Some (mkvmut pfx [true; true; false] (Some (mkpfx 0xc0 2))) /\
     t_vm_find 8 Generic nat T m (mkpfx 0xc0 4) = None /\
     t_vm_find_exact 8 Generic nat T m (mkpfx 0xd0 5) = Some (mkvmut pfx [true; true; false] None) /\
     t_vm_find_exact 8 Generic nat T m (mkpfx 0xc0 2) = None /\
     t_vm_find_lpm 8 Generic nat T m (mkpfx 0xd7 8) = Some (mkvmut pfx [true; true; false] None) /\
     t_vm_find_lpm 8 Generic nat T m (mkpfx 0xc0 2) = None) /\
    info (t_v_find_lpm 8 Generic nat v1 (mkpfx 0xa7 8)) = Some (false, mkpfx 0xa0 3, Some 4%nat, [(mkpfx 0xa0 3, 4%nat)]) /\
    info (t_v_find 8 Generic nat v1 (mkpfx 0x00 0)) =
      Some (true, mkpfx 0x00 0, None,
            [(mkpfx 0x80 1, 1%nat); (mkpfx 0x80 2, 2%nat); (mkpfx 0xa0 3, 4%nat); (mkpfx 0xc0 2, 3%nat); (mkpfx 0xd0 5, 5%nat)])
  | _, _ => False
  end.
Proof. vm_compute. repeat split; reflexivity. Qed.

Print Assumptions C12_reachable_views.
Print Assumptions C12_find.
Print Assumptions C12_find_filter.
Print Assumptions C12_under_spec.
Print Assumptions C12_find_value.
Print Assumptions C12_find_prefix_literal.
Print Assumptions C12_find_covering.
Print Assumptions C12_find_covering_prefix.
Print Assumptions C12_disjoint.
Print Assumptions C12_find_exact_iff.
Print Assumptions C12_find_exact.
Print Assumptions C12_find_exact_is_find.
Print Assumptions C12_find_lpm_iff.
Print Assumptions C12_find_lpm_none.
Print Assumptions C12_find_lpm.
Print Assumptions C12_find_lpm_is_find_exact.
Print Assumptions C12_mut_sim.
Print Assumptions C12_mut_failure.
Print Assumptions C12_mut_find.
Print Assumptions C12_mut_find_exact.
Print Assumptions C12_mut_find_exact_iff.
Print Assumptions C12_mut_find_lpm.
Print Assumptions C12_mut_find_lpm_iff.
Print Assumptions C12_mut_results_wf.
Print Assumptions C12_view_at_is_find.
Print Assumptions C12_view_mut_at_is_find.
Print Assumptions C12_arena_find.
Print Assumptions C12_arena_find_exact.
Print Assumptions C12_arena_find_lpm.
