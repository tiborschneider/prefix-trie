(** C08 — LPM annotations of union / difference items are true LPMs in the other view.

    Operands as in C05–C07: any subtree [ta : tree pfx L] well-formed under SOME bound [ba], any
    subtree [tb : tree pfx R] well-formed under SOME bound [bb], NO relation assumed between the
    two roots (equal, nested, disjoint; stored, value-less branching, or the node under a virtual
    view root; same or different maps; arbitrary shapes).  "The other view's entries" are
    [entries tb] (resp. [entries ta]) — the entries of THAT VIEW, not of the map it was cut from.

    - every [Left p l ann] item of [union ta tb] has [ann] = the longest-prefix match of [p] among
      [entries tb], with its value: [Some e] means [e] is an entry of [tb] whose key covers the key
      of [p] and no entry of [tb] covering it has a longer key; [None] means no entry of [tb] covers;
      symmetrically for the [left] field of [Right] items against [entries ta];
    - the same for the [right] field of EVERY [difference] and [difference_mut] item;
    - hence: [None] exactly when the other view stores no covering prefix; a reported match is a
      stored entry of the other view and covers the item's key; the annotation is uniquely
      determined by the other view's entries, and equals [get_lpm T p] on every well-formed whole map
      [T] whose entry list is the other view's entry list (a direct longest-prefix query).
    Proofs: UnionThm.v ([union_correct]), InterDiffThm.v ([difference_correct],
    [difference_mut_mirrors]), Lookup2.v ([get_lpm_spec]), Lookup.v ([is_lpm_unique]), SetOpsExtra.v. *)
From Coq Require Import List NArith Sorted.
From PT Require Import Lookup ViewsThm UnionThm InterDiffThm SetOpsExtra Arena Arena3 ArenaProps ArenaViews ArenaSetViews.
From PT.Properties Require Import Common.
Import ListNotations.

#[local] Arguments SetOps.ILeft {pfx L R}.
#[local] Arguments SetOps.IRight {pfx L R}.
#[local] Arguments SetOps.IBoth {pfx L R}.

Section C08.
Variables (w : N) (fl : flavour) (L R : Type).
Hypothesis Hw : (1 <= w)%N.
Notation wfL := (wf_under pfx L (kbits w) (okp w)).
Notation wfR := (wf_under pfx R (kbits w) (okp w)).

(** [is_lpm es q e]: [e ∈ es], the key of [e] covers the key of [q], and every [e' ∈ es] whose key
    covers the key of [q] has a key no longer than that of [e].
    [no_cover es q]: no [e ∈ es] has a key covering the key of [q].  (Lookup.v; the same
    predicates specify [get_lpm] in C02.) *)
Notation is_lpm T := (Lookup.is_lpm pfx T (kbits w)).
Notation no_cover T := (Lookup.no_cover pfx T (kbits w)).
(** "[ann] is the longest-prefix match of [p] among [es]" *)
Definition lpm_of {T} (es : list (pfx * T)) (p : pfx) (ann : option (pfx * T)) : Prop :=
  match ann with
  | Some e => is_lpm T es p e
  | None => no_cover T es p
  end.

(** ** union *)

(** a [Left] item reports the longest-prefix match of its prefix among the entries of the right
    operand *)
Theorem C08_union_left ba bb (ta : tree pfx L) (tb : tree pfx R) out p l ann :
  wfL ba ta -> wfR bb tb -> t_union w fl L R ta tb = Some out -> In (ILeft p l ann) out ->
  lpm_of (entries tb) p ann.
Proof.
  intros Ha Hb E.
  exact (union_ann_left (union_some (laws w fl Hw) Ha Hb E)).
Qed.

(** a [Right] item reports the longest-prefix match of its prefix among the entries of the left
    operand *)
Theorem C08_union_right ba bb (ta : tree pfx L) (tb : tree pfx R) out p ann r :
  wfL ba ta -> wfR bb tb -> t_union w fl L R ta tb = Some out -> In (IRight p ann r) out ->
  lpm_of (entries ta) p ann.
Proof.
  intros Ha Hb E.
  exact (union_ann_right (union_some (laws w fl Hw) Ha Hb E)).
Qed.

(** ** difference and difference_mut *)

Theorem C08_difference ba bb (ta : tree pfx L) (tb : tree pfx R) out p l ann :
  wfL ba ta -> wfR bb tb -> t_difference w fl L R ta tb = Some out -> In (p, l, ann) out ->
  lpm_of (entries tb) p ann.
Proof.
  intros Ha Hb E.
  exact (diff_ann (diff_some (laws w fl Hw) Ha Hb E)).
Qed.

Theorem C08_difference_mut ba bb (ta : tree pfx L) (tb : tree pfx R) outm p i l ann :
  wfL ba ta -> wfR bb tb -> t_difference_mut w fl L R ta tb = Some outm -> In (p, (i, l), ann) outm ->
  lpm_of (entries tb) p ann.
Proof.
  intros Ha Hb E Hit.
  exact (proj2 (proj2 (difference_mut_ann (laws w fl Hw) Ha Hb E Hit))).
Qed.

(** ** what "longest-prefix match" entails (for any entry list [es] of a well-formed subtree) *)

(** [None] exactly when the other view stores no covering prefix *)
Theorem C08_none_iff {T} (es : list (pfx * T)) p ann :
  lpm_of es p ann -> (ann = None <-> forall e, In e es -> ~ prefix_of (kbits w (fst e)) (kbits w p)).
Proof. exact lpm_ann_none_iff. Qed.

(** a reported match is an entry of the other view (prefix AND value), covers the item's key, and
    is the longest such *)
Theorem C08_some_covers {T} (es : list (pfx * T)) p e :
  lpm_of es p (Some e) ->
  In e es /\ prefix_of (kbits w (fst e)) (kbits w p) /\
  forall e', In e' es -> prefix_of (kbits w (fst e')) (kbits w p) ->
             (length (kbits w (fst e')) <= length (kbits w (fst e)))%nat.
Proof. exact lpm_ann_some. Qed.

(** the annotation is determined by the other view's entries *)
Theorem C08_unique {T} b (t : tree pfx T) p a1 a2 :
  wf_under pfx T (kbits w) (okp w) b t -> lpm_of (entries t) p a1 -> lpm_of (entries t) p a2 -> a1 = a2.
Proof. exact lpm_ann_unique. Qed.

(** ** agreement with a direct longest-prefix query *)

(** For every well-formed whole map [T] whose entry list is exactly the other view's entry list,
    the annotation is literally what [get_lpm T] answers for the item's prefix. *)
Theorem C08_union_left_get_lpm ba bb (ta : tree pfx L) (tb : tree pfx R) out p l ann (T : tree pfx R) :
  wfL ba ta -> wfR bb tb -> t_union w fl L R ta tb = Some out -> In (ILeft p l ann) out ->
  wfm w R T -> entries T = entries tb -> t_get_lpm w fl R T p = ann.
Proof.
  intros Ha Hb E Hit HT ET.
  pose proof (union_some (laws w fl Hw) Ha Hb E) as U.
  exact (lpm_ann_get_lpm (laws w fl Hw) HT ET (union_left_ok Ha U Hit) (union_ann_left U Hit)).
Qed.

Theorem C08_union_right_get_lpm ba bb (ta : tree pfx L) (tb : tree pfx R) out p ann r (T : tree pfx L) :
  wfL ba ta -> wfR bb tb -> t_union w fl L R ta tb = Some out -> In (IRight p ann r) out ->
  wfm w L T -> entries T = entries ta -> t_get_lpm w fl L T p = ann.
Proof.
  intros Ha Hb E Hit HT ET.
  pose proof (union_some (laws w fl Hw) Ha Hb E) as U.
  exact (lpm_ann_get_lpm (laws w fl Hw) HT ET (union_right_ok Hb U Hit) (union_ann_right U Hit)).
Qed.

Theorem C08_difference_get_lpm ba bb (ta : tree pfx L) (tb : tree pfx R) out p l ann (T : tree pfx R) :
  wfL ba ta -> wfR bb tb -> t_difference w fl L R ta tb = Some out -> In (p, l, ann) out ->
  wfm w R T -> entries T = entries tb -> t_get_lpm w fl R T p = ann.
Proof.
  intros Ha Hb E Hit HT ET.
  pose proof (diff_some (laws w fl Hw) Ha Hb E) as D.
  exact (lpm_ann_get_lpm (laws w fl Hw) HT ET (diff_item_ok Ha D Hit) (diff_ann D Hit)).
Qed.

Theorem C08_difference_mut_get_lpm ba bb (ta : tree pfx L) (tb : tree pfx R) outm p i l ann (T : tree pfx R) :
  wfL ba ta -> wfR bb tb -> t_difference_mut w fl L R ta tb = Some outm -> In (p, (i, l), ann) outm ->
  wfm w R T -> entries T = entries tb -> t_get_lpm w fl R T p = ann.
Proof.
  intros Ha Hb E Hit HT ET.
  destruct (difference_mut_ann (laws w fl Hw) Ha Hb E Hit)
    as (Hin & _ & Hann).
  exact (lpm_ann_get_lpm (laws w fl Hw) HT ET
           (entries_ok pfx L (kbits w) (okp w) ba ta (p, l) Ha Hin) Hann).
Qed.

(** in particular, when the other operand IS a whole map (its view at the root), the annotation
    is [get_lpm] of that map *)
Theorem C08_difference_whole_map ba (ta : tree pfx L) (tb : tree pfx R) out p l ann :
  wfL ba ta -> wfm w R tb -> t_difference w fl L R ta tb = Some out -> In (p, l, ann) out ->
  t_get_lpm w fl R tb p = ann.
Proof.
  intros Ha Hb E Hit.
  pose proof (wf_root_under pfx R _ _ tb Hb) as Wb.
  exact (C08_difference_get_lpm ba [] ta tb out p l ann tb Ha Wb E Hit Hb eq_refl).
Qed.

Theorem C08_union_whole_map (ta : tree pfx L) (tb : tree pfx R) out :
  wfm w L ta -> wfm w R tb -> t_union w fl L R ta tb = Some out ->
  (forall p l ann, In (ILeft p l ann) out -> t_get_lpm w fl R tb p = ann) /\
  (forall p ann r, In (IRight p ann r) out -> t_get_lpm w fl L ta p = ann).
Proof.
  intros Ha Hb E.
  pose proof (wf_root_under pfx L _ _ ta Ha) as Wa.
  pose proof (wf_root_under pfx R _ _ tb Hb) as Wb.
  split.
  - intros p l ann Hit. exact (C08_union_left_get_lpm [] [] ta tb out p l ann tb Wa Wb E Hit Hb eq_refl).
  - intros p ann r Hit. exact (C08_union_right_get_lpm [] [] ta tb out p ann r ta Wa Wb E Hit Ha eq_refl).
Qed.

(** Views as operands: the annotations refer to the entries the OTHER VIEW addresses
    ([v_entries]), whatever lies above the view's root in its map. *)
Theorem C08_views (va : view pfx L) (vb : view pfx R) :
  view_wf pfx L pzero (kbits w) (okp w) va -> view_wf pfx R pzero (kbits w) (okp w) vb ->
  exists outu outd outm,
    t_union w fl L R (v_tree va) (v_tree vb) = Some outu /\
    t_difference w fl L R (v_tree va) (v_tree vb) = Some outd /\
    t_difference_mut w fl L R (v_tree va) (v_tree vb) = Some outm /\
    (forall p l ann, In (ILeft p l ann) outu -> lpm_of (v_entries pfx R vb) p ann) /\
    (forall p ann r, In (IRight p ann r) outu -> lpm_of (v_entries pfx L va) p ann) /\
    (forall p l ann, In (p, l, ann) outd -> lpm_of (v_entries pfx R vb) p ann) /\
    (forall p i l ann, In (p, (i, l), ann) outm -> lpm_of (v_entries pfx R vb) p ann).
Proof.
  intros Ha Hb. destruct (view_operand_wf Ha) as [ba Wa].
  destruct (view_operand_wf Hb) as [bb Wb].
  destruct (union_correct pfx L R _ _ _ _ _ _ _ _ _ (laws w fl Hw) ba bb _ _ Wa Wb) as [outu [Eu _]].
  destruct (difference_mut_mirrors pfx L R _ _ _ _ _ _ _ _ _ (laws w fl Hw) _ _ _ _ Wa Wb)
    as (outd & outm & Ed & Em & _).
  exists outu, outd, outm. split; [exact Eu|]. split; [exact Ed|]. split; [exact Em|].
  split; [|split; [|split]].
  - intros p l ann. exact (C08_union_left ba bb _ _ outu p l ann Wa Wb Eu).
  - intros p ann r. exact (C08_union_right ba bb _ _ outu p ann r Wa Wb Eu).
  - intros p l ann. exact (C08_difference ba bb _ _ outd p l ann Wa Wb Ed).
  - intros p i l ann. exact (C08_difference_mut ba bb _ _ outm p i l ann Wa Wb Em).
Qed.

(** Reachable states: two views obtained by [view_at] from any two histories are well-formed
    operands (as for [C05_reachable]). *)
Theorem C08_reachable (opsA : list (hop L)) (opsB : list (hop R)) qa qb va vb :
  Forall (hop_ok w L) opsA -> Forall (hop_ok w R) opsB -> okp w qa -> okp w qb ->
  t_view_at w fl L (root (hrun w fl L opsA)) qa = Some va ->
  t_view_at w fl R (root (hrun w fl R opsB)) qb = Some vb ->
  exists outu outd outm,
    t_union w fl L R (v_tree va) (v_tree vb) = Some outu /\
    t_difference w fl L R (v_tree va) (v_tree vb) = Some outd /\
    t_difference_mut w fl L R (v_tree va) (v_tree vb) = Some outm /\
    (forall p l ann, In (ILeft p l ann) outu -> lpm_of (v_entries pfx R vb) p ann) /\
    (forall p ann r, In (IRight p ann r) outu -> lpm_of (v_entries pfx L va) p ann) /\
    (forall p l ann, In (p, l, ann) outd -> lpm_of (v_entries pfx R vb) p ann) /\
    (forall p i l ann, In (p, (i, l), ann) outm -> lpm_of (v_entries pfx R vb) p ann).
Proof.
  intros HA HB Hqa Hqb Ea Eb. apply C08_views.
  - exact (view_at_wf (laws w fl Hw) (reachable_wfm w fl L Hw opsA HA) Hqa Ea).
  - exact (view_at_wf (laws w fl Hw) (reachable_wfm w fl R Hw opsB HB) Hqb Eb).
Qed.

(** * The same statement about the arena-level transcription (ArenaProps.v), at the roots of two
      reachable arenas *)
(** [union_spec] and [diff_spec] contain the annotation clauses: every [ILeft]/[IRight] item of the union
    and every item of the difference carries the true longest-prefix match of its key in the other
    operand's entry list ([lpm_ann]). *)
Theorem C08_arena (amL : Arena.amap pfx L) (amR : Arena.amap pfx R) esL esR :
  areach pfx L (peq w) (contains w fl) (is_bit_set w) plen (lcp w fl) pzero (okp w) amL -> areach pfx R (peq w) (contains w fl) (is_bit_set w) plen (lcp w fl) pzero (okp w) amR ->
  Arena.a_entries pfx L amL = Arena.Ok esL -> Arena.a_entries pfx R amR = Arena.Ok esR ->
  exists outu outd,
    Arena3.a_union pfx L R (contains w fl) (is_bit_set w) plen (mcmp w) (Arena.tbl amL) (Arena.tbl amR) 0 0 = Arena.Ok outu /\
    UnionThm.union_spec pfx L R (kbits w) esL esR outu /\
    Arena3.a_difference pfx L R (contains w fl) (is_bit_set w) plen (mcmp w) (Arena.tbl amL) (Arena.tbl amR) 0 0 = Arena.Ok outd /\
    InterDiffThm.diff_spec pfx L R (kbits w) esL esR outd.
Proof.
  intros HL HR EL ER.
  destruct (arena_C05_C08_union pfx L R _ _ _ _ _ _ _ _ _ (laws w fl Hw) amL amR esL esR HL HR EL ER)
    as (outu & _ & E1 & S1 & _).
  destruct (arena_C07_C08_difference pfx L R _ _ _ _ _ _ _ _ _ (laws w fl Hw) amL amR esL esR HL HR EL ER)
    as (outd & _ & E2 & S2 & _).
  exists outu, outd. auto.
Qed.

(** * ... and at any two view locations reached by navigation calls (ArenaSetViews.v), as for
      [C05_arena_views]. *)
Theorem C08_arena_views (amL : Arena.amap pfx L) (amR : Arena.amap pfx R) lL lR esL esR :
  areach pfx L (peq w) (contains w fl) (is_bit_set w) plen (lcp w fl) pzero (okp w) amL -> areach pfx R (peq w) (contains w fl) (is_bit_set w) plen (lcp w fl) pzero (okp w) amR ->
  a_vreach pfx L (peq w) (contains w fl) (is_bit_set w) plen (lcp w fl) (okp w) (Arena.tbl amL) lL ->
  a_vreach pfx R (peq w) (contains w fl) (is_bit_set w) plen (lcp w fl) (okp w) (Arena.tbl amR) lR ->
  a_v_iter pfx L (Arena.tbl amL) lL = Arena.Ok esL -> a_v_iter pfx R (Arena.tbl amR) lR = Arena.Ok esR ->
  exists outu outd,
    Arena3.a_union pfx L R (contains w fl) (is_bit_set w) plen (mcmp w) (Arena.tbl amL) (Arena.tbl amR) (Arena3.loc_idx lL) (Arena3.loc_idx lR) = Arena.Ok outu /\
    UnionThm.union_spec pfx L R (kbits w) esL esR outu /\
    Arena3.a_difference pfx L R (contains w fl) (is_bit_set w) plen (mcmp w) (Arena.tbl amL) (Arena.tbl amR) (Arena3.loc_idx lL) (Arena3.loc_idx lR) = Arena.Ok outd /\
    InterDiffThm.diff_spec pfx L R (kbits w) esL esR outd.
Proof.
  intros HL HR VL VR EL ER.
  destruct (arena_views_union pfx L R _ _ _ _ _ _ _ _ _ (laws w fl Hw) amL amR lL lR esL esR HL HR VL VR EL ER)
    as (outu & _ & E1 & S1 & _).
  destruct (arena_views_difference pfx L R _ _ _ _ _ _ _ _ _ (laws w fl Hw) amL amR lL lR esL esR HL HR VL VR EL ER)
    as (outd & _ & E2 & S2 & _).
  exists outu, outd. auto.
Qed.

End C08.

(** Non-vacuity (w = 8).  Map A = {00/2 ↦ 1, 01/2 ↦ 2, 1/1 ↦ 3, 110/3 ↦ 4} over [nat] (node 0/1
    is a value-less branching node), map B = {0/1 ↦ true, 01/2 ↦ false, 11/2 ↦ true, 111/3 ↦ false}
    over [bool].
    (1) whole A against the view of B at 11/2 (roots nested: B's view root lies below A's 1/1 and
        above A's 110/3): [Right 11/2] and [Right 111/3] report A's 1/1 ↦ 3 — an entry stored ABOVE
        the other view's root in A, seeded although the traversal of the right side starts
        deeper —; [Left 110/3] reports 11/2 ↦ true; the 0-side items report [None].
        [get_lpm] on A gives the same answers.
    (2) the view of A at 0/1 (value-less branching root) against whole B: [Left 00/2] reports
        B's 0/1 ↦ true; [Right 0/1] reports [None] — nothing in the VIEW covers 0/1.
    (3) the VIRTUAL view of A at 11/2 (real node 110/3) against the view of B at 11/2. *)
Definition C08_ins {V} (m : pmap pfx V) (r l : N) (v : V) : pmap pfx V :=
  fst (t_insert 8 Generic V m (mkpfx r l) v).
Definition C08_A : tree pfx nat :=
  root (C08_ins (C08_ins (C08_ins (C08_ins (t_empty nat) 0x00 2 1%nat) 0x40 2 2%nat) 0x80 1 3%nat) 0xC0 3 4%nat).
Definition C08_B : tree pfx bool :=
  root (C08_ins (C08_ins (C08_ins (C08_ins (t_empty bool) 0x00 1 true) 0x40 2 false) 0xC0 2 true) 0xE0 3 false).

Example C08_example :
  match t_view_at 8 Generic nat C08_A (mkpfx 0x00 1), t_view_at 8 Generic nat C08_A (mkpfx 0xC0 2),
        t_view_at 8 Generic bool C08_B (mkpfx 0xC0 2) with
  | Some va, Some va', Some vb =>
    va' = VVirt (mkpfx 0xC0 2) (Node 5 (mkpfx 0xC0 3) (Some 4%nat) Leaf Leaf) /\
    t_union 8 Generic nat bool C08_A (v_tree vb) =
      Some [ILeft (mkpfx 0x00 2) 1%nat None; ILeft (mkpfx 0x40 2) 2%nat None; ILeft (mkpfx 0x80 1) 3%nat None;
            IRight (mkpfx 0xC0 2) (Some (mkpfx 0x80 1, 3%nat)) true;
            ILeft (mkpfx 0xC0 3) 4%nat (Some (mkpfx 0xC0 2, true));
            IRight (mkpfx 0xE0 3) (Some (mkpfx 0x80 1, 3%nat)) false] /\
    t_get_lpm 8 Generic nat C08_A (mkpfx 0xC0 2) = Some (mkpfx 0x80 1, 3%nat) /\
    t_get_lpm 8 Generic nat C08_A (mkpfx 0xE0 3) = Some (mkpfx 0x80 1, 3%nat) /\
    t_difference 8 Generic nat bool C08_A (v_tree vb) =
      Some [(mkpfx 0x00 2, 1%nat, None); (mkpfx 0x40 2, 2%nat, None); (mkpfx 0x80 1, 3%nat, None);
            (mkpfx 0xC0 3, 4%nat, Some (mkpfx 0xC0 2, true))] /\
    t_difference_mut 8 Generic nat bool C08_A (v_tree vb) =
      Some [(mkpfx 0x00 2, (1%N, 1%nat), None); (mkpfx 0x40 2, (3%N, 2%nat), None);
            (mkpfx 0x80 1, (4%N, 3%nat), None);
            (mkpfx 0xC0 3, (5%N, 4%nat), Some (mkpfx 0xC0 2, true))] /\
    t_union 8 Generic nat bool (v_tree va) C08_B =
      Some [IRight (mkpfx 0x00 1) None true;
            ILeft (mkpfx 0x00 2) 1%nat (Some (mkpfx 0x00 1, true));
            IBoth (mkpfx 0x40 2) 2%nat false;
            IRight (mkpfx 0xC0 2) None true; IRight (mkpfx 0xE0 3) None false] /\
    t_get_lpm 8 Generic bool C08_B (mkpfx 0x00 2) = Some (mkpfx 0x00 1, true) /\
    t_union 8 Generic nat bool (v_tree va') (v_tree vb) =
      Some [IRight (mkpfx 0xC0 2) None true;
            ILeft (mkpfx 0xC0 3) 4%nat (Some (mkpfx 0xC0 2, true));
            IRight (mkpfx 0xE0 3) None false]
  | _, _, _ => False
  end.
Proof. vm_compute. repeat split; reflexivity. Qed.

Print Assumptions C08_union_left.
Print Assumptions C08_union_right.
Print Assumptions C08_difference.
Print Assumptions C08_difference_mut.
Print Assumptions C08_none_iff.
Print Assumptions C08_some_covers.
Print Assumptions C08_unique.
Print Assumptions C08_union_left_get_lpm.
Print Assumptions C08_union_right_get_lpm.
Print Assumptions C08_difference_get_lpm.
Print Assumptions C08_difference_mut_get_lpm.
Print Assumptions C08_difference_whole_map.
Print Assumptions C08_union_whole_map.
Print Assumptions C08_views.
Print Assumptions C08_reachable.
Print Assumptions C08_arena.
Print Assumptions C08_arena_views.
