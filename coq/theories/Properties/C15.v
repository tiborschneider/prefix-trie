(** C15 — the trie stays well-formed; the insert/remove shape depends only on the key set.

    The structure observable through views is the tree [root m] of the model, walked along paths
    ([subtree t pa]: [left()] / [right()] of a view append a bit to the path; [prefix()] / [value()]
    read the node reached).

    (a) FULL alphabet ([History.op], any closures, Entry API, views): every reachable state is a
        well-formed binary trie — the root is the zero-length prefix; for every node [p] and its
        child [c] on side [s], [c]'s key extends [p]'s key by the bit [s]: strictly longer, covered
        by [p], and [s] is the bit of [c] at position [len p] ([is_bit_set c (len p) = s]) —
        [C15_wf_reachable], [C15_edges]; hence every root-to-leaf path has at most [w + 1] nodes
        ([C15_depth], [C15_path_len]).
    (b) insert / Entry API / collect / remove / retain / clear ([History.canon_op]; also get_mut and
        writes through mutable traversals): every value-less non-root node has two children
        ([C15_canonical], [C15_canonical_words]), and the observable shape ([Canon.shape_of]: keys,
        has-value flags, structure; no slot numbers, values, host bits) is IDENTICAL to that of a
        map freshly built from the surviving entries in ANY order ([C15_shape_rebuild]), in fact
        from any list with the same key set ([C15_shape_same_keys]); two such histories with the
        same surviving key set have the same shape ([C15_shape_determined]); [remove] exactly
        reverts the [insert] of a fresh key ([C15_remove_reverts_insert]).
    (c) remove_keep_tree, OccupiedEntry::remove and the value-only operations (get_mut /
        and_modify, writes through mutable traversals, TrieViewMut::set / ::remove, the Entry API
        on an occupied entry) never change the structure: same slots, same stored prefixes, same
        children ([C15_value_ops_keep_structure]; [OccupiedEntry::insert] stores the caller's
        prefix, so for it: same keys, [C15_value_ops_keep_keys]). *)
From Coq Require Import List NArith ZArith Bool Lia Permutation.
From PT Require Import Slots Mutate Canon History HistoryExtra Arena ArenaThm ArenaProps.
From PT.Properties Require Import Common.
Import ListNotations.

Section C15.
Variables (w : N) (fl : flavour) (V : Type).
Hypothesis Hw : (1 <= w)%N.

Notation hrun := (hrun w fl V).
Notation hop := (hop V).
Notation hop_ok := (hop_ok w V).
Notation kbits := (kbits w).
Notation okp := (okp w).
Notation wfm := (wfm w V).
Notation canon_op := (History.canon_op pfx V).
Notation canonical := (Canon.canonical pfx V).
Notation shape_of := (Canon.shape_of pfx V kbits).
Notation step := (History.step pfx V (peq w) (contains w fl) (is_bit_set w) plen (lcp w fl) pzero).
Notation value_op := (HistoryExtra.value_op pfx V (peq w) (contains w fl) (is_bit_set w) plen).
Notation replaces_prefix := (HistoryExtra.replaces_prefix pfx V).
Notation depth := (HistoryExtra.depth pfx V).
Notation skel := (Mutate.skel pfx V).
Notation skelb := (Mutate.skelb pfx V kbits).
Notation LAWS := (laws w fl Hw).

(** keys have at most [w] bits *)
Lemma C15_key_len (p : pfx) : okp p -> (length (kbits p) <= N.to_nat w)%nat.
Proof.
  intros H. pose proof (plen_bits _ _ _ _ _ _ _ _ _ _ LAWS p H) as E.
  unfold Common.okp, valid in H. apply andb_true_iff in H. destruct H as [H _].
  apply N.leb_le in H. lia.
Qed.

(* ---------------------------------------------------------------------------------------- *)
(** (a) well-formedness over the FULL alphabet *)

Theorem C15_wf_reachable (ops : list hop) : Forall hop_ok ops -> wfm (root (hrun ops)).
Proof. exact (reachable_wfm w fl V Hw ops). Qed.

(** a well-formed map in words: the root is the zero-length prefix; along every path, for every
    node [p] and every child [cp] of it on side [s] ([false] = left, [true] = right): both are
    valid prefixes, [cp] is strictly longer than [p], covered by [p], and on the side selected by
    its bit number [len p] *)
Theorem C15_edges (t : tree pfx V) : wfm t ->
  (exists i p v l r, t = Node i p v l r /\ kbits p = [] /\ plen p = 0%N) /\
  forall pa i p v l r, subtree t pa = Node i p v l r ->
    okp p /\
    forall (s : bool) ci cp cv cl cr, (if s then r else l) = Node ci cp cv cl cr ->
      okp cp /\ (plen p < plen cp)%N /\ (length (kbits p) < length (kbits cp))%nat /\
      prefix_of (kbits p) (kbits cp) /\ prefix_of (kbits p ++ [s]) (kbits cp) /\
      nth (length (kbits p)) (kbits cp) false = s /\ is_bit_set w cp (plen p) = s.
Proof.
  intros Hr. destruct (wf_edges pfx V kbits okp t Hr) as [R E].
  pose proof (plen_bits _ _ _ _ _ _ _ _ _ _ LAWS) as PB. split.
  - destruct R as (i & p & v & l & r & Et & Eb). exists i, p, v, l, r. split; [exact Et|]. split; [exact Eb|].
    destruct (E [] i p v l r) as [Hp _]; [rewrite Et; reflexivity|]. rewrite (PB p Hp), Eb. reflexivity.
  - intros pa i p v l r Hs. destruct (E pa i p v l r Hs) as [Hp [_ Hc]]. split; [exact Hp|].
    intros s ci cp cv cl cr Hch. destruct (Hc s ci cp cv cl cr Hch) as [Hcp Hpre].
    destruct (edge_words _ _ _ Hpre) as [L [P B]]. pose proof (PB p Hp) as Lp. pose proof (PB cp Hcp) as Lc.
    repeat split; try assumption; [lia|].
    rewrite (bit_spec _ _ _ _ _ _ _ _ _ _ LAWS cp (plen p) Hcp), Lp, Nat2N.id. exact B.
Qed.

Corollary C15_edges_reachable (ops : list hop) : Forall hop_ok ops ->
  forall pa i p v l r, subtree (root (hrun ops)) pa = Node i p v l r ->
    forall (s : bool) ci cp cv cl cr, (if s then r else l) = Node ci cp cv cl cr ->
      (plen p < plen cp)%N /\ prefix_of (kbits p) (kbits cp) /\ is_bit_set w cp (plen p) = s.
Proof.
  intros Hops pa i p v l r Hs s ci cp cv cl cr Hc.
  destruct (proj2 (C15_edges _ (C15_wf_reachable ops Hops)) pa i p v l r Hs) as [_ H].
  destruct (H s ci cp cv cl cr Hc) as (_ & A & _ & B & _ & _ & C). auto.
Qed.

(** every root-to-leaf path of a reachable state has at most [w + 1] nodes; every node is
    reached from the root by at most [w] steps *)
Theorem C15_depth (ops : list hop) : Forall hop_ok ops ->
  (depth (root (hrun ops)) <= N.to_nat w + 1)%nat.
Proof.
  intros Hops. apply (wf_root_depth pfx V pzero kbits okp); [exact C15_key_len|].
  exact (C15_wf_reachable ops Hops).
Qed.

Theorem C15_path_len (ops : list hop) pa i p v l r : Forall hop_ok ops ->
  subtree (root (hrun ops)) pa = Node i p v l r -> (length pa <= N.to_nat w)%nat.
Proof.
  intros Hops Hs. eapply (wf_root_path_len pfx V kbits okp); [exact C15_key_len | | exact Hs].
  exact (C15_wf_reachable ops Hops).
Qed.

(* ---------------------------------------------------------------------------------------- *)
(** (b) the canonical shape over insert / Entry API / collect / remove / retain / clear *)

Theorem C15_canonical (ops : list hop) : forallb canon_op ops = true -> canonical (root (hrun ops)).
Proof. exact (reachable_canonical pfx V _ _ _ _ _ _ ops). Qed.

(** in words: every value-less node other than the root has two children *)
Theorem C15_canonical_words (ops : list hop) : forallb canon_op ops = true ->
  forall pa i p l r, pa <> [] -> subtree (root (hrun ops)) pa = Node i p None l r ->
    is_node l = true /\ is_node r = true.
Proof. intros Hc. exact (canonical_words pfx V _ (C15_canonical ops Hc)). Qed.

(** the shape is that of a map freshly built from the surviving entries, in ANY order *)
Theorem C15_shape_rebuild (ops : list hop) (l : list (pfx * V)) :
  Forall hop_ok ops -> forallb canon_op ops = true ->
  Permutation l (entries (root (hrun ops))) ->
  shape_of (root (hrun ops)) = shape_of (root (t_from_list w fl V l)).
Proof.
  intros Hops Hc HP.
  exact (canonical_shape_rebuild pfx V _ _ _ _ _ _ _ kbits okp LAWS _ l
           (C15_wf_reachable ops Hops) (C15_canonical ops Hc) HP).
Qed.

(** ... indeed from any list of valid prefixes with the same KEY SET (other values, repetitions) *)
Theorem C15_shape_same_keys (ops : list hop) (l : list (pfx * V)) :
  Forall hop_ok ops -> forallb canon_op ops = true ->
  (forall e, In e l -> okp (fst e)) ->
  (forall k, (exists e, In e (entries (root (hrun ops))) /\ ekey w V e = k) <->
             (exists e, In e l /\ ekey w V e = k)) ->
  shape_of (root (hrun ops)) = shape_of (root (t_from_list w fl V l)).
Proof.
  intros Hops Hc Hok HK.
  exact (canonical_shape_from_list pfx V _ _ _ _ _ _ _ kbits okp LAWS _ l
           (C15_wf_reachable ops Hops) (C15_canonical ops Hc) Hok HK).
Qed.

(** the shape depends only on the key set: whatever the two histories did *)
Theorem C15_shape_determined (ops1 ops2 : list hop) :
  Forall hop_ok ops1 -> forallb canon_op ops1 = true ->
  Forall hop_ok ops2 -> forallb canon_op ops2 = true ->
  (forall k, (exists e, In e (entries (root (hrun ops1))) /\ ekey w V e = k) <->
             (exists e, In e (entries (root (hrun ops2))) /\ ekey w V e = k)) ->
  shape_of (root (hrun ops1)) = shape_of (root (hrun ops2)).
Proof.
  intros H1 C1 H2 C2 HK.
  exact (canonical_unique pfx V kbits okp _ _ (C15_wf_reachable ops1 H1) (C15_wf_reachable ops2 H2)
           (C15_canonical ops1 C1) (C15_canonical ops2 C2) HK).
Qed.

(** [remove] exactly reverts [insert]: inserting a key that is not stored and removing it again
    restores the shape (and the entries) *)
Theorem C15_remove_reverts_insert (ops : list hop) (q : pfx) (x : V) :
  Forall hop_ok ops -> forallb canon_op ops = true -> okp q ->
  (~ exists e, In e (entries (root (hrun ops))) /\ ekey w V e = kbits q) ->
  let ops' := ops ++ [OInsert pfx V q x; ORemove pfx V q] in
  shape_of (root (hrun ops')) = shape_of (root (hrun ops)) /\
  entries (root (hrun ops')) = entries (root (hrun ops)).
Proof.
  intros Hops Hc Hq Hfresh. cbv zeta. unfold Common.hrun. rewrite (run_app pfx V _ _ _ _ _ _).
  exact (proj2 (proj2 (remove_reverts_insert_wf pfx V _ _ _ _ _ _ _ kbits okp LAWS _ q x
                         (C15_wf_reachable ops Hops) (C15_canonical ops Hc) Hq Hfresh))).
Qed.

(* ---------------------------------------------------------------------------------------- *)
(** (c) remove_keep_tree and the value-only operations never change the structure *)

(** from ANY state: slot numbers, stored prefixes (host bits included) and the child structure of
    every node are untouched ([skel] forgets the values only).  [value_op m o] holds for
    remove_keep_tree, OccupiedEntry::remove, get_mut / and_modify, writes through mutable
    traversals, TrieViewMut::set / ::remove, and the Entry API when the entry is occupied. *)
Theorem C15_value_ops_keep_structure (m : pmap pfx V) (o : hop) :
  value_op m o = true -> replaces_prefix o = false -> skel (root (step m o)) = skel (root m).
Proof. exact (step_value_skel pfx V _ _ _ _ _ _ m o). Qed.

(** ... [OccupiedEntry::insert] included: slot numbers, KEYS and child structure are untouched *)
Theorem C15_value_ops_keep_keys (ops : list hop) (o : hop) :
  Forall hop_ok ops -> hop_ok o -> value_op (hrun ops) o = true ->
  skelb (root (hrun (ops ++ [o]))) = skelb (root (hrun ops)).
Proof.
  intros Hops Ho Hv. unfold Common.hrun. rewrite run_snoc.
  exact (step_value_skelb pfx V _ _ _ _ _ _ _ kbits okp LAWS _ o (C15_wf_reachable ops Hops) Ho Hv).
Qed.

(** * At the arena level: every arena [am] reached from the empty arena by arena-level mutator calls
      with valid prefixes ([areach am]) represents ([Rep]) exactly one map of the tree model, which is
      well-formed with exact slot accounting; over the canonical alphabet ([canon2]) it is canonical. *)
Theorem C15_arena (am : amap pfx V) :
  areach pfx V (peq w) (contains w fl) (is_bit_set w) plen (lcp w fl) pzero okp am ->
  exists m, Rep pfx V am m /\ Slots.minv pfx V m /\ wf_root pfx V kbits okp (root m) /\ (forall m', Rep pfx V am m' -> m' = m).
Proof. exact (arena_C15_wf pfx V _ _ _ _ _ _ _ _ _ (laws w fl Hw) am). Qed.

Theorem C15_arena_canonical (am : amap pfx V) :
  areach_in pfx V (peq w) (contains w fl) (is_bit_set w) plen (lcp w fl) pzero okp (canon2 pfx V) am ->
  exists m, Rep pfx V am m /\ wf_root pfx V kbits okp (root m) /\ Canon.canonical pfx V (root m).
Proof. exact (arena_C15_canonical pfx V _ _ _ _ _ _ _ _ _ (laws w fl Hw) am). Qed.

End C15.

(** non-vacuity (w = 8): a canonical history leaving a value-less branch node; its shape equals the
    shape of the map rebuilt from the surviving entries in reverse order; a [remove_keep_tree]
    leftover is NOT canonical (so (b) really is about the smaller alphabet) but well-formed, and
    keeps the structure. *)
Example C15_example :
  let ops : list (hop nat) :=
    [OInsert pfx nat (mkpfx 0x80 2) 1%nat; OInsert pfx nat (mkpfx 0xc0 2) 2%nat;
     OInsert pfx nat (mkpfx 0x20 3) 3%nat; OInsert pfx nat (mkpfx 0xe0 3) 4%nat;
     ORemove pfx nat (mkpfx 0xe0 3); OOrInsert pfx nat (mkpfx 0x00 1) 5%nat;
     ORetain pfx nat (fun _ p _ => Some (negb (plen p =? 1)%N))] in
  let m := hrun 8 Generic nat ops in
  forallb (History.canon_op pfx nat) ops = true /\
  map fst (entries (root m)) = [mkpfx 0x20 3; mkpfx 0x80 2; mkpfx 0xc0 2] /\
  Canon.shape_of pfx nat (kbits 8) (root m) =
    SNode [] false (SNode [false; false; true] true SLeaf SLeaf)
                   (SNode [true] false (SNode [true; false] true SLeaf SLeaf)
                                       (SNode [true; true] true SLeaf SLeaf)) /\
  Canon.shape_of pfx nat (kbits 8) (root m) =
    Canon.shape_of pfx nat (kbits 8) (root (t_from_list 8 Generic nat (rev (entries (root m))))) /\
  HistoryExtra.depth pfx nat (root m) = 3%nat /\
  let m' := hrun 8 Generic nat (ops ++ [ORemoveKeepTree pfx nat (mkpfx 0xc0 2)]) in
  Mutate.skel pfx nat (root m') = Mutate.skel pfx nat (root m) /\
  length (entries (root m')) = 2%nat /\
  Canon.shape_of pfx nat (kbits 8) (root m') <>
    Canon.shape_of pfx nat (kbits 8) (root (t_from_list 8 Generic nat (entries (root m')))).
Proof. vm_compute. repeat split; try reflexivity. discriminate. Qed.

Print Assumptions C15_key_len.
Print Assumptions C15_wf_reachable.
Print Assumptions C15_edges.
Print Assumptions C15_edges_reachable.
Print Assumptions C15_depth.
Print Assumptions C15_path_len.
Print Assumptions C15_canonical.
Print Assumptions C15_canonical_words.
Print Assumptions C15_shape_rebuild.
Print Assumptions C15_shape_same_keys.
Print Assumptions C15_shape_determined.
Print Assumptions C15_remove_reverts_insert.
Print Assumptions C15_value_ops_keep_structure.
Print Assumptions C15_value_ops_keep_keys.
Print Assumptions C15_arena.
Print Assumptions C15_arena_canonical.
