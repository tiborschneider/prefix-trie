(** C17 — prefix algebra is sound for every shipped prefix type, incl. boundary lengths.
    [PrefixN] models the [Prefix] trait over a word of ANY width [w >= 1] (8, 16, 32, 64, 128 are
    instances) for the three flavours of shipped implementations (generic defaults; ipnet's own
    [contains]/[longest_common_prefix]; cidr's masking constructor).  All statements are for all
    valid values ([len <= w], address below [2^w]) and all bit indices. *)
From Coq Require Import List NArith Bool.
From PT Require Import Bits BitsThm PrefixN Laws PrefixLaws.
From PT.Properties Require Import Common.
Import ListNotations.

(** The representation theorem: against the bit string [kbits p] (the [len] leading bits),
    - [prefix_len] is its length, [eq] is equality of bit strings (host bits ignored),
    - [contains a b] is exactly "the bits of [a] are a prefix of the bits of [b]" (hence reflexive,
      transitive, antisymmetric up to host bits),
    - [is_bit_set p i] is the i-th leading bit and [false] for every [i >= len] (also [i >= w], up to 255 and beyond),
    - [longest_common_prefix a b] denotes the longest common prefix of the two bit strings (hence
      symmetric on keys, covers both, length = min(len a, len b, number of equal leading bits)),
    - [zero()] is the zero-length prefix,
    - numeric comparison of masked addresses is the zero-padded comparison of the bit strings. *)
Theorem C17_representation (w : N) (fl : flavour) : (1 <= w)%N ->
  prefix_laws pfx (peq w) (contains w fl) (is_bit_set w) plen (lcp w fl) pzero (mcmp w)
              (pbits w) (fun p => valid w p = true).
Proof. exact (pn_laws w fl). Qed.

Theorem C17_from_repr_len (w : N) (fl : flavour) (r l : N) :
  (1 <= w)%N -> (l <= w)%N -> (r < 2 ^ w)%N ->
  let p := from_repr_len w fl r l in
  valid w p = true /\ plen p = l /\ pbits w p = pbits w (mkpfx r l).
Proof. intros _. exact (from_repr_len_spec w fl r l). Qed.

(** the masking constructor (cidr) stores the address masked to the length *)
Theorem C17_from_repr_len_masking (w r l : N) :
  repr (from_repr_len w Masking r l) = N.land r (mask_from_len w l).
Proof. exact (from_repr_len_masking_repr w r l). Qed.

(** [mask()] has a zeroed host part, and so has the result of [longest_common_prefix] *)
Theorem C17_mask_host_zero (w : N) (p : pfx) :
  valid w p = true -> forall i, (i < w - plen p)%N -> N.testbit (pmask w p) i = false.
Proof. intros _. exact (pmask_host_zero w p). Qed.

Theorem C17_lcp_host_zero (w : N) (fl : flavour) (a b : pfx) :
  (1 <= w)%N -> valid w a = true -> valid w b = true -> repr (lcp w fl a b) = pmask w (lcp w fl a b).
Proof. intros _ _ _. exact (lcp_repr_masked w fl a b). Qed.

(** the type-specific overrides (ipnet) agree with the generic definitions *)
Theorem C17_override_contains (w : N) (a b : pfx) :
  (1 <= w)%N -> valid w a = true -> valid w b = true -> contains_ipnet w a b = contains_generic w a b.
Proof. intros _. exact (contains_ipnet_generic w a b). Qed.

Theorem C17_override_lcp (w : N) (a b : pfx) :
  (1 <= w)%N -> valid w a = true -> valid w b = true ->
  pbits w (lcp_ipnet w a b) = pbits w (lcp_generic w Generic a b).
Proof. intros _. exact (lcp_ipnet_generic_bits w a b). Qed.

(** no shift overflows for valid lengths ([!0 >> len] panics in debug builds for [len >= w]) *)
Theorem C17_no_shift_overflow (w len : N) :
  (len <= w)%N -> mask_from_len_chk w len = Some (mask_from_len w len).
Proof. exact (mask_chk_total w len). Qed.

Theorem C17_bit_beyond_length (w : N) (p : pfx) (i : N) :
  (1 <= w)%N -> valid w p = true -> (plen p <= i)%N -> is_bit_set w p i = false.
Proof. intros _ _. exact (is_bit_set_high w p i). Qed.

(** non-vacuity: a concrete valid prefix with host bits, and one algebraic instance *)
Example C17_example :
  valid 8 (mkpfx 0x47 2) = true /\ pbits 8 (mkpfx 0x47 2) = [false; true] /\
  contains 8 Ipnet (mkpfx 0x47 2) (mkpfx 0x60 3) = true /\
  lcp 8 Generic (mkpfx 0x47 8) (mkpfx 0x60 3) = mkpfx 0x40 2.
Proof. vm_compute. repeat split; reflexivity. Qed.

Print Assumptions C17_representation.
Print Assumptions C17_from_repr_len.
Print Assumptions C17_from_repr_len_masking.
Print Assumptions C17_mask_host_zero.
Print Assumptions C17_lcp_host_zero.
Print Assumptions C17_override_contains.
Print Assumptions C17_override_lcp.
Print Assumptions C17_no_shift_overflow.
Print Assumptions C17_bit_beyond_length.
