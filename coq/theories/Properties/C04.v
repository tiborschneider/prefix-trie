(** C04 — len() and is_empty() always agree with the number of stored entries.

    [len m] / [is_empty m] read the cached counter of the model ([Trie.len], [Trie.is_empty]); the
    number of entries yielded by iteration is [length (entries (root m))] ([C04_iteration_count]:
    every iterator yields exactly that list).  A history is a list of operations of the complete
    mutator alphabet [History.op] (insert on new / existing / value-less nodes, every Entry-API path
    incl. OccupiedEntry::remove, remove, remove_keep_tree, remove_children, retain with any closure
    incl. a panicking one, clear, collect, writes through mutable traversals, TrieViewMut::set and
    ::remove); [clone] is the identity on the model.  "After every step" = for the state after every
    prefix [firstn k ops] of the history.  None of the theorems about histories needs any hypothesis
    on the arguments of the operations (no validity of prefixes, no well-formedness): the accounting
    is structural.  ([C04_entry_chain] and [C04_arena] do assume a well-formed map and valid prefixes.)

    RESULT.  The property as stated is FALSE for the two mutable-view operations (known finding,
    class view-counter: [TrieViewMut::set] on a value-less node and [TrieViewMut::remove] on a stored
    entry hold only an arena reference and cannot reach the counter): [C04_view_refuted].  What
    holds is
    - [C04_len_every_step], [C04_is_empty_every_step]: the property, after every step of every
      history over the alphabet minus those two operations;
    - [C04_drift]: over the FULL alphabet, [len = #entries + drift] where the drift is exactly
      (number of view removals that took a value out) - (number of view insertions that filled a
      value-less node) since the last clear / remove_children(zero-length prefix) / collect
      ([C04_drift_step], [C04_drift_reset], [C04_clear_resyncs]). *)
From Coq Require Import List NArith ZArith Bool Lia.
From PT Require Import Slots Lookup2 History HistoryExtra EntryApi InstEntry Arena ArenaProps.
From PT.Properties Require Import Common.
Import ListNotations.

Section C04.
Variables (w : N) (fl : flavour) (V : Type).

Notation hrun := (hrun w fl V).
Notation hop := (hop V).
Notation counts := (History.counts pfx V).
Notation nent m := (Z.of_nat (length (entries (root m)))).
Notation step := (History.step pfx V (peq w) (contains w fl) (is_bit_set w) plen (lcp w fl) pzero).
Notation drift := (HistoryExtra.drift pfx V (peq w) (contains w fl) (is_bit_set w) plen (lcp w fl) pzero).
Notation drift_step := (HistoryExtra.drift_step pfx V plen).
Notation is_reset := (HistoryExtra.is_reset pfx V plen).
Notation empty := (Trie.empty pfx V pzero).

(** what iteration yields: [iter], [iter_mut] and [into_iter] all yield the pre-order entry list,
    so "the number of entries yielded by iteration" is [length (entries t)] *)
Theorem C04_iteration_count (t : tree pfx V) :
  map (Inst.drop_id V) (t_iter_items V t) = entries t /\
  length (t_iter_items V t) = length (entries t) /\
  length (t_iter_mut_items V t) = length (entries t) /\
  length (t_into_iter_items V t) = length (entries t).
Proof.
  unfold t_iter_items, t_iter_mut_items, t_into_iter_items.
  rewrite iter_items_spec, iter_mut_items_spec, into_iter_items_spec, <- length_entries_id.
  split; [exact (entries_id_entries pfx V t) | auto].
Qed.

(** THE PROPERTY, on the alphabet minus OViewSet / OViewRemove: after every step of every history,
    [len()] is the number of stored entries *)
Theorem C04_len_every_step (ops : list hop) (k : nat) :
  forallb counts ops = true ->
  len (hrun (firstn k ops)) = nent (hrun (firstn k ops)).
Proof.
  intros H. apply (cinv_len pfx V).
  apply (reachable_count pfx V). apply forallb_firstn. exact H.
Qed.

(** ... and [is_empty()] is true exactly when that number is zero *)
Theorem C04_is_empty_every_step (ops : list hop) (k : nat) :
  forallb counts ops = true ->
  (is_empty (hrun (firstn k ops)) = true <-> entries (root (hrun (firstn k ops))) = []) /\
  (is_empty (hrun (firstn k ops)) = true <-> length (entries (root (hrun (firstn k ops)))) = 0%nat).
Proof.
  intros H.
  assert (A : is_empty (hrun (firstn k ops)) = true <-> entries (root (hrun (firstn k ops))) = []).
  { apply (cinv_is_empty pfx V). apply (reachable_count pfx V). apply forallb_firstn. exact H. }
  split; [exact A|]. rewrite A. split; [intros ->; reflexivity | apply length_zero_iff_nil].
Qed.

(** the same for the final state (the instance [k = length ops]) *)
Corollary C04_len (ops : list hop) :
  forallb counts ops = true -> len (hrun ops) = nent (hrun ops).
Proof. intros H. pose proof (C04_len_every_step ops (length ops) H) as E. rewrite firstn_all in E. exact E. Qed.

Corollary C04_is_empty (ops : list hop) :
  forallb counts ops = true -> (is_empty (hrun ops) = true <-> entries (root (hrun ops)) = []).
Proof.
  intros H. pose proof (proj1 (C04_is_empty_every_step ops (length ops) H)) as E.
  rewrite firstn_all in E. exact E.
Qed.

(** OVER THE FULL ALPHABET (views included), after every step: the counter is off by exactly the
    accumulated drift *)
Theorem C04_drift (ops : list hop) (k : nat) :
  len (hrun (firstn k ops)) = (nent (hrun (firstn k ops)) + drift (firstn k ops) empty 0)%Z.
Proof. exact (reachable_drift pfx V _ _ _ _ _ _ (firstn k ops)). Qed.

(** what one operation does to [len - #entries], from ANY state:
    - TrieViewMut::set on an existing value-less node: -1 (an entry appears, the counter stays);
    - TrieViewMut::remove on a node holding a value: +1 (an entry disappears, the counter stays);
    - clear, remove_children of the zero-length prefix, collect: reset to 0;
    - every other operation (and the two above in their harmless cases): unchanged. *)
Theorem C04_drift_step (m : pmap pfx V) (o : hop) :
  (len (step m o) - nent (step m o) =
   match o with
   | OViewSet _ _ pa _ =>
     let n := subtree (root m) pa in
     if is_node n && is_none (tval n) then len m - nent m - 1 else len m - nent m
   | OViewRemove _ _ pa =>
     if is_some (tval (subtree (root m) pa)) then len m - nent m + 1 else len m - nent m
   | _ => if is_reset o then 0 else len m - nent m
   end)%Z.
Proof.
  pose proof (step_gap pfx V (peq w) (contains w fl) (is_bit_set w) plen (lcp w fl) pzero m o) as G.
  unfold gap, Slots.nentries in G. unfold len. rewrite G.
  destruct o; cbn [HistoryExtra.drift_step]; try reflexivity.
Qed.

(** a resetting operation forgets all earlier drift *)
Theorem C04_drift_reset (ops1 : list hop) (o : hop) (ops2 : list hop) :
  is_reset o = true ->
  drift (ops1 ++ o :: ops2) empty 0 = drift ops2 (hrun (ops1 ++ [o])) 0.
Proof. exact (drift_reset pfx V _ _ _ _ _ _ ops1 o ops2). Qed.

(** [clear] (= remove_children of the zero-length prefix) re-synchronises whatever happened before *)
Theorem C04_clear_resyncs (m : pmap pfx V) :
  len (t_clear V m) = nent (t_clear V m) /\ is_empty (t_clear V m) = true.
Proof. split; reflexivity. Qed.

(** histories without the two view operations have no drift ([C04_len] is the instance) *)
Theorem C04_no_drift (ops : list hop) (m : pmap pfx V) :
  forallb counts ops = true -> drift ops m 0 = 0%Z.
Proof. intros H. exact (drift_counts pfx V _ _ _ _ _ _ ops H m). Qed.

(** The Entry API handle by handle: ANY sequence of method calls on one entry handle
    ([get], [get_mut], [key], [insert], [or_insert*], [and_modify], the [OccupiedEntry] and
    [VacantEntry] methods incl. [OccupiedEntry::remove], user closures that panic) keeps
    [len() = number of entries] — except in the recorded known class [occupied_reuse]: another
    accessor after [OccupiedEntry::remove] on the SAME handle ([C04_entry_reuse_refuted]). *)
Theorem C04_entry_chain (Hw : (1 <= w)%N) (m : pmap pfx V) (q : pfx) (acts : list (eact V)) :
  wfm w V (root m) -> okp w q -> len m = nent m -> occupied_reuse V acts = false ->
  let m' := fst (t_entry_chain w fl V m q acts) in
  len m' = nent m' /\ (is_empty m' = true <-> entries (root m') = []).
Proof.
  intros Hwf Hq Hc Hr m'.
  assert (Hc' : Slots.cinv pfx V m') by
    exact (entry_chain_cinv pfx V _ _ _ _ _ _ _ _ _ (laws w fl Hw) m q acts Hc Hwf Hq Hr).
  split; [exact (cinv_len pfx V _ Hc') | exact (cinv_is_empty pfx V _ Hc')].
Qed.

(** * At the arena level: on every arena reached by a history that avoids the two counter-blind view
      writes ([areach_in … counts2]), the cached counter is the number of entries [PrefixMap::iter]
      yields. *)
Theorem C04_arena (Hw : (1 <= w)%N) (am : Arena.amap pfx V) (es : list (pfx * V)) :
  areach_in pfx V (peq w) (contains w fl) (is_bit_set w) plen (lcp w fl) pzero (okp w) (counts2 pfx V) am -> Arena.a_entries pfx V am = Arena.Ok es ->
  Arena.acount am = Z.of_nat (length es).
Proof. exact (arena_C04_count pfx V _ _ _ _ _ _ _ _ _ (laws w fl Hw) am es). Qed.

End C04.

Theorem C04_entry_reuse_refuted :
  exists (m : pmap pfx nat) (q : pfx) (acts : list (eact nat)),
    wfm 8 nat (root m) /\ okp 8 q /\ len m = Z.of_nat (length (entries (root m))) /\
    let m' := fst (t_entry_chain 8 Generic nat m q acts) in
    len m' <> Z.of_nat (length (entries (root m'))).
Proof.
  exists wm, wq, [OccRemove; OccInsert 7%nat].
  destruct entry_chain_refuted as (Hwf & Hq & Hc & _ & _ & _ & _ & He & Hn & _).
  split; [exact Hwf|]. split; [exact Hq|]. split; [exact Hc|].
  cbv zeta. unfold t_entry_chain. fold (w_chain wm wq [OccRemove; OccInsert 7%nat]).
  unfold len. rewrite Hn, He. discriminate.
Qed.

(** sets: [PrefixSet<P>] is [PrefixMap<P, ()>]; [len]/[is_empty] of the set are those of the map *)
Corollary C04_sets (w : N) (fl : flavour) (ops : list (hop unit)) (k : nat) :
  forallb (History.counts pfx unit) ops = true ->
  len (hrun w fl unit (firstn k ops)) = Z.of_nat (length (entries (root (hrun w fl unit (firstn k ops))))) /\
  (is_empty (hrun w fl unit (firstn k ops)) = true <-> entries (root (hrun w fl unit (firstn k ops))) = []).
Proof.
  intros H. split; [apply C04_len_every_step; exact H | apply C04_is_empty_every_step; exact H].
Qed.

(** REFUTED as stated (full alphabet): a valid history after which [len()] differs from the number
    of entries, and one after which [is_empty()] is true on a non-empty map.
    First witness: insert 1000_0000/1, then [remove] through the mutable view at path [true] (the
    right child of the root, i.e. that entry): 0 entries, len() = 1.  Second witness: [set] through
    the mutable view of the value-less root of a new map: 1 entry, len() = 0, is_empty() = true. *)
Theorem C04_view_refuted :
  (exists ops : list (hop nat), Forall (hop_ok 8 nat) ops /\
     len (hrun 8 Generic nat ops) <> Z.of_nat (length (entries (root (hrun 8 Generic nat ops))))) /\
  (exists ops : list (hop nat), Forall (hop_ok 8 nat) ops /\
     is_empty (hrun 8 Generic nat ops) = true /\ entries (root (hrun 8 Generic nat ops)) <> []).
Proof.
  split.
  - exists [OInsert pfx nat (mkpfx 0x80 1) 1%nat; OViewRemove pfx nat [true]].
    split; [repeat constructor|]. vm_compute. discriminate.
  - exists [OViewSet pfx nat [] 7%nat].
    split; [repeat constructor|]. split; [vm_compute; reflexivity | vm_compute; discriminate].
Qed.

(** non-vacuity: a history through every kind of counted operation (insert new / existing /
    value-less leftover, Entry API, OccupiedEntry::remove, remove, remove_keep_tree, retain,
    remove_children), its counter and its entries; and the drift of a history with view operations *)
Example C04_example :
  let ops : list (hop nat) :=
    [OInsert pfx nat (mkpfx 0x80 1) 1%nat; OInsert pfx nat (mkpfx 0xc0 2) 2%nat;
     OInsert pfx nat (mkpfx 0x00 1) 3%nat; ORemoveKeepTree pfx nat (mkpfx 0x80 1);
     OInsert pfx nat (mkpfx 0x80 1) 4%nat; OEntryInsert pfx nat (mkpfx 0xc0 2) 5%nat;
     OOrInsert pfx nat (mkpfx 0x40 2) 6%nat; OOccRemove pfx nat (mkpfx 0x00 1);
     ORemove pfx nat (mkpfx 0xc0 2);
     ORetain pfx nat (fun _ p _ => Some (negb (plen p =? 2)%N));
     OInsert pfx nat (mkpfx 0xa0 3) 7%nat; ORemoveChildren pfx nat (mkpfx 0xa0 3)] in
  forallb (History.counts pfx nat) ops = true /\
  map (fun k => len (hrun 8 Generic nat (firstn k ops))) (seq 0%nat 13%nat) =
    [0; 1; 2; 3; 2; 3; 3; 4; 3; 2; 1; 2; 1]%Z /\
  map (fun k => length (entries (root (hrun 8 Generic nat (firstn k ops))))) (seq 0%nat 13%nat) =
    [0; 1; 2; 3; 2; 3; 3; 4; 3; 2; 1; 2; 1]%nat /\
  let vops : list (hop nat) :=
    [OInsert pfx nat (mkpfx 0x80 1) 1%nat; OViewRemove pfx nat [true]; OViewRemove pfx nat [true];
     OViewSet pfx nat [] 9%nat; OViewSet pfx nat [] 8%nat; OViewSet pfx nat [true] 8%nat] in
  map (fun k => HistoryExtra.drift pfx nat (peq 8) (contains 8 Generic) (is_bit_set 8) plen (lcp 8 Generic) pzero
                  (firstn k vops) (Trie.empty pfx nat pzero) 0) (seq 0%nat 7%nat) = [0; 0; 1; 1; 0; 0; -1]%Z.
Proof. vm_compute. repeat split; reflexivity. Qed.

Print Assumptions C04_iteration_count.
Print Assumptions C04_len_every_step.
Print Assumptions C04_is_empty_every_step.
Print Assumptions C04_len.
Print Assumptions C04_is_empty.
Print Assumptions C04_drift.
Print Assumptions C04_drift_step.
Print Assumptions C04_drift_reset.
Print Assumptions C04_clear_resyncs.
Print Assumptions C04_no_drift.
Print Assumptions C04_sets.
Print Assumptions C04_view_refuted.
Print Assumptions C04_entry_chain.
Print Assumptions C04_entry_reuse_refuted.
Print Assumptions C04_arena.
