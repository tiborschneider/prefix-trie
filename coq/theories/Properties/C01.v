(** C01 — Map/set contents match an abstract map after any operation history.

    The abstract ordered map is an association list [amap = list (pfx * V)], strictly sorted by the
    key [kbits w p] (the [len] leading bits = (network address, prefix length)), with the operations
    of [Refine.v]: [a_get], [a_insert], [a_without], [a_update], [a_remove_children], [a_retain],
    and the key-addressed write [a_write] of [Refine2.v].  One call of the mutator alphabet
    [History.op] (insert; Entry::insert; or_insert*/VacantEntry::insert*; OccupiedEntry::remove;
    get_mut/and_modify; remove; remove_keep_tree; remove_children; retain; clear; collect;
    writes through the references of any mutable traversal; TrieViewMut::set / ::remove) acts on the
    abstract map by [x_step A (resolve m o)], where [resolve] replaces the slot numbers / the node
    path by which the last three calls designate their target by the KEY of the designated entry /
    node in the state [m] in which the call is made (a reference or a view has no other meaning in
    an abstract map).  The theorems say, for every width [w >= 1], flavour and value type:

      - after ANY finite history the entry list of the map IS the abstract map to which the same
        calls were applied ([C01_contents]), after every step ([C01_every_step]);
      - every mutating call returns what the abstract map returns ([C01_returns]);
      - every exact-match observer returns the abstract map's answer for every valid query prefix,
        stored or not, whatever its host bits ([C01_observers], [C01_observers_wf]);
      - the abstract map is a map: strictly sorted, one entry per key ([C01_abstract_is_map]).
    The set is the instance [V = unit] (its twins are stated at the end). *)
From Coq Require Import List NArith Bool Sorted.
From PT Require Import Refine Refine2 EntryApi InstEntry Arena ArenaProps Arena2 ArenaRefine ArenaOuts.
From PT.Properties Require Import Common.
Import ListNotations.

Section C01.
Variables (w : N) (fl : flavour) (V : Type).
Hypothesis Hw : (1 <= w)%N.

Notation amap := (list (pfx * V)).
Notation a_get := (Refine.a_get pfx V (kbits w)).
Notation a_insert := (Refine.a_insert pfx V (kbits w)).
Notation a_without := (Refine.a_without pfx V (kbits w)).
Notation a_write := (Refine2.a_write pfx V (kbits w)).
Notation a_step := (Refine.a_step pfx V (kbits w)).
Notation a_run := (Refine.a_run pfx V (kbits w)).
Notation hit A q := (find (fun e : pfx * V => beq (ekey w V e) (kbits w q)) A).
Notation key_lt := (TrieWf.key_lt pfx V (kbits w)).
Notation step := (History.step pfx V (peq w) (contains w fl) (is_bit_set w) plen (lcp w fl) pzero).
Notation xop := (Refine2.xop pfx V).
Notation resolve := (Refine2.resolve pfx V).
Notation elab := (Refine2.elab pfx V (peq w) (contains w fl) (is_bit_set w) plen (lcp w fl) pzero).
Notation x_step := (Refine2.x_step pfx V (kbits w)).
Notation x_run := (Refine2.x_run pfx V (kbits w)).
Notation x_outs := (Refine2.x_outs pfx V (kbits w)).
Notation c_out := (Refine2.c_out_full pfx V (peq w) (contains w fl) (is_bit_set w) plen (lcp w fl)).
Notation c_outs := (Refine2.c_outs_full pfx V (peq w) (contains w fl) (is_bit_set w) plen (lcp w fl) pzero).
Notation key_writes := (Refine2.key_writes pfx V).
Notation own := (Refine2.own pfx V).
Notation L := (laws w fl Hw).

(** the complete alphabet: the arguments are valid prefixes, [collect] really permutes
    ([hop_ok]), and the closure passed to [retain] is pure and total (its verdict does not depend on
    the number of earlier invocations and it does not panic).  No other restriction: histories of
    any length, keys with arbitrary host bits, the zero-length and the full-length prefixes. *)
Definition adm (o : hop V) : Prop := Refine2.admissible pfx V (okp w) o.

Lemma adm_hop_ok ops : Forall adm ops -> Forall (hop_ok w V) ops.
Proof. apply Forall_impl. intros o [H _]. exact H. Qed.

(** the abstract history of [ops]: the same calls, designators resolved *)
Definition abstract_history (ops : list (hop V)) : list xop := elab (t_empty V) ops.

(** CONTENTS.  After any finite sequence of public mutating calls the map holds exactly the
    entries of the abstract ordered map to which the same calls were applied (same entries, same
    stored prefixes, same values, same order). *)
Theorem C01_contents (ops : list (hop V)) :
  Forall adm ops -> entries (root (hrun w fl V ops)) = x_run (abstract_history ops).
Proof. exact (Refine2.run_refines_full pfx V _ _ _ _ _ _ _ _ _ L ops). Qed.

(** RETURN VALUES.  Every call of the history returned what the abstract map returns: the previous
    value (insert, Entry::insert / OccupiedEntry::insert, get_mut's target, TrieViewMut::set), the
    removed value (remove, remove_keep_tree, OccupiedEntry::remove, TrieViewMut::remove), the
    resident value ([or_insert*]: the value the returned reference points to). *)
Theorem C01_returns (ops : list (hop V)) :
  Forall adm ops -> c_outs (t_empty V) ops = x_outs [] (abstract_history ops).
Proof. exact (Refine2.outs_refine_full pfx V _ _ _ _ _ _ _ _ _ L ops). Qed.

(** AFTER EVERY STEP.  The state after any prefix [ops] of a history is well-formed, its contents
    are the abstract map's, and the next call [o] transforms the contents as the abstract call
    transforms the abstract map and returns the abstract answer. *)
Theorem C01_every_step (ops : list (hop V)) (o : hop V) :
  Forall adm ops -> adm o ->
  wfm w V (root (hrun w fl V ops)) /\
  entries (root (hrun w fl V ops)) = x_run (abstract_history ops) /\
  entries (root (hrun w fl V (ops ++ [o])))
  = fst (x_step (x_run (abstract_history ops)) (resolve (hrun w fl V ops) o)) /\
  c_out (hrun w fl V ops) o = snd (x_step (x_run (abstract_history ops)) (resolve (hrun w fl V ops) o)).
Proof. exact (Refine2.reachable_step_refines_full pfx V _ _ _ _ _ _ _ _ _ L ops o). Qed.

(** the same for one call on ANY well-formed state (every reachable state is one) *)
Theorem C01_step (m : pmap pfx V) (o : hop V) :
  wfm w V (root m) -> adm o ->
  entries (root (step m o)) = fst (x_step (entries (root m)) (resolve m o)) /\
  c_out m o = snd (x_step (entries (root m)) (resolve m o)).
Proof. exact (Refine2.step_refines_full pfx V _ _ _ _ _ _ _ _ _ L m o). Qed.

(** OBSERVERS.  After any history, for EVERY valid query prefix [q] (stored or not, any host bits):
    [get] (and [get_mut]'s target) is the abstract map's value at the key of [q]; [get_key_value]
    is the abstract map's entry at that key (the STORED prefix with its value); [contains_key]
    says whether the abstract map has the key; [Entry::get] and [Entry::key] of [entry(q)] are the
    abstract value and the stored prefix (the query's own prefix for a vacant entry). *)
Theorem C01_observers (ops : list (hop V)) (q : pfx) :
  Forall adm ops -> okp w q ->
  let m := hrun w fl V ops in
  let A := x_run (abstract_history ops) in
  t_get w fl V (root m) q = a_get A q /\
  t_get_key_value w fl V (root m) q = hit A q /\
  t_contains_key w fl V (root m) q = is_some (a_get A q) /\
  t_h_get w fl V m (t_entry w fl V m q) = a_get A q /\
  t_h_key w fl V m (t_entry w fl V m q) = match hit A q with Some e => fst e | None => q end.
Proof. exact (Refine2.observers_run_full pfx V _ _ _ _ _ _ _ _ _ L ops q). Qed.

(** ... and on any well-formed state against its own entry list *)
Theorem C01_observers_wf (m : pmap pfx V) (q : pfx) :
  wfm w V (root m) -> okp w q ->
  let A := entries (root m) in
  t_get w fl V (root m) q = a_get A q /\
  t_get_key_value w fl V (root m) q = hit A q /\
  t_contains_key w fl V (root m) q = is_some (a_get A q) /\
  t_h_get w fl V m (t_entry w fl V m q) = a_get A q /\
  t_h_key w fl V m (t_entry w fl V m q) = match hit A q with Some e => fst e | None => q end.
Proof. exact (Refine2.observers_refine pfx V _ _ _ _ _ _ _ _ _ L m q). Qed.

(** THE ABSTRACT MAP IS A MAP keyed by (network address, prefix length): it is strictly sorted by
    key, holds every key at most once, and its lookups are lookups by key: [a_get A q = Some x] iff
    some entry [(p, x)] with the key of [q] is in [A]; [hit A q = Some e] iff [e] is that entry. *)
Theorem C01_abstract_is_map (ops : list (hop V)) :
  let A := x_run (abstract_history ops) in
  StronglySorted key_lt A /\ NoDup (map (ekey w V) A) /\
  (forall q x, a_get A q = Some x <-> exists p, In (p, x) A /\ kbits w p = kbits w q) /\
  (forall q, a_get A q = None <-> forall e, In e A -> ekey w V e <> kbits w q) /\
  (forall q e, hit A q = Some e <-> In e A /\ ekey w V e = kbits w q).
Proof.
  intros A. pose proof (Refine2.x_run_sorted pfx V (kbits w) (abstract_history ops)) as Hs.
  split; [exact Hs|]. split; [exact (Refine2.x_run_keys_NoDup pfx V (kbits w) (abstract_history ops))|].
  split; [intros q x; exact (Refine.a_get_spec pfx V (kbits w) A q x Hs)|].
  split; [intros q; exact (Refine.a_get_none pfx V (kbits w) A q)|].
  intros q e. exact (Refine.find_key_spec pfx V (kbits w) A q e Hs).
Qed.

(** on histories without reference/view writes nothing has to be resolved: the abstract map is
    [Refine.a_run], a function of the calls alone *)
Theorem C01_key_addressed_histories (ops : list (hop V)) :
  Forall (Refine.refinable pfx V (okp w)) ops ->
  x_run (abstract_history ops) = a_run ops /\ entries (root (hrun w fl V ops)) = a_run ops.
Proof.
  intros H. split; [exact (Refine2.x_run_refinable pfx V _ _ _ _ _ _ (kbits w) (okp w) ops H)|].
  exact (Refine.run_refines pfx V _ _ _ _ _ _ _ _ _ L ops H).
Qed.

(* ---------------------------------------------------------------------------------------- *)
(** the individual calls with a return value, on the functions that are extracted and run
    against the implementation *)

(** [insert q x]: the map becomes [a_insert A q x] ([(q, x)] at the position of its key, any
    entry under the same key replaced, all others untouched); returns the previous value *)
Theorem C01_insert (m : pmap pfx V) (q : pfx) (x : V) :
  wfm w V (root m) -> okp w q ->
  entries (root (fst (t_insert w fl V m q x))) = a_insert (entries (root m)) q x /\
  snd (t_insert w fl V m q x) = a_get (entries (root m)) q.
Proof. exact (Refine.insert_refines pfx V _ _ _ _ _ _ _ _ _ L m q x). Qed.

(** [remove q] / [remove_keep_tree q]: the map loses the entry under the key of [q] (if any), all
    others untouched; returns the removed value *)
Theorem C01_remove (m : pmap pfx V) (q : pfx) :
  wfm w V (root m) -> okp w q ->
  entries (root (fst (t_remove w fl V m q))) = a_without (entries (root m)) q /\
  snd (t_remove w fl V m q) = a_get (entries (root m)) q.
Proof. exact (Refine.remove_refines2 pfx V _ _ _ _ _ _ _ _ _ L m q). Qed.

Theorem C01_remove_keep_tree (m : pmap pfx V) (q : pfx) :
  wfm w V (root m) -> okp w q ->
  entries (root (fst (t_remove_keep_tree w fl V m q))) = a_without (entries (root m)) q /\
  snd (t_remove_keep_tree w fl V m q) = a_get (entries (root m)) q.
Proof. exact (Refine.remove_keep_tree_refines2 pfx V _ _ _ _ _ _ _ _ _ L m q). Qed.

(** the effect of the abstract operations, as membership (what must and what must NOT change) *)
Theorem C01_abstract_effects (A : amap) (q : pfx) (x : V) (e : pfx * V) :
  (In e (a_insert A q x) <-> e = (q, x) \/ (In e A /\ ekey w V e <> kbits w q)) /\
  (In e (a_without A q) <-> In e A /\ ekey w V e <> kbits w q).
Proof.
  split; [exact (Refine.in_a_insert pfx V (kbits w) A q x e) | exact (Refine.in_a_without pfx V (kbits w) A q e)].
Qed.

(* ---------------------------------------------------------------------------------------- *)
(** the three designator-addressed calls, per step *)

(** writes through the references handed out by a mutable lookup / iterator / view traversal
    ([ws] = slot number |-> new value): every entry keeps its position and stored prefix; its value
    is replaced exactly when its slot is in [ws].  In key form: the abstract map receives the write
    [a_write] of the new values at the keys of the designated entries. *)
Theorem C01_write (m : pmap pfx V) (ws : list (N * V)) :
  entries (root (step m (OWrite pfx V ws)))
  = map (fun e : N * pfx * V => let '(i, p, x) := e in
                                (p, match assoc_id ws i with Some y => y | None => x end))
        (entries_id (root m)) /\
  (wfm w V (root m) ->
   entries (root (step m (OWrite pfx V ws))) = a_write (entries (root m)) (key_writes (root m) ws)).
Proof.
  split; [exact (Refine2.write_step_entries pfx V _ _ _ _ _ _ m ws)|].
  exact (Refine2.write_step_refines pfx V _ _ _ _ _ _ _ _ m ws).
Qed.

Theorem C01_a_write (A kw : amap) (e : pfx * V) :
  In e (a_write A kw) <->
  exists e0, In e0 A /\ fst e = fst e0 /\
             snd e = match a_get kw (fst e0) with Some y => y | None => snd e0 end.
Proof. exact (Refine2.in_a_write pfx V (kbits w) A kw e). Qed.

(** [TrieViewMut::set x] at the node reached by [pa], holding prefix [p] and value [v]: acts as
    [insert p x] on the abstract map — the entry list [P ++ own p v ++ Q] becomes [P ++ (p, x) :: Q]
    — and returns [v], the abstract map's value at [p].  A path into a [Leaf] designates nothing. *)
Theorem C01_view_set (m : pmap pfx V) (pa : path) (x : V) :
  wfm w V (root m) ->
  match subtree (root m) pa with
  | Leaf => step m (OViewSet pfx V pa x) = m
  | Node _ p v _ _ =>
    entries (root (step m (OViewSet pfx V pa x))) = a_insert (entries (root m)) p x /\
    c_out m (OViewSet pfx V pa x) = v /\
    a_get (entries (root m)) p = v /\
    exists P Q, entries (root m) = P ++ own p v ++ Q /\
                entries (root (step m (OViewSet pfx V pa x))) = P ++ (p, x) :: Q
  end.
Proof.
  intros Hr. destruct (subtree (root m) pa) as [|i p v l r] eqn:Hs.
  - exact (proj1 (Refine2.view_step_leaf pfx V _ _ _ _ _ _ m pa Hs) x).
  - exact (Refine2.view_set_step pfx V _ _ _ _ _ _ _ _ m pa x i p v l r Hr Hs).
Qed.

(** [TrieViewMut::remove] at that node: the node's own entry (if any) leaves the list, all other
    entries are unchanged; returns [v]; when the node holds a value this is [remove_keep_tree p]
    on the abstract map. *)
Theorem C01_view_remove (m : pmap pfx V) (pa : path) :
  wfm w V (root m) ->
  match subtree (root m) pa with
  | Leaf => step m (OViewRemove pfx V pa) = m
  | Node _ p v _ _ =>
    c_out m (OViewRemove pfx V pa) = v /\
    (exists P Q, entries (root m) = P ++ own p v ++ Q /\
                 entries (root (step m (OViewRemove pfx V pa))) = P ++ Q) /\
    (forall y, v = Some y ->
       entries (root (step m (OViewRemove pfx V pa))) = a_without (entries (root m)) p /\
       a_get (entries (root m)) p = Some y)
  end.
Proof.
  intros Hr. destruct (subtree (root m) pa) as [|i p v l r] eqn:Hs.
  - exact (proj2 (Refine2.view_step_leaf pfx V _ _ _ _ _ _ m pa Hs)).
  - exact (Refine2.view_remove_step pfx V _ _ _ _ _ _ _ _ m pa i p v l r Hr Hs).
Qed.

(** Every Entry-API path, handle by handle.  [t_entry_chain m q acts] is the state machine of one
    entry handle (EntryApi.v: creation by [entry(q)], then ANY sequence of [Entry] /
    [OccupiedEntry] / [VacantEntry] method calls, incl. wrongly matched variants, consuming
    calls, panicking closures and the known class) — the function the extracted driver runs for
    [entry] lines.  Its tokens (values seen through returned references, old values, keys, [ok],
    wrong-variant, panic) are those of the reference machine [crun] that runs on the ABSTRACT cell
    [a_get A q] alone, started with all flags down ([fl0]: the [Entry] not yet matched, nothing
    removed or consumed); afterwards the abstract map holds at [q] what that machine says, and every
    entry under another key is untouched. *)
Theorem C01_entry_chain (m : pmap pfx V) (q : pfx) (acts : list (eact V)) :
  wfm w V (root m) -> okp w q ->
  let A := entries (root m) in
  let A' := entries (root (fst (t_entry_chain w fl V m q acts))) in
  let r := crun pfx V (is_some (a_get A q)) (t_h_key w fl V m (t_entry w fl V m q)) q (a_get A q) (fl0) acts in
  snd (t_entry_chain w fl V m q acts) = snd r /\
  a_get A' q = fst r /\
  (forall e, ekey w V e <> kbits w q -> (In e A' <-> In e A)).
Proof. exact (entry_chain_refines_abstract pfx V _ _ _ _ _ _ _ _ _ (laws w fl Hw) m q acts). Qed.

(** single calls, spelled out: [entry(q).insert(x)] returns the previous value and stores [x];
    [or_insert(x)] / [or_insert_with(|| x)] / [or_default()] return (a reference to) the resident
    value if there is one, else store and return [x] *)
Theorem C01_entry_insert (m : pmap pfx V) (q : pfx) (x : V) :
  wfm w V (root m) -> okp w q ->
  snd (t_entry_chain w fl V m q [EInsert x]) = [TVal (t_get w fl V (root m) q)] /\
  t_get w fl V (root (fst (t_entry_chain w fl V m q [EInsert x]))) q = Some x.
Proof. exact (entry_insert_content pfx V _ _ _ _ _ _ _ _ _ (laws w fl Hw) m q x). Qed.

Theorem C01_entry_or_insert (m : pmap pfx V) (q : pfx) (x : V) (a : eact V) :
  a = EOrInsert x \/ a = EOrInsertWith (Some x) \/ a = EOrDefault x ->
  wfm w V (root m) -> okp w q ->
  let v := match t_get w fl V (root m) q with Some y => y | None => x end in
  snd (t_entry_chain w fl V m q [a]) = [TVal (Some v)] /\
  t_get w fl V (root (fst (t_entry_chain w fl V m q [a]))) q = Some v.
Proof. exact (entry_or_insert_content pfx V _ _ _ _ _ _ _ _ _ (laws w fl Hw) m q x a). Qed.

(** * At the arena level (Arena*.v: the code over a table of nodes with index links): [PrefixMap::iter]
      and [get] / [get_key_value] / [contains_key] on every arena [am] reached from the empty arena by
      arena-level mutator calls with valid prefixes ([areach am]). *)
Theorem C01_arena (am : Arena.amap pfx V) :
  areach pfx V (peq w) (contains w fl) (is_bit_set w) plen (lcp w fl) pzero (okp w) am ->
  exists es, a_entries pfx V am = Ok es /\ StronglySorted key_lt es /\
             NoDup (map (ekey w V) es) /\ (forall e, In e es -> okp w (fst e)).
Proof. exact (arena_C01_entries pfx V _ _ _ _ _ _ _ _ _ (laws w fl Hw) am). Qed.

Theorem C01_arena_get (am : Arena.amap pfx V) (es : list (pfx * V)) (q : pfx) :
  areach pfx V (peq w) (contains w fl) (is_bit_set w) plen (lcp w fl) pzero (okp w) am -> okp w q -> a_entries pfx V am = Ok es ->
  Arena.a_get pfx V (peq w) (contains w fl) (is_bit_set w) plen am q = Ok (a_get es q) /\
  Arena3.a_get_key_value pfx V (peq w) (contains w fl) (is_bit_set w) plen am q = Ok (hit es q) /\
  Arena3.a_contains_key pfx V (peq w) (contains w fl) (is_bit_set w) plen am q = Ok (match a_get es q with Some _ => true | None => false end).
Proof. exact (arena_C01_get pfx V _ _ _ _ _ _ _ _ _ (laws w fl Hw) am es q). Qed.

(** REFINEMENT at the arena level (ArenaRefine.v): every step of the arena-level code other than the
    three [TrieViewMut] writes ([nonview]: set, remove, value_mut), on a reachable arena, returns [Ok] of a reachable arena whose iteration is
    EXACTLY the abstract operation ([Refine.a_step] on the sorted association list) applied to the
    iteration before the step; hence after any such history the arena iterates the abstract map. *)
Theorem C01_arena_step_refines (am : Arena.amap pfx V) es (o : Arena2.aop2 pfx V) :
  areach pfx V (peq w) (contains w fl) (is_bit_set w) plen (lcp w fl) pzero (okp w) am -> aop2_ok pfx V (okp w) o -> nonview pfx V o = true ->
  Refine.refinable pfx V (okp w) (to_hop pfx V o) -> a_entries pfx V am = Ok es ->
  exists am', Arena2.a_step2 pfx V (peq w) (contains w fl) (is_bit_set w) plen (lcp w fl) pzero o am = Ok am' /\
              areach pfx V (peq w) (contains w fl) (is_bit_set w) plen (lcp w fl) pzero (okp w) am' /\
              a_entries pfx V am' = Ok (fst (Refine.a_step pfx V (kbits w) es (to_hop pfx V o))).
Proof. exact (arena_C01_step_refines pfx V _ _ _ _ _ _ _ _ _ (laws w fl Hw) am es o). Qed.

Theorem C01_arena_run_refines (ops : list (Arena2.aop2 pfx V)) :
  Forall (aop2_ok pfx V (okp w)) ops -> forallb (nonview pfx V) ops = true ->
  Forall (Refine.refinable pfx V (okp w)) (map (to_hop pfx V) ops) ->
  exists am, Arena2.a_run2 pfx V (peq w) (contains w fl) (is_bit_set w) plen (lcp w fl) pzero ops = Ok am /\
             areach pfx V (peq w) (contains w fl) (is_bit_set w) plen (lcp w fl) pzero (okp w) am /\
             a_entries pfx V am = Ok (Refine.a_run pfx V (kbits w) (map (to_hop pfx V) ops)).
Proof. exact (arena_C01_run_refines pfx V _ _ _ _ _ _ _ _ _ (laws w fl Hw) ops). Qed.

(** RETURN VALUES at the arena level (ArenaOuts.v): the arena-level [insert] / [remove] /
    [remove_keep_tree] return the value stored under the key of [q] before the call ([a_get es q] on the
    iteration [es] before the call) and leave an arena that iterates the abstract result. *)
Theorem C01_arena_insert_returns (am : Arena.amap pfx V) es q x :
  areach pfx V (peq w) (contains w fl) (is_bit_set w) plen (lcp w fl) pzero (okp w) am -> okp w q -> a_entries pfx V am = Ok es ->
  exists am', Arena.a_insert pfx V (peq w) (contains w fl) (is_bit_set w) plen (lcp w fl) am q x = Ok (am', a_get es q) /\
              a_entries pfx V am' = Ok (Refine.a_insert pfx V (kbits w) es q x).
Proof. exact (arena_C01_insert_returns pfx V _ _ _ _ _ _ _ _ _ (laws w fl Hw) am es q x). Qed.

Theorem C01_arena_remove_returns (am : Arena.amap pfx V) es q :
  areach pfx V (peq w) (contains w fl) (is_bit_set w) plen (lcp w fl) pzero (okp w) am -> okp w q -> a_entries pfx V am = Ok es ->
  (exists am', Arena.a_remove pfx V (peq w) (contains w fl) (is_bit_set w) plen am q = Ok (am', a_get es q) /\
               a_entries pfx V am' = Ok (Refine.a_without pfx V (kbits w) es q)) /\
  (exists am', Arena.a_remove_keep_tree pfx V (peq w) (contains w fl) (is_bit_set w) plen am q = Ok (am', a_get es q) /\
               a_entries pfx V am' = Ok (Refine.a_without pfx V (kbits w) es q)).
Proof. exact (arena_C01_remove_returns pfx V _ _ _ _ _ _ _ _ _ (laws w fl Hw) am es q). Qed.

Theorem C01_arena_entry_returns (am : Arena.amap pfx V) es q x :
  areach pfx V (peq w) (contains w fl) (is_bit_set w) plen (lcp w fl) pzero (okp w) am -> okp w q -> a_entries pfx V am = Ok es ->
  (exists am', Arena2.a_entry_insert pfx V (peq w) (contains w fl) (is_bit_set w) plen (lcp w fl) am q x = Ok (am', a_get es q) /\
               a_entries pfx V am' = Ok (Refine.a_insert pfx V (kbits w) es q x)) /\
  (exists am', Arena2.a_entry_remove pfx V (peq w) (contains w fl) (is_bit_set w) plen (lcp w fl) am q = Ok (am', a_get es q) /\
               a_entries pfx V am' = Ok (Refine.a_without pfx V (kbits w) es q)).
Proof. exact (arena_C01_entry_returns pfx V _ _ _ _ _ _ _ _ _ (laws w fl Hw) am es q x). Qed.

End C01.

(* ---------------------------------------------------------------------------------------- *)
(** * The set ([PrefixSet<P>] wraps [PrefixMap<P, ()>]): the instance [V = unit] *)
Section C01_set.
Variables (w : N) (fl : flavour).
Hypothesis Hw : (1 <= w)%N.
Notation a_get := (Refine.a_get pfx unit (kbits w)).
Notation a_insert := (Refine.a_insert pfx unit (kbits w)).
Notation a_without := (Refine.a_without pfx unit (kbits w)).

(** [set.insert(q)] = [map.insert(q, ()).is_none()]: the newly-inserted flag says that the abstract
    set did not have the key; the contents become those of the abstract set with [q] inserted *)
Corollary C01_set_insert (m : pmap pfx unit) (q : pfx) :
  wfm w unit (root m) -> okp w q ->
  is_none (snd (t_insert w fl unit m q tt)) = negb (t_contains_key w fl unit (root m) q) /\
  is_none (snd (t_insert w fl unit m q tt)) = is_none (a_get (entries (root m)) q) /\
  entries (root (fst (t_insert w fl unit m q tt))) = a_insert (entries (root m)) q tt.
Proof.
  intros Hr Hq. destruct (C01_insert w fl unit Hw m q tt Hr Hq) as [E1 E2].
  destruct (C01_observers_wf w fl unit Hw m q Hr Hq) as [_ [_ [C _]]]. cbv zeta in C.
  rewrite E2, C. split; [|split; [reflexivity | exact E1]].
  unfold is_some. rewrite negb_involutive. reflexivity.
Qed.

(** [set.remove(q)] = [map.remove(q).is_some()], [set.remove_keep_tree] likewise: the flag says
    that the abstract set had the key *)
Corollary C01_set_remove (m : pmap pfx unit) (q : pfx) :
  wfm w unit (root m) -> okp w q ->
  is_some (snd (t_remove w fl unit m q)) = t_contains_key w fl unit (root m) q /\
  entries (root (fst (t_remove w fl unit m q))) = a_without (entries (root m)) q /\
  is_some (snd (t_remove_keep_tree w fl unit m q)) = t_contains_key w fl unit (root m) q /\
  entries (root (fst (t_remove_keep_tree w fl unit m q))) = a_without (entries (root m)) q.
Proof.
  intros Hr Hq. destruct (C01_remove w fl unit Hw m q Hr Hq) as [E1 E2].
  destruct (C01_remove_keep_tree w fl unit Hw m q Hr Hq) as [F1 F2].
  destruct (C01_observers_wf w fl unit Hw m q Hr Hq) as [_ [_ [C _]]]. cbv zeta in C.
  rewrite E2, F2, C. auto.
Qed.

(** [set.contains(q)] = [map.contains_key(q)], [set.get(q)] = the stored prefix of
    [map.get_key_value(q)]: the abstract set's membership / stored member, after any history *)
Corollary C01_set_observers (ops : list (hop unit)) (q : pfx) :
  Forall (adm w unit) ops -> okp w q ->
  let m := hrun w fl unit ops in
  let A := Refine2.x_run pfx unit (kbits w) (abstract_history w fl unit ops) in
  t_contains_key w fl unit (root m) q = is_some (a_get A q) /\
  option_map fst (t_get_key_value w fl unit (root m) q)
  = option_map fst (find (fun e : pfx * unit => beq (ekey w unit e) (kbits w q)) A).
Proof.
  intros Hall Hq. destruct (C01_observers w fl unit Hw ops q Hall Hq) as [_ [K [C _]]]. cbv zeta in *.
  rewrite K, C. auto.
Qed.

End C01_set.

(** non-vacuity: a history over the complete alphabet at [w = 8] — four insertions (one key with
    host bits set), a removal, a write through a reference (slot 1 holds [1000_0000/1]), a
    [TrieViewMut::set] on the value-less root node (creates the entry [0/0] with the root's own
    prefix), a [TrieViewMut::remove] at the left child of the root, an [or_insert] on an occupied
    key given with other host bits, a fifth insertion and a [retain] that removes it again.  The history is admissible, the final contents are
    the abstract map's, the return values agree, and both are the lists shown. *)
Definition C01_ops : list (hop nat) :=
  [ OInsert pfx nat (mkpfx 0x80 1) 1%nat;
    OInsert pfx nat (mkpfx 0xc0 2) 2%nat;
    OInsert pfx nat (mkpfx 0x47 2) 3%nat;
    OInsert pfx nat (mkpfx 0x00 1) 4%nat;
    ORemove pfx nat (mkpfx 0xff 2);
    OWrite pfx nat [(1%N, 50%nat)];
    OViewSet pfx nat [] 7%nat;
    OViewRemove pfx nat [false];
    OOrInsert pfx nat (mkpfx 0x7f 2) 9%nat;
    OInsert pfx nat (mkpfx 0xe0 3) 5%nat;
    ORetain pfx nat (fun _ _ x => Some (negb (Nat.eqb x 5))) ].

Example C01_example :
  let m := hrun 8 Generic nat C01_ops in
  let xs := abstract_history 8 Generic nat C01_ops in
  entries (root m) = [(pzero, 7%nat); (mkpfx 0x47 2, 3%nat); (mkpfx 0x80 1, 50%nat)] /\
  Refine2.x_run pfx nat (kbits 8) xs = entries (root m) /\
  Refine2.c_outs_full pfx nat (peq 8) (contains 8 Generic) (is_bit_set 8) plen (lcp 8 Generic) pzero
    (t_empty nat) C01_ops
  = [None; None; None; None; Some 2%nat; None; None; Some 4%nat; Some 3%nat; None; None] /\
  Refine2.x_outs pfx nat (kbits 8) [] xs
  = [None; None; None; None; Some 2%nat; None; None; Some 4%nat; Some 3%nat; None; None] /\
  t_get 8 Generic nat (root m) (mkpfx 0x55 2) = Some 3%nat /\
  t_get_key_value 8 Generic nat (root m) (mkpfx 0x55 2) = Some (mkpfx 0x47 2, 3%nat) /\
  t_get 8 Generic nat (root m) (mkpfx 0x00 1) = None.
Proof. vm_compute. repeat split; reflexivity. Qed.

(** ... and the history meets the hypothesis of the theorems *)
Example C01_example_admissible : Forall (adm 8 nat) C01_ops.
Proof.
  unfold C01_ops.
  repeat (apply Forall_cons; [split; [try (vm_compute; reflexivity); try exact I | try exact I] |]).
  - intros _ _ x. split; [reflexivity | discriminate].
  - constructor.
Qed.

Print Assumptions C01_contents.
Print Assumptions C01_returns.
Print Assumptions C01_every_step.
Print Assumptions C01_step.
Print Assumptions C01_observers.
Print Assumptions C01_observers_wf.
Print Assumptions C01_abstract_is_map.
Print Assumptions C01_key_addressed_histories.
Print Assumptions C01_insert.
Print Assumptions C01_remove.
Print Assumptions C01_remove_keep_tree.
Print Assumptions C01_abstract_effects.
Print Assumptions C01_write.
Print Assumptions C01_a_write.
Print Assumptions C01_view_set.
Print Assumptions C01_view_remove.
Print Assumptions C01_set_insert.
Print Assumptions C01_set_remove.
Print Assumptions C01_set_observers.
Print Assumptions adm_hop_ok.
Print Assumptions C01_entry_chain.
Print Assumptions C01_entry_insert.
Print Assumptions C01_entry_or_insert.
Print Assumptions C01_arena.
Print Assumptions C01_arena_get.
Print Assumptions C01_arena_step_refines.
Print Assumptions C01_arena_run_refines.
Print Assumptions C01_arena_insert_returns.
Print Assumptions C01_arena_remove_returns.
Print Assumptions C01_arena_entry_returns.
