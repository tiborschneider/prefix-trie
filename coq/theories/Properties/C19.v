(** C19 — equality, clone and round-trips depend only on the stored entries.

    [==] on maps ([Inst.t_map_eq]: the two iterators compared element-wise under the key type's
    own equality — address AND length, host bits included — and the value type's equality) is
    true exactly when the two maps store the same sequence of (stored prefix, value) pairs.
    Consequences: it never holds between maps with different numbers of entries (in particular
    the empty map equals only empty maps), it does not depend on the tree shapes that the
    histories left behind, and it is reflexive, symmetric and transitive.  Rebuilding a map from
    its own entries in ANY order (collect; serialisation through an unordered container) gives an
    equal map.  [clone] is the identity on an immutable model value, so "equal and independent"
    is definitional here; the independence of the two Rust objects is a differential check
    ([clone] lines of the scripts), stated as such in DESIGN.md. *)
From Coq Require Import List NArith Bool Permutation.
From PT Require Import Lookup2 Mutate Refine EqClone Arena Arena2 ArenaProps ArenaWrite ArenaEq.
From PT.Properties Require Import Common.
Import ListNotations.

(** the key type's own equality compares the stored representation: address and length *)
Lemma prepr_eq_spec (p q : pfx) : prepr_eq p q = true <-> p = q.
Proof.
  unfold prepr_eq. rewrite andb_true_iff, !N.eqb_eq. destruct p as [r l], q as [r' l']. cbn. split.
  - intros [-> ->]. reflexivity.
  - intros E. inversion E. auto.
Qed.

(** the extracted [==] (two [Iter] machines compared element-wise) is [map_eq] on the entry lists *)
Lemma t_map_eq_entries (V : Type) (veq : V -> V -> bool) (a b : tree pfx V) :
  t_map_eq V veq a b = map_eq pfx V prepr_eq veq a b.
Proof.
  unfold t_map_eq, t_iter_items. rewrite <- (iter_eq_map_eq pfx V prepr_eq veq a b).
  f_equal; apply map_ext; intros [[i p] x]; reflexivity.
Qed.

Section C19.
Variables (w : N) (fl : flavour) (V : Type).
Hypothesis Hw : (1 <= w)%N.
(** the value type's [==]; an [Eq] type: it decides equality *)
Variable veq : V -> V -> bool.
Hypothesis veq_spec : forall x y, veq x y = true <-> x = y.

(** two maps compare equal exactly when they store the same sequence of (stored prefix, value)
    pairs — whatever histories and shapes produced them ([a], [b] are arbitrary trees) *)
Theorem C19_eq (a b : tree pfx V) :
  t_map_eq V veq a b = true <-> entries a = entries b.
Proof.
  rewrite t_map_eq_entries.
  exact (map_eq_iff pfx V prepr_eq veq prepr_eq_spec veq_spec a b).
Qed.

(** without any assumption on [veq]: equality is the element-wise comparison of the two entry
    sequences, so maps with different numbers of entries are never equal *)
Theorem C19_eq_pairwise (veq' : V -> V -> bool) (a b : tree pfx V) :
  t_map_eq V veq' a b = true <-> Forall2 (pair_eq pfx V prepr_eq veq') (entries a) (entries b).
Proof.
  rewrite t_map_eq_entries. apply map_eq_spec.
Qed.

Theorem C19_surplus (veq' : V -> V -> bool) (a b : tree pfx V) :
  length (entries a) <> length (entries b) -> t_map_eq V veq' a b = false.
Proof.
  intros H. rewrite t_map_eq_entries. apply map_eq_surplus. exact H.
Qed.

(** the empty map equals exactly the maps without entries *)
Theorem C19_empty (b : tree pfx V) :
  t_map_eq V veq (root (t_empty V)) b = true <-> entries b = [].
Proof. rewrite C19_eq. cbn. split; intros H; symmetry; exact H. Qed.

(** equivalence relation *)
Theorem C19_refl (a : tree pfx V) : t_map_eq V veq a a = true.
Proof. rewrite t_map_eq_entries. exact (map_eq_refl pfx V prepr_eq veq prepr_eq_spec veq_spec a). Qed.
Theorem C19_sym (a b : tree pfx V) : t_map_eq V veq a b = t_map_eq V veq b a.
Proof. rewrite !t_map_eq_entries. exact (map_eq_sym pfx V prepr_eq veq prepr_eq_spec veq_spec a b). Qed.
Theorem C19_trans (a b c : tree pfx V) :
  t_map_eq V veq a b = true -> t_map_eq V veq b c = true -> t_map_eq V veq a c = true.
Proof. rewrite !t_map_eq_entries. exact (map_eq_trans pfx V prepr_eq veq prepr_eq_spec veq_spec a b c). Qed.

(** one differing value or stored representation (e.g. one host bit) at some position makes two
    maps unequal *)
Theorem C19_differs (a b : tree pfx V) e1 e2 n :
  nth_error (entries a) n = Some e1 -> nth_error (entries b) n = Some e2 -> e1 <> e2 ->
  t_map_eq V veq a b = false.
Proof. rewrite t_map_eq_entries. exact (map_eq_differs pfx V prepr_eq veq prepr_eq_spec veq_spec a b e1 e2 n). Qed.

(** rebuilding a reachable map from its own entries, in any order ([perm] is any permutation:
    collect, or deserialisation from an unordered container), yields an equal map *)
Theorem C19_rebuild (ops : list (hop V)) (perm : list (pfx * V) -> list (pfx * V)) :
  Forall (hop_ok w V) ops -> (forall l, Permutation (perm l) l) ->
  let m := hrun w fl V ops in
  t_map_eq V veq (root (t_from_list w fl V (perm (entries (root m))))) (root m) = true.
Proof.
  intros Hops Hp m. apply C19_eq.
  exact (collect_refines pfx V _ _ _ _ _ _ _ (kbits w) (okp w) (laws w fl Hw) perm m
           (reachable_wfm w fl V Hw ops Hops) Hp).
Qed.

(** and the rebuilt map and the original answer every equality test alike *)
Corollary C19_rebuild_congruent (ops : list (hop V)) perm (b : tree pfx V) :
  Forall (hop_ok w V) ops -> (forall l, Permutation (perm l) l) ->
  let m := hrun w fl V ops in
  t_map_eq V veq (root (t_from_list w fl V (perm (entries (root m))))) b = t_map_eq V veq (root m) b.
Proof.
  intros Hops Hp m. rewrite !t_map_eq_entries.
  apply map_eq_shape_independent; [|reflexivity]. apply C19_eq. exact (C19_rebuild ops perm Hops Hp).
Qed.

(* ---------------------------------------------------------------------------------------- *)
(** * The same statements about the ARENA-level transcription (ArenaEq.v): [==] drains the two arena
      iterators and compares them pairwise; [clone] copies table, free list and counter; [a], [b] are
      arenas reachable from the empty arena by histories over the whole mutator alphabet. *)
Notation aeq := (a_map_eq pfx V prepr_eq veq).

(** [==] never panics, and holds exactly when the two iterations are the same list — whatever the
    tables, free lists and counters look like *)
Theorem C19_arena_eq (a b : Arena.amap pfx V) ea eb : areach pfx V (peq w) (contains w fl) (is_bit_set w) plen (lcp w fl) pzero (okp w) a -> areach pfx V (peq w) (contains w fl) (is_bit_set w) plen (lcp w fl) pzero (okp w) b ->
  Arena.a_entries pfx V a = Arena.Ok ea -> Arena.a_entries pfx V b = Arena.Ok eb ->
  exists r, aeq a b = Arena.Ok r /\ (r = true <-> ea = eb).
Proof.
  intros Ha Hb. apply (arena_C19_eq pfx V (kbits w) (okp w) prepr_eq veq prepr_eq_spec veq_spec).
  - exact (ArenaWrite.areach_good pfx V _ _ _ _ _ _ _ _ _ (laws w fl Hw) a Ha).
  - exact (ArenaWrite.areach_good pfx V _ _ _ _ _ _ _ _ _ (laws w fl Hw) b Hb).
Qed.

Theorem C19_arena_equivalence (a b c : Arena.amap pfx V) : areach pfx V (peq w) (contains w fl) (is_bit_set w) plen (lcp w fl) pzero (okp w) a -> areach pfx V (peq w) (contains w fl) (is_bit_set w) plen (lcp w fl) pzero (okp w) b -> areach pfx V (peq w) (contains w fl) (is_bit_set w) plen (lcp w fl) pzero (okp w) c ->
  aeq a a = Arena.Ok true /\ aeq a b = aeq b a /\
  (aeq a b = Arena.Ok true -> aeq b c = Arena.Ok true -> aeq a c = Arena.Ok true).
Proof.
  intros Ha Hb Hc.
  pose proof (ArenaWrite.areach_good pfx V _ _ _ _ _ _ _ _ _ (laws w fl Hw) a Ha) as Ga.
  pose proof (ArenaWrite.areach_good pfx V _ _ _ _ _ _ _ _ _ (laws w fl Hw) b Hb) as Gb.
  pose proof (ArenaWrite.areach_good pfx V _ _ _ _ _ _ _ _ _ (laws w fl Hw) c Hc) as Gc.
  split; [exact (arena_C19_refl pfx V (peq w) (contains w fl) (is_bit_set w) plen (lcp w fl) pzero (kbits w) (okp w) prepr_eq veq prepr_eq_spec veq_spec a Ga)|].
  split; [exact (arena_C19_sym pfx V (peq w) (contains w fl) (is_bit_set w) plen (lcp w fl) pzero (kbits w) (okp w) prepr_eq veq prepr_eq_spec veq_spec a b Ga Gb)|].
  exact (arena_C19_trans pfx V (peq w) (contains w fl) (is_bit_set w) plen (lcp w fl) pzero (kbits w) (okp w) prepr_eq veq prepr_eq_spec veq_spec a b c Ga Gb Gc).
Qed.

Theorem C19_arena_clone (a : Arena.amap pfx V) : areach pfx V (peq w) (contains w fl) (is_bit_set w) plen (lcp w fl) pzero (okp w) a ->
  Arena.a_entries pfx V (a_clone pfx V a) = Arena.a_entries pfx V a /\
  aeq (a_clone pfx V a) a = Arena.Ok true /\ aeq a (a_clone pfx V a) = Arena.Ok true.
Proof.
  intros Ha.
  pose proof (ArenaWrite.areach_good pfx V _ _ _ _ _ _ _ _ _ (laws w fl Hw) a Ha) as Ga.
  destruct (arena_C19_clone pfx V (peq w) (contains w fl) (is_bit_set w) plen (lcp w fl) pzero (kbits w) (okp w) prepr_eq veq prepr_eq_spec veq_spec a Ga)
    as (_ & E1 & E2 & E3). auto.
Qed.

Theorem C19_arena_differs (a b : Arena.amap pfx V) ea eb : areach pfx V (peq w) (contains w fl) (is_bit_set w) plen (lcp w fl) pzero (okp w) a -> areach pfx V (peq w) (contains w fl) (is_bit_set w) plen (lcp w fl) pzero (okp w) b ->
  Arena.a_entries pfx V a = Arena.Ok ea -> Arena.a_entries pfx V b = Arena.Ok eb -> ea <> eb ->
  aeq a b = Arena.Ok false.
Proof.
  intros Ha Hb. apply (arena_C19_differs pfx V (kbits w) (okp w) prepr_eq veq prepr_eq_spec veq_spec).
  - exact (ArenaWrite.areach_good pfx V _ _ _ _ _ _ _ _ _ (laws w fl Hw) a Ha).
  - exact (ArenaWrite.areach_good pfx V _ _ _ _ _ _ _ _ _ (laws w fl Hw) b Hb).
Qed.

(** rebuilding ([collect], deserialisation: repeated arena-level [insert]) from the entries in ANY
    order: runs without panic and yields an arena equal to the original in both directions *)
Theorem C19_arena_rebuild (a : Arena.amap pfx V) es es' : areach pfx V (peq w) (contains w fl) (is_bit_set w) plen (lcp w fl) pzero (okp w) a ->
  Arena.a_entries pfx V a = Arena.Ok es -> Permutation es' es ->
  exists b, Arena2.a_run2 pfx V (peq w) (contains w fl) (is_bit_set w) plen (lcp w fl) pzero (ins_ops pfx V es') = Arena.Ok b /\
            areach pfx V (peq w) (contains w fl) (is_bit_set w) plen (lcp w fl) pzero (okp w) b /\ Arena.a_entries pfx V b = Arena.Ok es /\ aeq b a = Arena.Ok true /\ aeq a b = Arena.Ok true.
Proof.
  exact (arena_C19_rebuild pfx V (peq w) (contains w fl) (is_bit_set w) plen (lcp w fl) pzero (mcmp w) (kbits w) (okp w)
           (laws w fl Hw) prepr_eq veq prepr_eq_spec veq_spec a es es').
Qed.

End C19.

(** non-vacuity: same entries reached by different histories (one leaves a value-less leftover
    node behind) are equal; a surplus entry, and a differing host bit, make them unequal *)
Example C19_example :
  let ins m r l x := fst (t_insert 8 Generic nat m (mkpfx r l) x) in
  let a := ins (ins (ins (t_empty nat) 0x80 1 1%nat) 0xc0 2 2%nat) 0x40 2 3%nat in
  let a' := fst (t_remove_keep_tree 8 Generic nat (ins a 0xe0 3 9%nat) (mkpfx 0xe0 3)) in
  let b := ins a 0xe0 3 9%nat in
  let c := ins (ins (ins (t_empty nat) 0x81 1 1%nat) 0xc0 2 2%nat) 0x40 2 3%nat in
  (t_map_eq nat Nat.eqb (root a) (root a'), t_map_eq nat Nat.eqb (root a) (root b),
   t_map_eq nat Nat.eqb (root (t_empty nat)) (root a), t_map_eq nat Nat.eqb (root a) (root c))
  = (true, false, false, false).
Proof. vm_compute. reflexivity. Qed.

Print Assumptions C19_eq.
Print Assumptions C19_eq_pairwise.
Print Assumptions C19_surplus.
Print Assumptions C19_empty.
Print Assumptions C19_refl.
Print Assumptions C19_sym.
Print Assumptions C19_trans.
Print Assumptions C19_differs.
Print Assumptions C19_rebuild.
Print Assumptions C19_rebuild_congruent.
Print Assumptions prepr_eq_spec.
Print Assumptions t_map_eq_entries.
Print Assumptions C19_arena_eq.
Print Assumptions C19_arena_equivalence.
Print Assumptions C19_arena_clone.
Print Assumptions C19_arena_differs.
Print Assumptions C19_arena_rebuild.
