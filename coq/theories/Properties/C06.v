(** C06 — Intersection traversal yields exactly the prefixes stored in both operands.

    Operands as in C05: any subtree [ta : tree pfx L] well-formed under SOME bound [ba], any
    subtree [tb : tree pfx R] well-formed under SOME bound [bb], no relation between the two
    (equal / nested / disjoint roots; stored, value-less branching or virtual roots — a view
    denotes the subtree at its real node —; same or different maps; arbitrary shapes incl.
    value-less leftover nodes; two value types).

    For every such pair [intersection] terminates and yields exactly the keys stored in both
    operands, each once, in strictly ascending lexicographic order, each with the value stored
    under that key in [ta] and the value stored under it in [tb] (the reported prefix is the
    representation stored in [ta]).  [intersection_mut] terminates and yields the same triples,
    with the slots of exactly those two entries.  Operands whose bounds (views whose prefixes)
    are ⊑-incomparable — disjoint sub-views — have an empty intersection.
    Proofs: InterDiffThm.v ([intersection_correct], [intersection_disjoint],
    [intersection_mut_mirrors]), SetOpsExtra.v. *)
From Coq Require Import List NArith Sorted.
From PT Require Import Lookup ViewsThm InterDiffThm SetOpsExtra Arena Arena3 ArenaProps ArenaViews ArenaSetViews.
From PT.Properties Require Import Common.
Import ListNotations.

Section C06.
Variables (w : N) (fl : flavour) (L R : Type).
Hypothesis Hw : (1 <= w)%N.
Notation wfL := (wf_under pfx L (kbits w) (okp w)).
Notation wfR := (wf_under pfx R (kbits w) (okp w)).
Notation keyL := (ekey w L).
Notation keyR := (ekey w R).
(** the key of an item [(p, l, r)] *)
Notation ikey := (fun it : pfx * L * R => kbits w (fst (fst it))).

(** [intersection] terminates on every pair of well-formed operands. *)
Theorem C06_intersection_terminates ba bb (ta : tree pfx L) (tb : tree pfx R) :
  wfL ba ta -> wfR bb tb -> exists out, t_intersection w fl L R ta tb = Some out.
Proof using Hw. intros _ _. exact (intersection_total pfx L R _ _ _ _ _ ta tb). Qed.

(** MAIN STATEMENT.  The output is strictly ascending; every item [(p, l, r)] is the entry
    [(p, l)] of [ta] together with the value [r] stored in [tb] under the same key; and for every
    pair of entries with the same key, the item (left prefix, left value, right value) is yielded. *)
Theorem C06_intersection ba bb (ta : tree pfx L) (tb : tree pfx R) out :
  wfL ba ta -> wfR bb tb -> t_intersection w fl L R ta tb = Some out ->
  StronglySorted (fun i j => lex_lt (ikey i) (ikey j)) out /\
  (forall p l r, In (p, l, r) out ->
     In (p, l) (entries ta) /\ exists pr, In (pr, r) (entries tb) /\ kbits w pr = kbits w p) /\
  (forall ea eb, In ea (entries ta) -> In eb (entries tb) -> keyL ea = keyR eb ->
     In (fst ea, snd ea, snd eb) out).
Proof.
  intros Ha Hb E. exact (inter_some (laws w fl Hw) Ha Hb E).
Qed.

(** Each common key once, in order: the key list of the output is strictly ascending, has no
    repetition, and contains exactly the keys stored in both operands. *)
Theorem C06_intersection_keys ba bb (ta : tree pfx L) (tb : tree pfx R) out :
  wfL ba ta -> wfR bb tb -> t_intersection w fl L R ta tb = Some out ->
  StronglySorted lex_lt (map ikey out) /\ NoDup (map ikey out) /\
  forall k, In k (map ikey out) <-> In k (map keyL (entries ta)) /\ In k (map keyR (entries tb)).
Proof.
  intros Ha Hb E.
  pose proof (inter_some (laws w fl Hw) Ha Hb E) as I.
  split; [exact (inter_keys_sorted I)|]. split; [exact (ss_lex_nodup _ (inter_keys_sorted I)) | exact (inter_keys_iff I)].
Qed.

(** [intersection_mut] terminates and yields the same (prefix, left value, right value) triples in
    the same order; the references it hands out are the slots of exactly those entries
    ([entries_id] lists (slot, prefix, value); the right one up to the denoted key, since the left
    entry's stored prefix is reported). *)
Theorem C06_intersection_mut ba bb (ta : tree pfx L) (tb : tree pfx R) :
  wfL ba ta -> wfR bb tb ->
  exists out outm, t_intersection w fl L R ta tb = Some out /\ t_intersection_mut w fl L R ta tb = Some outm /\
    map (fun '(p, (_, l), (_, r)) => (p, l, r)) outm = out /\
    (forall p i l j r, In (p, (i, l), (j, r)) outm ->
       In (i, p, l) (entries_id ta) /\ exists pr, In (j, pr, r) (entries_id tb) /\ kbits w pr = kbits w p).
Proof.
  intros Ha Hb.
  destruct (intersection_mut_mirrors pfx L R _ _ _ _ _ _ _ _ _ (laws w fl Hw) _ _ _ _ Ha Hb) as (out & outm & E1 & E2 & M & S).
  exists out, outm. split; [exact E1|]. split; [exact E2|]. split; [symmetry; exact M | exact S].
Qed.

(** Disjoint operands: if neither bound covers the other, nothing is yielded. *)
Theorem C06_disjoint ba bb (ta : tree pfx L) (tb : tree pfx R) :
  wfL ba ta -> wfR bb tb -> ~ prefix_of ba bb -> ~ prefix_of bb ba ->
  t_intersection w fl L R ta tb = Some [].
Proof. exact (intersection_disjoint pfx L R _ _ _ _ _ _ _ _ _ (laws w fl Hw) ba bb ta tb). Qed.

(** ... in the words of the property: two well-formed views (of the same map or not) whose
    prefixes are ⊑-incomparable have an empty [intersection] and an empty [intersection_mut]. *)
Theorem C06_disjoint_views (va : view pfx L) (vb : view pfx R) :
  view_wf pfx L pzero (kbits w) (okp w) va -> view_wf pfx R pzero (kbits w) (okp w) vb ->
  ~ prefix_of (kbits w (v_prefix pfx L pzero va)) (kbits w (v_prefix pfx R pzero vb)) ->
  ~ prefix_of (kbits w (v_prefix pfx R pzero vb)) (kbits w (v_prefix pfx L pzero va)) ->
  t_intersection w fl L R (v_tree va) (v_tree vb) = Some [] /\
  t_intersection_mut w fl L R (v_tree va) (v_tree vb) = Some [].
Proof. exact (intersection_disjoint_views (laws w fl Hw)). Qed.

(** Views as operands (cf. [C05_union_views]). *)
Theorem C06_intersection_views (va : view pfx L) (vb : view pfx R) :
  view_wf pfx L pzero (kbits w) (okp w) va -> view_wf pfx R pzero (kbits w) (okp w) vb ->
  exists out, t_intersection w fl L R (v_tree va) (v_tree vb) = Some out /\
              inter_spec pfx L R (kbits w) (v_entries pfx L va) (v_entries pfx R vb) out.
Proof.
  intros Ha Hb. destruct (view_operand_wf Ha) as [ba Wa].
  destruct (view_operand_wf Hb) as [bb Wb].
  exact (intersection_correct pfx L R _ _ _ _ _ _ _ _ _ (laws w fl Hw) ba bb _ _ Wa Wb).
Qed.

(** Reachable states: two views obtained by [view_at] from any two histories are well-formed
    operands (as for [C05_reachable]). *)
Theorem C06_reachable (opsA : list (hop L)) (opsB : list (hop R)) qa qb va vb :
  Forall (hop_ok w L) opsA -> Forall (hop_ok w R) opsB -> okp w qa -> okp w qb ->
  t_view_at w fl L (root (hrun w fl L opsA)) qa = Some va ->
  t_view_at w fl R (root (hrun w fl R opsB)) qb = Some vb ->
  exists out, t_intersection w fl L R (v_tree va) (v_tree vb) = Some out /\
              inter_spec pfx L R (kbits w) (v_entries pfx L va) (v_entries pfx R vb) out.
Proof.
  intros HA HB Hqa Hqb Ea Eb. apply C06_intersection_views.
  - exact (view_at_wf (laws w fl Hw) (reachable_wfm w fl L Hw opsA HA) Hqa Ea).
  - exact (view_at_wf (laws w fl Hw) (reachable_wfm w fl R Hw opsB HB) Hqb Eb).
Qed.

(** * The same statement about the arena-level transcription (ArenaProps.v), at the roots of two
      reachable arenas *)
Theorem C06_arena (amL : Arena.amap pfx L) (amR : Arena.amap pfx R) esL esR :
  areach pfx L (peq w) (contains w fl) (is_bit_set w) plen (lcp w fl) pzero (okp w) amL -> areach pfx R (peq w) (contains w fl) (is_bit_set w) plen (lcp w fl) pzero (okp w) amR ->
  Arena.a_entries pfx L amL = Arena.Ok esL -> Arena.a_entries pfx R amR = Arena.Ok esR ->
  exists out outm,
    Arena3.a_intersection pfx L R (contains w fl) (is_bit_set w) plen (mcmp w) (Arena.tbl amL) (Arena.tbl amR) 0 0 = Arena.Ok out /\
    InterDiffThm.inter_spec pfx L R (kbits w) esL esR out /\
    Arena3.a_intersection_mut pfx L R (contains w fl) (is_bit_set w) plen (mcmp w) (Arena.tbl amL) (Arena.tbl amR) 0 0 = Arena.Ok outm /\
    out = map (fun '(p, (_, l), (_, r)) => (p, l, r)) outm.
Proof.
  exact (arena_C06_intersection pfx L R _ _ _ _ _ _ _ _ _ (laws w fl Hw) amL amR esL esR).
Qed.

(** * ... and at any two view locations reached by navigation calls (ArenaSetViews.v), as for
      [C05_arena_views]. *)
Theorem C06_arena_views (amL : Arena.amap pfx L) (amR : Arena.amap pfx R) lL lR esL esR :
  areach pfx L (peq w) (contains w fl) (is_bit_set w) plen (lcp w fl) pzero (okp w) amL -> areach pfx R (peq w) (contains w fl) (is_bit_set w) plen (lcp w fl) pzero (okp w) amR ->
  a_vreach pfx L (peq w) (contains w fl) (is_bit_set w) plen (lcp w fl) (okp w) (Arena.tbl amL) lL ->
  a_vreach pfx R (peq w) (contains w fl) (is_bit_set w) plen (lcp w fl) (okp w) (Arena.tbl amR) lR ->
  a_v_iter pfx L (Arena.tbl amL) lL = Arena.Ok esL -> a_v_iter pfx R (Arena.tbl amR) lR = Arena.Ok esR ->
  exists out outm,
    Arena3.a_intersection pfx L R (contains w fl) (is_bit_set w) plen (mcmp w) (Arena.tbl amL) (Arena.tbl amR) (Arena3.loc_idx lL) (Arena3.loc_idx lR) = Arena.Ok out /\
    InterDiffThm.inter_spec pfx L R (kbits w) esL esR out /\
    Arena3.a_intersection_mut pfx L R (contains w fl) (is_bit_set w) plen (mcmp w) (Arena.tbl amL) (Arena.tbl amR) (Arena3.loc_idx lL) (Arena3.loc_idx lR) = Arena.Ok outm /\
    out = map (fun '(p, (_, l), (_, r)) => (p, l, r)) outm.
Proof. exact (arena_views_intersection pfx L R _ _ _ _ _ _ _ _ _ (laws w fl Hw) amL amR lL lR esL esR). Qed.

End C06.

(** Non-vacuity (w = 8).  Map A = {00/2 ↦ 1, 01/2 ↦ 2, 1/1 ↦ 3, 110/3 ↦ 4} over [nat] (node 0/1
    is a value-less branching node), map B = {0/1 ↦ true, 01/2 ↦ false, 11/2 ↦ true, 111/3 ↦ false}
    over [bool].  The view of A at 0/1 (branching root) against the whole map B: the only common key
    is 01/2.  The whole map A against the view of B at 11/2 (stored root below A's 1/1, above A's
    110/3): no common key although the roots are nested.  The view of A at 0/1 against the view of
    B at 11/2: disjoint roots. *)
Definition C06_ins {V} (m : pmap pfx V) (r l : N) (v : V) : pmap pfx V :=
  fst (t_insert 8 Generic V m (mkpfx r l) v).
Definition C06_A : tree pfx nat :=
  root (C06_ins (C06_ins (C06_ins (C06_ins (t_empty nat) 0x00 2 1%nat) 0x40 2 2%nat) 0x80 1 3%nat) 0xC0 3 4%nat).
Definition C06_B : tree pfx bool :=
  root (C06_ins (C06_ins (C06_ins (C06_ins (t_empty bool) 0x00 1 true) 0x40 2 false) 0xC0 2 true) 0xE0 3 false).

Example C06_example :
  match t_view_at 8 Generic nat C06_A (mkpfx 0x00 1), t_view_at 8 Generic bool C06_B (mkpfx 0xC0 2) with
  | Some va, Some vb =>
    v_tree va = Node 2 (mkpfx 0 1) None (Node 1 (mkpfx 0 2) (Some 1%nat) Leaf Leaf)
                                        (Node 3 (mkpfx 0x40 2) (Some 2%nat) Leaf Leaf) /\
    t_intersection 8 Generic nat bool (v_tree va) C06_B = Some [(mkpfx 0x40 2, 2%nat, false)] /\
    t_intersection_mut 8 Generic nat bool (v_tree va) C06_B =
      Some [(mkpfx 0x40 2, (3%N, 2%nat), (2%N, false))] /\
    t_intersection 8 Generic nat bool C06_A C06_B = Some [(mkpfx 0x40 2, 2%nat, false)] /\
    t_intersection 8 Generic nat bool C06_A (v_tree vb) = Some [] /\
    t_intersection 8 Generic nat bool (v_tree va) (v_tree vb) = Some []
  | _, _ => False
  end.
Proof. vm_compute. repeat split; reflexivity. Qed.

Print Assumptions C06_intersection_terminates.
Print Assumptions C06_intersection.
Print Assumptions C06_intersection_keys.
Print Assumptions C06_intersection_mut.
Print Assumptions C06_disjoint.
Print Assumptions C06_disjoint_views.
Print Assumptions C06_intersection_views.
Print Assumptions C06_reachable.
Print Assumptions C06_arena.
Print Assumptions C06_arena_views.
