(** C13 stated directly about the ARENA transcription: the mutable traversals and the writes through
    the references they hand out.

    At the arena level a reference [&mut T] handed out by a mutable traversal is a SLOT INDEX into the
    table ([IterMut] yields [(&P, &mut T)] of [table[cur]]; the set-operation [*_mut] iterators and
    [get_lpm_mut] do the same).  A write through the reference is [table[i].value = Some x] for a slot
    that holds a value.

    - [a_iter_mut]: [IterMut::next] drained (iter.rs, the mutable copy of [Iter]), yielding slot,
      prefix and value; [a_iter] is its projection — for EVERY table, fuel and stack
      ([iter_mirrors]: the two copies of the loop are the same function; no hypothesis).
    - [a_write am ws]: the table after the writes [ws] (slot, new value) — each slot in [ws] that holds
      a value gets the new value; nothing else in the arena changes ([a_write_frame]: prefixes, links,
      which slots hold a value, free list and counter are literally the same).
    - [Rep_write]: if [am] represents the tree-model map [m] then [a_write am ws] represents [m] with
      [Trie.write_ids (root m) ws] — the operation about which the tree-level C13 theorems speak.
    - [arena_C13_*]: the property for every [agood] arena: every reachable one ([areach_good]) and every
      arena obtained from one by writes ([a_write_good]; a written arena is not [areach]). *)
From Coq Require Import List NArith ZArith Bool Arith Lia Sorted Permutation.
From PT Require Import Bits BitsThm Laws Machine Trie Views TrieWf Lookup Lookup2 Slots MutTrav History
     Arena ArenaThm Arena2 Arena2Thm Arena3 Arena3Thm ArenaProps.
Import ListNotations.

Section AW.
Variables (pfx V : Type).
Variables (peq contains : pfx -> pfx -> bool) (is_bit_set : pfx -> N -> bool)
          (plen : pfx -> N) (lcp : pfx -> pfx -> pfx) (pzero : pfx)
          (mcmp : pfx -> pfx -> comparison).
Variable bits : pfx -> list bool.
Variable ok : pfx -> Prop.
Hypothesis LAWS : prefix_laws pfx peq contains is_bit_set plen lcp pzero mcmp bits ok.

Notation amap := (Arena.amap pfx V).
Notation anode := (Arena.anode pfx V).
Notation wf_root := (TrieWf.wf_root pfx V bits ok).
Notation minv := (Slots.minv pfx V).
Notation Rep := (ArenaThm.Rep pfx V).
Notation rep := (ArenaThm.rep pfx V).
Notation slot := (ArenaThm.slot pfx V).
Notation areach := (ArenaProps.areach pfx V peq contains is_bit_set plen lcp pzero ok).
Notation a_iter := (Arena.a_iter pfx V).
Notation a_entries := (Arena.a_entries pfx V).
Notation rd := (Arena.rd pfx V).
Notation write_ids := (@Trie.write_ids pfx V).
Notation assoc_id := (@Trie.assoc_id V).
Notation entries_id := (@Trie.entries_id pfx V).
Notation writes_of := (MutTrav.writes_of pfx V).
Notation is_slot_of := (MutTrav.is_slot_of pfx V).

(** the same function as [Lookup2.drop_id] and [Lookup.drop_slot] *)
Definition drop3 (e : N * pfx * V) : pfx * V := let '(_, p, x) := e in (p, x).

(** * [IterMut::next] drained (iter.rs:198-222: the mutable copy of the loop of [Iter]) *)
Fixpoint a_iter_mut (fuel : nat) (tb : list anode) (stack : list N) : res (list (N * pfx * V)) :=
  match fuel with
  | O => OutOfFuel
  | S f =>
    match stack with
    | [] => Ok []
    | cur :: st =>
      node <- rd tb cur ;;
      let st := match nright node with Some r => r :: st | None => st end in
      let st := match nleft node with Some l => l :: st | None => st end in
      rest <- a_iter_mut f tb st ;;
      Ok (match nval node with Some v => (cur, npfx node, v) :: rest | None => rest end)
    end
  end.

(** [PrefixMap::iter_mut] *)
Definition a_items (am : amap) : res (list (N * pfx * V)) :=
  a_iter_mut (S (length (tbl am))) (tbl am) [0%N].

Theorem iter_mirrors : forall fuel tb st,
  a_iter fuel tb st = (items <- a_iter_mut fuel tb st ;; Ok (map drop3 items)).
Proof.
  induction fuel as [|f IH]; intros tb st; [reflexivity|].
  cbn [Arena.a_iter a_iter_mut]. destruct st as [|cur st]; [reflexivity|].
  destruct (rd tb cur) as [node| |]; cbn [rbind]; try reflexivity.
  rewrite IH. destruct (a_iter_mut f tb _) as [rest| |]; cbn [rbind]; try reflexivity.
  destruct (nval node); reflexivity.
Qed.

Corollary entries_mirror am : a_entries am = (items <- a_items am ;; Ok (map drop3 items)).
Proof. apply iter_mirrors. Qed.

Lemma iter_mut_sim : forall fuel tb st ts,
  Forall2 (fun i t => rep tb (Some i) t) st ts ->
  (list_sum (map (@Trie.tsize pfx V) ts) < fuel)%nat ->
  a_iter_mut fuel tb st = Ok (flat_map entries_id ts).
Proof.
  induction fuel as [|f IH]; intros tb st ts F Hf; [lia|].
  destruct F as [|i t st' ts' R F']; [reflexivity|].
  destruct (ArenaThm.rep_some_inv pfx V _ _ _ R) as (p & v & l & r & ->).
  apply (ArenaThm.rep_node_inv pfx V) in R. destruct R as (_ & Hs & Rl & Rr).
  cbn [a_iter_mut]. rewrite (ArenaThm.rd_ok pfx V _ _ _ Hs). cbn [rbind nright nleft nval npfx].
  rewrite (IH tb _ (ArenaThm.nonleaf pfx V l ++ ArenaThm.nonleaf pfx V r ++ ts')).
  - cbn [rbind flat_map Trie.entries_id]. rewrite !(ArenaThm.flat_map_nonleaf pfx V), <- !app_assoc by reflexivity.
    destruct v; reflexivity.
  - apply (ArenaThm.Forall2_push pfx V); [exact Rl|]. apply (ArenaThm.Forall2_push pfx V); [exact Rr|exact F'].
  - cbn [map Trie.tsize] in Hf. rewrite ArenaThm.list_sum_cons in Hf. rewrite !(ArenaThm.size_nonleaf pfx V). lia.
Qed.

Lemma iter_mut_sim1 tb i t : rep tb (Some i) t -> (Trie.tsize t <= length tb)%nat ->
  a_iter_mut (S (length tb)) tb [i] = Ok (entries_id t).
Proof.
  intros R S. rewrite (iter_mut_sim _ tb [i] [t]).
  - cbn [flat_map]. rewrite app_nil_r. reflexivity.
  - constructor; [exact R|constructor].
  - cbn [map list_sum fold_right]. lia.
Qed.

Theorem items_sim am m : Rep am m -> minv m -> a_items am = Ok (entries_id (root m)).
Proof.
  intros R M.
  exact (iter_mut_sim1 (tbl am) 0%N (root m) (proj1 R) (Arena3Thm.Rep_tsize pfx V peq contains is_bit_set plen lcp pzero am m R M)).
Qed.

(** [table[i].value = Some x] for a slot that holds a value (a [&mut T] exists only for those) *)
Definition wnode (ws : list (N * V)) (i : N) (n : anode) : anode :=
  match nval n, assoc_id ws i with
  | Some _, Some x => mkanode (npfx n) (Some x) (nleft n) (nright n)
  | _, _ => n
  end.

(** [wtb k tb ws]: [tb], whose first element has index [k], with [wnode ws] applied at every index *)
Fixpoint wtb (k : N) (tb : list anode) (ws : list (N * V)) : list anode :=
  match tb with
  | [] => []
  | n :: tb' => wnode ws k n :: wtb (N.succ k) tb' ws
  end.

Definition a_write (am : amap) (ws : list (N * V)) : amap :=
  mkamap (wtb 0%N (tbl am) ws) (afree am) (acount am).

Lemma wtb_length ws : forall tb k, length (wtb k tb ws) = length tb.
Proof. induction tb as [|n tb IH]; intros k; cbn [wtb length]; [reflexivity|]. rewrite IH. reflexivity. Qed.

Lemma wtb_nth ws : forall tb k j,
  nth_error (wtb k tb ws) j = option_map (wnode ws (k + N.of_nat j)%N) (nth_error tb j).
Proof.
  induction tb as [|n tb IH]; intros k j.
  - destruct j; reflexivity.
  - destruct j as [|j]; cbn [wtb nth_error option_map].
    + rewrite N.add_0_r. reflexivity.
    + rewrite IH. f_equal. f_equal. lia.
Qed.

Lemma slot_wtb tb ws i : slot (wtb 0%N tb ws) i = option_map (wnode ws i) (slot tb i).
Proof.
  unfold ArenaThm.slot. rewrite wtb_nth. f_equal. f_equal. lia.
Qed.

(** the frame: a write changes no prefix, no link, not WHICH slots hold a value, nor the free list,
    the counter or the length of the table *)
Definition nskel (n : anode) : pfx * bool * option N * option N :=
  (npfx n, match nval n with Some _ => true | None => false end, nleft n, nright n).

Theorem a_write_frame am ws :
  map nskel (tbl (a_write am ws)) = map nskel (tbl am) /\
  afree (a_write am ws) = afree am /\ acount (a_write am ws) = acount am /\
  length (tbl (a_write am ws)) = length (tbl am).
Proof.
  split; [|split; [reflexivity|split; [reflexivity|apply wtb_length]]].
  unfold a_write. cbn [tbl]. generalize 0%N. induction (tbl am) as [|n tb IH]; intros k; [reflexivity|].
  cbn [wtb map]. rewrite IH. f_equal. unfold wnode, nskel.
  destruct (nval n) eqn:En, (assoc_id ws k); cbn [npfx nval nleft nright]; rewrite ?En; reflexivity.
Qed.

Theorem a_write_other am ws i : assoc_id ws i = None -> slot (tbl (a_write am ws)) i = slot (tbl am) i.
Proof.
  intros H. unfold a_write. cbn [tbl]. rewrite slot_wtb. destruct (slot (tbl am) i) as [n|]; [|reflexivity].
  cbn [option_map]. unfold wnode. rewrite H. destruct (nval n); reflexivity.
Qed.

Lemma rep_write ws tb : forall o t, rep tb o t -> rep (wtb 0%N tb ws) o (write_ids t ws).
Proof.
  intros o t H. induction H as [|i p v l r ol orr Hs Hl IHl Hr IHr]; [constructor|].
  cbn [Trie.write_ids]. econstructor; [|exact IHl|exact IHr].
  rewrite slot_wtb, Hs. cbn [option_map]. unfold wnode. cbn [nval npfx nleft nright].
  destruct v, (assoc_id ws i); reflexivity.
Qed.

Theorem Rep_write am m ws : Rep am m -> Rep (a_write am ws) (mkmap (write_ids (root m) ws) (al m)).
Proof.
  intros (R & F & L & C). split; [|split; [exact F|split; [|exact C]]].
  - cbn [tbl a_write root]. apply rep_write. exact R.
  - cbn [tbl a_write al]. rewrite wtb_length. exact L.
Qed.

Lemma write_ids_minv m ws : minv m -> minv (mkmap (write_ids (root m) ws) (al m)).
Proof.
  unfold Slots.minv, Slots.slots_ok. cbn [root al]. rewrite (Slots.write_ids_ids pfx V). exact (fun M => M).
Qed.

(** the written arena is as good as a reachable one: it represents a well-formed map whose slots are
    accounted for (everything [ArenaProps] derives from reachability is derived from these facts) *)
Definition agood (am : amap) : Prop := exists m, Rep am m /\ minv m /\ wf_root (root m).

Lemma areach_good am : areach am -> agood am.
Proof. exact (ArenaProps.areach_Rep pfx V peq contains is_bit_set plen lcp pzero mcmp bits ok LAWS am). Qed.

Theorem a_write_good am ws : agood am -> agood (a_write am ws).
Proof.
  intros (m & R & M & W). exists (mkmap (write_ids (root m) ws) (al m)).
  split; [exact (Rep_write am m ws R)|]. split.
  - exact (write_ids_minv m ws M).
  - cbn [root]. exact (History.write_ids_wf_root pfx V bits ok ws _ W).
Qed.

(** [iter_mut] mirrors [iter]: on every good arena both return [Ok]; [iter] is the projection; the
    slots of the items are pairwise distinct (no two references alias) *)
Theorem arena_C13_iter_mut am : agood am ->
  exists items, a_items am = Ok items /\ a_entries am = Ok (map drop3 items) /\
                NoDup (map (MutTrav.slot3 pfx V) items).
Proof.
  intros (m & R & M & W). exists (entries_id (root m)).
  pose proof (items_sim am m R M) as E. split; [exact E|].
  split; [rewrite entries_mirror, E; reflexivity|].
  pose proof (Slots.slots_nodup pfx V peq contains is_bit_set plen lcp pzero _ _ M) as ND.
  exact (MutTrav.entry_slots_nodup pfx V (root m) ND).
Qed.

(** writing [g slot old] through ANY selection [sel] of the references [iter_mut] hands out: the
    traversal of the written arena yields the same slots and prefixes in the same order, the value
    [g i x] exactly at the selected slots and the old value everywhere else *)
Theorem arena_C13_write_exact am items sel (g : N -> V -> V) : agood am ->
  a_items am = Ok items -> incl sel items ->
  a_items (a_write am (writes_of g sel))
  = Ok (map (fun '(i, p, x) => (i, p, if is_slot_of sel i then g i x else x)) items).
Proof.
  intros (m & R & M & W) E Hs.
  rewrite (items_sim am m R M) in E. injection E as <-.
  pose proof (Rep_write am m (writes_of g sel) R) as R'.
  rewrite (items_sim _ _ R' (write_ids_minv m _ M)).
  cbn [root]. f_equal.
  exact (MutTrav.write_through_items pfx V (root m) sel g (Slots.slots_nodup pfx V peq contains is_bit_set plen lcp pzero _ _ M) Hs).
Qed.

(** all references at once: [iter_mut().for_each(|(_, v)| *v = g(v))] *)
Theorem arena_C13_write_all am items (g : N -> V -> V) : agood am -> a_items am = Ok items ->
  a_items (a_write am (writes_of g items)) = Ok (map (fun '(i, p, x) => (i, p, g i x)) items) /\
  a_entries (a_write am (writes_of g items)) = Ok (map (fun '(i, p, x) => (p, g i x)) items).
Proof.
  intros G E.
  assert (A : a_items (a_write am (writes_of g items)) = Ok (map (fun '(i, p, x) => (i, p, g i x)) items)).
  { rewrite (arena_C13_write_exact am items items g G E (incl_refl _)). f_equal.
    apply map_ext_in. intros [[i p] x] Hin.
    assert (S : is_slot_of items i = true).
    { apply (MutTrav.is_slot_of_spec pfx V). apply (in_map (MutTrav.slot3 pfx V)) in Hin. exact Hin. }
    rewrite S. reflexivity. }
  split; [exact A|]. rewrite entries_mirror, A. cbn [rbind]. rewrite map_map. f_equal.
  apply map_ext. intros [[i p] x]. reflexivity.
Qed.

(** [get_lpm_mut]: the reference it returns is one of the references [iter_mut] hands out (so a write
    through it lands at that entry, by [arena_C13_write_exact] with [sel = [that item]]), and its
    prefix and value are what [get_lpm] returns *)
Theorem arena_C13_get_lpm_mut am items q : agood am -> a_items am = Ok items ->
  exists o, Arena3.a_get_lpm_mut pfx V peq contains is_bit_set plen am q = Ok o /\
            Arena.a_get_lpm pfx V peq contains is_bit_set plen am q = Ok (option_map drop3 o) /\
            match o with Some e => In e items | None => True end.
Proof.
  intros (m & R & M & W) E. rewrite (items_sim am m R M) in E. injection E as <-.
  exists (Trie.get_lpm_mut pfx V peq contains is_bit_set plen (root m) q).
  split; [exact (Arena3Thm.get_lpm_mut_sim pfx V peq contains is_bit_set plen lcp pzero am m q R)|].
  split.
  - rewrite (ArenaThm.get_lpm_sim pfx V peq contains is_bit_set plen lcp pzero am m q R M). f_equal.
    rewrite <- (Lookup.get_lpm_mut_eq pfx V peq contains is_bit_set plen (root m) q).
    destruct (Trie.get_lpm_mut pfx V peq contains is_bit_set plen (root m) q) as [[[i p] x]|]; reflexivity.
  - destruct (Trie.get_lpm_mut pfx V peq contains is_bit_set plen (root m) q) as [[[i p] x]|] eqn:EQ; [|exact I].
    exact (Lookup.get_lpm_mut_slot pfx V peq contains is_bit_set plen (root m) q i p x EQ).
Qed.

End AW.

Print Assumptions iter_mirrors.
Print Assumptions a_write_frame.
Print Assumptions Rep_write.
Print Assumptions a_write_good.
Print Assumptions arena_C13_iter_mut.
Print Assumptions arena_C13_write_exact.
Print Assumptions arena_C13_write_all.
Print Assumptions arena_C13_get_lpm_mut.
