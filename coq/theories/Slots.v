(** Storage accounting of every mutator of the model ([Trie.v]).

    Purely structural facts (no law about prefixes is used):
    - [slots_ok]: every slot below the arena length is either in the tree or in the free list,
      never both, never neither;
    - the cached counter moves exactly like the number of stored entries;
    - the arena length is a high-water mark: it only grows when the free list is empty, and
      [rem], [rc] and [ret] never change it ([clear], hence also [remove_children] of the
      zero-length prefix, resets it to 1: [remove_children_alen]).

    The proofs go through one relation, [moved R G t a t' a'] (defined after the counting lemmas):
    [acct_post] = [moved grows] for the allocating steps, [shrinks] = [moved stays True] for
    removals and value writes.

    Once the section is closed, a lemma whose proof calls [lia] takes all six of [peq contains
    is_bit_set plen lcp pzero] as arguments, also those its statement does not mention ([lia]
    generalises over section variables; [shrinks_storage] and [shrinks_slots], with [Proof using
    Type], are the exceptions), and the tactic [fin] of History.v and HistoryExtra.v supplies them. *)
From Coq Require Import List NArith ZArith Bool Arith Lia ZifyN ZifyBool ZifyNat Permutation.
From PT Require Import Trie Views TrieWf Mutate Retain.
Import ListNotations.

Section SL.
Variables (pfx V : Type).
Variables (peq contains : pfx -> pfx -> bool) (is_bit_set : pfx -> N -> bool)
          (plen : pfx -> N) (lcp : pfx -> pfx -> pfx) (pzero : pfx).

Notation tree := (tree pfx V).
Notation pmap := (pmap pfx V).
Notation to_right := (to_right pfx is_bit_set plen).
Notation child_of := (TrieWf.child_of pfx V).
Local Notation descent_ind := (TrieWf.descent_ind pfx V peq contains is_bit_set plen).
Local Notation get_node_node := (Mutate.get_node_node pfx V peq contains is_bit_set plen).
Local Notation get_node_stop := (Mutate.get_node_stop pfx V peq contains is_bit_set plen).
Local Notation hang := (Mutate.hang pfx V contains is_bit_set plen lcp).
Local Notation ins_reached := (Mutate.ins_reached pfx V peq contains is_bit_set plen lcp).
Local Notation ins_stop := (Mutate.ins_stop pfx V peq contains is_bit_set plen lcp).
Local Notation ins_enter := (Mutate.ins_enter pfx V peq contains is_bit_set plen lcp).
Local Notation modify_node := (Mutate.modify_node pfx V peq contains is_bit_set plen).
Local Notation modify_stop := (Mutate.modify_stop pfx V peq contains is_bit_set plen).
Local Notation modify_enter := (Mutate.modify_enter pfx V peq contains is_bit_set plen).
Local Notation rc_node := (Mutate.rc_node pfx V peq contains is_bit_set plen).
Notation get_node := (Trie.get_node pfx V peq contains is_bit_set plen).
Notation get := (Trie.get pfx V peq contains is_bit_set plen).
Notation ins := (Trie.ins pfx V peq contains is_bit_set plen lcp).
Notation vins := (Trie.vins pfx V peq contains is_bit_set plen lcp).
Notation modify := (Trie.modify pfx V peq contains is_bit_set plen).
Notation remove_self := (Trie.remove_self pfx V).
Notation absorb := (Trie.absorb pfx V).
Notation rem := (Trie.rem pfx V peq contains is_bit_set plen).
Notation free_all := (Trie.free_all pfx V).
Notation rc := (Trie.rc pfx V peq contains is_bit_set plen).
Notation ret := (Trie.ret pfx V).
Notation with_child := (Trie.with_child pfx V).
Notation empty := (Trie.empty pfx V pzero).
Notation insert := (Trie.insert pfx V peq contains is_bit_set plen lcp).
Notation remove := (Trie.remove pfx V peq contains is_bit_set plen).
Notation remove_keep_tree := (Trie.remove_keep_tree pfx V peq contains is_bit_set plen).
Notation remove_children := (Trie.remove_children pfx V peq contains is_bit_set plen pzero).
Notation clear := (Trie.clear pfx V pzero).
Notation retain := (Trie.retain pfx V).
Notation vacant_insert := (Trie.vacant_insert pfx V peq contains is_bit_set plen lcp).
Notation occ_insert := (Trie.occ_insert pfx V peq contains is_bit_set plen).
Notation occ_remove := (Trie.occ_remove pfx V peq contains is_bit_set plen).
Notation update_value := (Trie.update_value pfx V peq contains is_bit_set plen).
Notation from_list := (Trie.from_list pfx V peq contains is_bit_set plen lcp pzero).

Fixpoint ids (t : tree) : list N :=
  match t with Leaf => [] | Node i _ _ l r => i :: ids l ++ ids r end.

Definition seqN (n : N) : list N := map N.of_nat (seq 0 (N.to_nat n)).

(** every slot below the arena length is in the tree or in the free list, never both, never
    neither *)
Definition slots_ok (t : tree) (a : alloc) : Prop := Permutation (ids t ++ free a) (seqN (alen a)).

Definition nentries (t : tree) : Z := Z.of_nat (length (entries t)).
Definition nnodes (t : tree) : N := N.of_nat (length (ids t)).

Definition minv (m : pmap) : Prop := slots_ok (root m) (al m).
Definition cinv (m : pmap) : Prop := count (al m) = nentries (root m).

(** * Multiset counting: every [Permutation] goal becomes linear arithmetic *)

Notation cnt := (count_occ N.eq_dec).
Definition one (i z : N) : nat := if N.eq_dec i z then 1 else 0.
Definition ownn {A} (v : option A) : nat := match v with Some _ => 1 | None => 0 end.

Lemma cnt_cons i l z : cnt (i :: l) z = one i z + cnt l z.
Proof. unfold one. cbn [count_occ]. destruct (N.eq_dec i z); lia. Qed.

Lemma cnt_nil z : cnt [] z = 0.
Proof. reflexivity. Qed.

Lemma perm_cnt l1 l2 : Permutation l1 l2 <-> forall z, cnt l1 z = cnt l2 z.
Proof. apply Permutation_count_occ. Qed.

Lemma seqN_succ n : seqN (n + 1) = seqN n ++ [n].
Proof.
  unfold seqN. replace (N.to_nat (n + 1)) with (S (N.to_nat n)) by lia.
  rewrite seq_S, map_app. cbn [map]. rewrite Nat.add_0_l, N2Nat.id. reflexivity.
Qed.

Lemma length_seqN n : length (seqN n) = N.to_nat n.
Proof. unfold seqN. rewrite map_length, seq_length. reflexivity. Qed.

Lemma NoDup_seqN n : NoDup (seqN n).
Proof.
  unfold seqN. apply FinFun.Injective_map_NoDup; [|apply seq_NoDup].
  intros x y. apply Nat2N.inj.
Qed.

Lemma in_seqN n i : In i (seqN n) <-> (i < n)%N.
Proof.
  unfold seqN. rewrite in_map_iff. split.
  - intros [k [<- Hk]]. apply in_seq in Hk. lia.
  - intros H. exists (N.to_nat i). split; [apply N2Nat.id|]. apply in_seq. lia.
Qed.

Lemma slots_ok_cnt t a :
  slots_ok t a <-> forall z, cnt (ids t) z + cnt (free a) z = cnt (seqN (alen a)) z.
Proof.
  unfold slots_ok. rewrite perm_cnt. split; intros H z; specialize (H z);
    rewrite count_occ_app in *; exact H.
Qed.

Lemma slots_len t a : slots_ok t a -> length (ids t) + length (free a) = N.to_nat (alen a).
Proof.
  intros H. apply Permutation_length in H. rewrite app_length, length_seqN in H. exact H.
Qed.

Lemma node_view i p v l r (rt : bool) :
  (forall z, cnt (ids (Node i p v l r)) z
             = one i z + cnt (ids (child_of l r rt)) z + cnt (ids (child_of l r (negb rt))) z) /\
  length (entries (Node i p v l r))
    = ownn v + length (entries (child_of l r rt)) + length (entries (child_of l r (negb rt))).
Proof.
  cbn [ids entries]. split.
  - intros z. rewrite cnt_cons, count_occ_app. destruct rt; cbn [TrieWf.child_of negb]; lia.
  - rewrite !app_length. destruct v; cbn [length ownn]; destruct rt; cbn [TrieWf.child_of negb]; lia.
Qed.

Lemma wc_view i p v l r (rt : bool) c :
  (forall z, cnt (ids (with_child i p v l r rt c)) z
             = one i z + cnt (ids c) z + cnt (ids (child_of l r (negb rt))) z) /\
  length (entries (with_child i p v l r rt c))
    = ownn v + length (entries c) + length (entries (child_of l r (negb rt))).
Proof.
  unfold Trie.with_child. destruct rt.
  - apply (node_view i p v l c true).
  - apply (node_view i p v c r false).
Qed.

(** a new node that adopts [c] as its only child (on either side) *)
Lemma adopt_view n q (x : V) (b : bool) c :
  let nn := if b then Node n q (Some x) Leaf c else Node n q (Some x) c Leaf in
  (forall z, cnt (ids nn) z = one n z + cnt (ids c) z) /\
  length (ids nn) = S (length (ids c)) /\
  length (entries nn) = S (length (entries c)).
Proof.
  destruct b; cbn [ids entries app length]; rewrite ?app_nil_r;
    (split; [intros z; apply cnt_cons | split; reflexivity]).
Qed.

(** a new value-less branch node over [c] and the new leaf *)
Lemma branch_view b bp n q (x : V) (s : bool) c :
  let nn := Node n q (Some x) Leaf Leaf in
  let bn := if s then Node b bp None c nn else Node b bp None nn c in
  (forall z, cnt (ids bn) z = one b z + one n z + cnt (ids c) z) /\
  length (ids bn) = S (S (length (ids c))) /\
  length (entries bn) = S (length (entries c)).
Proof.
  destruct s; cbn [ids entries app length]; rewrite ?app_length; cbn [length];
    (split; [intros z; rewrite cnt_cons, ?count_occ_app, ?cnt_cons, ?cnt_nil; lia | split; lia]).
Qed.

(** the slot balance of a step: holds without any invariant *)
Definition bal (t : tree) (a : alloc) (t' : tree) (a' : alloc) : Prop :=
  forall z, cnt (ids t') z + cnt (free a') z + cnt (seqN (alen a)) z
          = cnt (ids t) z + cnt (free a) z + cnt (seqN (alen a')) z.

Lemma bal_slots t a t' a' : bal t a t' a' -> slots_ok t a -> slots_ok t' a'.
Proof.
  intros B S. rewrite slots_ok_cnt in *. intros z. specialize (B z). specialize (S z). lia.
Qed.

(** the arena grows only when the free list is (and stays) empty; the last clause is what lets
    two allocations in a row compose ([grows_trans]) *)
Definition grows (a a' : alloc) : Prop :=
  (alen a <= alen a')%N /\ (alen a' = alen a \/ free a' = []) /\ (free a = [] -> free a' = []).

Lemma grows_trans a b c : grows a b -> grows b c -> grows a c.
Proof.
  unfold grows. intros (A1 & A2 & A3) (B1 & B2 & B3). split; [lia|split].
  - destruct B2 as [B2|B2]; [|right; exact B2]. destruct A2 as [A2|A2].
    + left. congruence.
    + right. auto.
  - auto.
Qed.

Lemma grows_same a a' : alen a' = alen a -> free a' = free a -> grows a a'.
Proof. unfold grows. intros -> ->. split; [lia|split]; auto. Qed.

(** the arena keeps its length and no slot leaves the free list *)
Definition stays (a a' : alloc) : Prop := alen a' = alen a /\ length (free a) <= length (free a').

(** What a step does to the storage, stated for the subtree it works on and the allocator, with
    no invariant assumed: the slots balance, so the step can be put under any context
    ([moved_child]) and carries [slots_ok] over at the root; the counter follows the entries where
    [G] holds; [R] speaks of the allocator alone, so contexts pass it on untouched.  Allocating
    steps have [R := grows] ([acct_post]); removals and value writes have [R := stays]
    ([shrinks]: that the tree has no more nodes than before then follows from the balance,
    [shrinks_storage]). *)
Definition moved (R : alloc -> alloc -> Prop) (G : Prop) (t : tree) (a : alloc) (t' : tree) (a' : alloc) : Prop :=
  bal t a t' a' /\ (G -> (count a' - count a = nentries t' - nentries t)%Z) /\ R a a'.

Definition acct_post := moved grows.
Definition shrinks := moved stays True.

Lemma moved_mono R (G G' : Prop) t a t' a' : (G' -> G) -> moved R G t a t' a' -> moved R G' t a t' a'.
Proof. intros HG (B & C & Ra). split; [exact B|]. split; [intros g; exact (C (HG g)) | exact Ra]. Qed.

Lemma acct_post_weaken (G : Prop) t a t' a' : acct_post True t a t' a' -> acct_post G t a t' a'.
Proof. apply moved_mono. auto. Qed.

Lemma moved_trans (R : alloc -> alloc -> Prop) (G : Prop) t1 a1 t2 a2 t3 a3 :
  (R a1 a2 -> R a2 a3 -> R a1 a3) ->
  moved R G t1 a1 t2 a2 -> moved R G t2 a2 t3 a3 -> moved R G t1 a1 t3 a3.
Proof.
  intros T (A1 & A2 & A3) (B1 & B2 & B3). split; [|split; [|auto]].
  - intros z. specialize (A1 z). specialize (B1 z). lia.
  - intros g. specialize (A2 g). specialize (B2 g). lia.
Qed.

Lemma moved_child R (G G' : Prop) i p v l r (rt : bool) a c c' a' :
  child_of l r rt = c -> (G' -> G) -> moved R G c a c' a' ->
  moved R G' (Node i p v l r) a (with_child i p v l r rt c') a'.
Proof.
  intros Hc HG (B & C & Ra).
  destruct (node_view i p v l r rt) as (Ai & Ae). rewrite Hc in *.
  destruct (wc_view i p v l r rt c') as (Wi & We).
  split; [|split; [|exact Ra]].
  - intros z. specialize (B z). specialize (Ai z). specialize (Wi z). lia.
  - intros g. specialize (C (HG g)). unfold nentries in *. lia.
Qed.

Lemma moved_cinv R (G : Prop) t a t' a' :
  moved R G t a t' a' -> G -> count a = nentries t -> count a' = nentries t'.
Proof. intros (_ & C & _) g H. specialize (C g). lia. Qed.

Lemma new_node_acct {a hv n a'} : new_node a hv = (n, a') ->
  (forall z, one n z + cnt (free a') z + cnt (seqN (alen a)) z
             = cnt (free a) z + cnt (seqN (alen a')) z) /\
  count a' = (count a + (if hv then 1 else 0))%Z /\ grows a a'.
Proof.
  unfold new_node, grows. destruct (free a) as [|j f] eqn:F; intros H; inversion H; subst; clear H;
    cbn [free alen count].
  - split; [|split].
    + intros z. rewrite seqN_succ, count_occ_app, cnt_cons, !cnt_nil. lia.
    + destruct hv; lia.
    + split; [lia|split]; auto.
  - split; [|split].
    + intros z. rewrite cnt_cons. lia.
    + destruct hv; lia.
    + split; [lia|split]; auto. intros; discriminate.
Qed.

(** the one step of growth: a fresh node stands above what was there *)
Lemma new_node_moved {a hv n a'} q (v : option V) (s : bool) c :
  new_node a hv = (n, a') -> ownn v = (if hv then 1 else 0) ->
  acct_post True c a (if s then Node n q v Leaf c else Node n q v c Leaf) a'.
Proof.
  intros NN Hv. destruct (new_node_acct NN) as (Nb & Nc & Ng). split; [|split; [|exact Ng]].
  - intros z. specialize (Nb z). destruct s; cbn [ids app]; rewrite cnt_cons, ?app_nil_r; lia.
  - intros _. unfold nentries. destruct s, hv, v; cbn [entries app length ownn] in *; rewrite ?app_nil_r; lia.
Qed.

Lemma hang_acct c q x a nn a' : hang c q x a = (nn, a') -> acct_post True c a nn a'.
Proof.
  unfold Mutate.hang. destruct c as [|ci cp cv cl cr].
  - destruct (new_node a true) as [n a1] eqn:NN. intros H. inversion H; subst; clear H.
    exact (new_node_moved q (Some x) true Leaf NN eq_refl).
  - destruct (contains q cp).
    + destruct (new_node a true) as [n a1] eqn:NN. intros H. inversion H; subst; clear H.
      exact (new_node_moved q (Some x) (to_right q cp) _ NN eq_refl).
    + destruct (new_node a false) as [b a1] eqn:NB. destruct (new_node a1 true) as [n a2] eqn:NN.
      intros H. inversion H; subst; clear H.
      pose proof (new_node_moved q (Some x) true Leaf NN eq_refl) as N2.
      destruct (to_right (lcp q cp) q).
      * eapply moved_trans; [apply grows_trans | exact (new_node_moved (lcp q cp) None false _ NB eq_refl) |].
        eapply (moved_child grows True True b (lcp q cp) None _ Leaf true); [reflexivity | auto | exact N2].
      * eapply moved_trans; [apply grows_trans | exact (new_node_moved (lcp q cp) None true _ NB eq_refl) |].
        eapply (moved_child grows True True b (lcp q cp) None Leaf _ false); [reflexivity | auto | exact N2].
Qed.

Lemma place_enter (G G' : Prop) i p v l r (rt : bool) a c c' a' :
  child_of l r rt = c -> (G' -> G) -> acct_post G c a c' a' ->
  acct_post G' (Node i p v l r) a (with_child i p v l r rt c') a'.
Proof. apply moved_child. Qed.

Lemma ins_acct t q x a t' o a' : ins t q x a = (t', o, a') -> acct_post True t a t' a'.
Proof.
  revert t' o a'.
  induction t as [|i p v l r E|i p v l r E Hs|i p v l r ci cp cv cl cr E Ec C IH] using (descent_ind q);
    intros t' o a' H.
  - cbn in H. inversion H; subst. split; [|split].
    + intros z. reflexivity.
    + intros _. lia.
    + apply grows_same; reflexivity.
  - rewrite ins_reached in H by assumption. inversion H; subst t' o a'; clear H. split; [|split].
    + intros z. destruct v; cbn [inc_if_none add_count ids free alen]; reflexivity.
    + intros _. unfold nentries. cbn [entries]. rewrite !app_length.
      destruct v; cbn [inc_if_none add_count count length]; lia.
    + apply grows_same; destruct v; reflexivity.
  - rewrite ins_stop in H by assumption.
    destruct (hang (child_of l r (to_right p q)) q x a) as [nn a1] eqn:Hh. inversion H; subst t' o a'; clear H.
    eapply (place_enter True True); [reflexivity | auto | eapply hang_acct; exact Hh].
  - rewrite (ins_enter i p v l r q x a E Ec C) in H.
    destruct (ins (Node ci cp cv cl cr) q x a) as [[c' o'] a''] eqn:R. inversion H; subst t' o a'; clear H.
    eapply (place_enter True True); eauto.
Qed.

Lemma vins_acct {t q x a t' a'} : vins t q x a = (t', a') -> acct_post (get t q = None) t a t' a'.
Proof.
  rewrite (Mutate.vins_ins pfx V peq contains is_bit_set plen lcp).
  pose proof (Mutate.ins_ret pfx V peq contains is_bit_set plen lcp t q x a) as R.
  destruct (ins t q x a) as [[t1 o] a1] eqn:I. cbn [fst snd] in R.
  intros H. inversion H; subst t' a'; clear H. destruct (ins_acct _ _ _ _ _ _ _ I) as (B & C & G).
  destruct o; (split; [exact B|]; split; [|exact G]); [congruence | intros _; apply C; exact Logic.I].
Qed.

Lemma acct_max {G : Prop} {t a t' a'} :
  acct_post G t a t' a' -> slots_ok t a -> alen a' = N.max (alen a) (nnodes t').
Proof.
  intros (B & _ & G1 & G2 & _) S. pose proof (bal_slots _ _ _ _ B S) as S'.
  apply slots_len in S. apply slots_len in S'. unfold nnodes.
  destruct G2 as [G2|G2]; [lia|]. rewrite G2 in S'. cbn [length] in S'. lia.
Qed.

Theorem ins_slots_ok t q x a t' o a' :
  ins t q x a = (t', o, a') -> slots_ok t a -> slots_ok t' a'.
Proof. intros H. destruct (ins_acct _ _ _ _ _ _ _ H) as (B & _ & _). apply bal_slots. exact B. Qed.

Theorem ins_count t q x a t' o a' :
  ins t q x a = (t', o, a') -> (count a' - count a = nentries t' - nentries t)%Z.
Proof. intros H. destruct (ins_acct _ _ _ _ _ _ _ H) as (_ & C & _). apply C. exact I. Qed.

Theorem ins_alen_le t q x a t' o a' :
  ins t q x a = (t', o, a') -> (alen a <= alen a')%N.
Proof. intros H. destruct (ins_acct _ _ _ _ _ _ _ H) as (_ & _ & G). apply G. Qed.

Theorem ins_alen_max t q x a t' o a' :
  ins t q x a = (t', o, a') -> slots_ok t a -> alen a' = N.max (alen a) (nnodes t').
Proof. intros H. exact (acct_max (ins_acct _ _ _ _ _ _ _ H)). Qed.

Theorem vins_slots_ok t q x a t' a' :
  vins t q x a = (t', a') -> slots_ok t a -> slots_ok t' a'.
Proof. intros H. destruct (vins_acct H) as (B & _ & _). apply bal_slots. exact B. Qed.

Theorem vins_count t q x a t' a' :
  vins t q x a = (t', a') -> get t q = None ->
  (count a' - count a = nentries t' - nentries t)%Z.
Proof. intros H. destruct (vins_acct H) as (_ & C & _). exact C. Qed.

Theorem vins_alen_le t q x a t' a' :
  vins t q x a = (t', a') -> (alen a <= alen a')%N.
Proof. intros H. destruct (vins_acct H) as (_ & _ & G). apply G. Qed.

Theorem vins_alen_max t q x a t' a' :
  vins t q x a = (t', a') -> slots_ok t a -> alen a' = N.max (alen a) (nnodes t').
Proof. intros H. exact (acct_max (vins_acct H)). Qed.

Theorem modify_ids t : forall q h, ids (modify t q h) = ids t.
Proof.
  intros q h.
  induction t as [|i p v l r E|i p v l r E Hs|i p v l r ci cp cv cl cr E Ec C IH] using (descent_ind q);
    [reflexivity| |rewrite modify_stop by assumption; reflexivity|].
  - rewrite modify_node, E. destruct (h p v) as [p' v']. reflexivity.
  - rewrite (modify_enter i p v l r q h E Ec C). revert Ec IH.
    destruct (to_right p q); cbn [TrieWf.child_of Trie.with_child ids]; intros -> ->; reflexivity.
Qed.

Theorem modify_entries t : forall q h,
  match get_node t q with
  | None => modify t q h = t
  | Some (_, p, v) =>
    length (entries (modify t q h)) + ownn v = length (entries t) + ownn (snd (h p v))
  end.
Proof.
  intros q h.
  induction t as [|i p v l r E|i p v l r E Hs|i p v l r ci cp cv cl cr E Ec C IH] using (descent_ind q).
  - reflexivity.
  - rewrite get_node_node, modify_node, E. destruct (h p v) as [p' v'] eqn:Hh. cbn [entries snd].
    rewrite !app_length. destruct v, v'; cbn [length ownn]; lia.
  - rewrite get_node_stop, modify_stop by assumption. reflexivity.
  - rewrite get_node_node, E, (modify_enter i p v l r q h E Ec C). cbv zeta. rewrite Ec, C.
    destruct (get_node (Node ci cp cv cl cr) q) as [[[j pj] vj]|].
    + destruct (node_view i p v l r (to_right p q)) as (_ & Ae). rewrite Ec in Ae.
      destruct (wc_view i p v l r (to_right p q) (modify (Node ci cp cv cl cr) q h)) as (_ & We). lia.
    + rewrite IH, <- Ec. apply (Mutate.child_of_with_child_id pfx V).
Qed.

Theorem write_ids_ids (t : tree) ws : ids (write_ids t ws) = ids t.
Proof.
  induction t as [|i p v l IHl r IHr]; cbn [write_ids ids]; [reflexivity|].
  rewrite IHl, IHr. reflexivity.
Qed.

Theorem write_ids_entries (t : tree) ws : length (entries (write_ids t ws)) = length (entries t).
Proof.
  induction t as [|i p v l IHl r IHr]; cbn [write_ids entries]; [reflexivity|].
  rewrite !app_length, IHl, IHr. destruct v, (assoc_id ws i); reflexivity.
Qed.

Lemma set_tval_ids (t : tree) v : ids (set_tval t v) = ids t.
Proof. destruct t; reflexivity. Qed.

Theorem subst_ids pa : forall (t : tree) v, ids (subst t pa (set_tval (subtree t pa) v)) = ids t.
Proof.
  induction pa as [|b pa IH]; intros t v.
  - destruct t; reflexivity.
  - destruct t as [|i p w l r]; [reflexivity|]. cbn [subst subtree].
    destruct b; cbn [ids]; rewrite IH; reflexivity.
Qed.

Lemma stays_trans a b c : stays a b -> stays b c -> stays a c.
Proof. unfold stays. intros (A1 & A2) (B1 & B2). split; [congruence | lia]. Qed.

Lemma shrinks_refl t a : shrinks t a t a.
Proof. split; [intros z; reflexivity|]. split; [lia | split; reflexivity]. Qed.

Lemma shrinks_trans t1 a1 t2 a2 t3 a3 :
  shrinks t1 a1 t2 a2 -> shrinks t2 a2 t3 a3 -> shrinks t1 a1 t3 a3.
Proof. apply moved_trans, stays_trans. Qed.

Lemma shrinks_child i p v l r (rt : bool) c c' a a' :
  child_of l r rt = c -> shrinks c a c' a' ->
  shrinks (Node i p v l r) a (with_child i p v l r rt c') a'.
Proof. intros Hc. apply moved_child; auto. Qed.

Lemma shrinks_collapse i p (l r : tree) (rt : bool) a :
  child_of l r rt = Leaf ->
  shrinks (Node i p None l r) a (child_of l r (negb rt)) (push_free i a).
Proof.
  intros Hc. destruct (node_view i p None l r rt) as (Ni & Ne). rewrite Hc in *.
  unfold shrinks, moved, bal, stays, nentries. cbn [ids entries length ownn push_free free alen count] in *.
  split; [|split; [|split]]; [|lia|reflexivity|lia].
  intros z. specialize (Ni z). rewrite cnt_cons. rewrite cnt_nil in Ni. lia.
Qed.

Lemma shrinks_take i p v (l r : tree) a : shrinks (Node i p v l r) a (Node i p None l r) (dec_if v a).
Proof.
  split; [|split; [|split]]; [intros z| intros _; unfold nentries; cbn [entries]; rewrite !app_length|..];
    destruct v; cbn [ids dec_if add_count free alen count length]; lia.
Qed.

(** a write that leaves the slots and the allocator's lists alone *)
Lemma ids_stays (G : Prop) t a t' a' :
  ids t' = ids t -> free a' = free a -> alen a' = alen a ->
  (G -> (count a' - count a = nentries t' - nentries t)%Z) -> moved stays G t a t' a'.
Proof. intros Ei Ef El C. unfold moved, bal, stays. rewrite Ei, Ef, El. auto. Qed.

Lemma shrinks_storage t a t' a' :
  shrinks t a t' a' ->
  Permutation (ids t' ++ free a') (ids t ++ free a) /\ alen a' = alen a /\
  (count a' - count a = nentries t' - nentries t)%Z /\ length (ids t') <= length (ids t).
Proof using Type. (* and [clear -] before [lia]: no operator variable becomes an argument, see the head comment *)
  intros (B & C & Al & Lf). assert (P : Permutation (ids t' ++ free a') (ids t ++ free a)).
  { apply perm_cnt. intros z. specialize (B z). rewrite Al in B. rewrite !count_occ_app. clear - B. lia. }
  split; [exact P|]. split; [exact Al|]. split; [exact (C I)|].
  apply Permutation_length in P. rewrite !app_length in P. clear - P Lf. lia.
Qed.

Lemma shrinks_slots t a t' a' : shrinks t a t' a' -> slots_ok t a -> slots_ok t' a'.
Proof using Type.
  intros (B & _) S. rewrite slots_ok_cnt in *. intros z. specialize (B z). specialize (S z). clear - B S. lia.
Qed.

(** [_remove_node] at the node itself: the value is taken out, then a node with a parent and at
    most one child gives way to that child *)
Lemma remove_self_acct hp i p v l r a t' fl a' :
  remove_self hp i p v l r a = (t', fl, a') ->
  shrinks (Node i p v l r) a t' a' /\ (fl = true -> t' = Leaf) /\ (hp = false -> t' <> Leaf).
Proof.
  unfold Trie.remove_self. intros H. pose proof (shrinks_take i p v l r a) as T.
  assert (Hkeep : (Node i p None l r, false, dec_if v a) = (t', fl, a') ->
                  shrinks (Node i p v l r) a t' a' /\ (fl = true -> t' = Leaf) /\ (hp = false -> t' <> Leaf)).
  { intros H'. inversion H'; subst. split; [exact T|]. split; discriminate. }
  destruct hp; [|destruct (is_node l), (is_node r); exact (Hkeep H)].
  destruct l as [|li lp lv ll lr], r as [|ri rp rv rl rr]; cbn [is_node] in H; [| | |exact (Hkeep H)];
    inversion H; subst; clear H Hkeep;
    (split; [eapply shrinks_trans; [exact T|]|split; [|discriminate]]).
  - apply (shrinks_collapse i p Leaf Leaf true). reflexivity.
  - reflexivity.
  - apply (shrinks_collapse i p Leaf (Node ri rp rv rl rr) false). reflexivity.
  - discriminate.
  - apply (shrinks_collapse i p (Node li lp lv ll lr) Leaf true). reflexivity.
  - discriminate.
Qed.

Lemma absorb_acct {hp i p v l r rt a t' a'} :
  absorb hp i p v l r rt a = (t', a') ->
  shrinks (with_child i p v l r rt Leaf) a t' a' /\ (hp = false -> t' <> Leaf).
Proof.
  unfold Trie.absorb. destruct (hp && is_none v) eqn:B; intros H; inversion H; subst t' a'; clear H.
  - apply andb_prop in B. destruct B as [-> B]. destruct v; [discriminate|]. split; [|discriminate].
    unfold Trie.with_child. destruct rt.
    + apply (shrinks_collapse i p l Leaf true). reflexivity.
    + apply (shrinks_collapse i p Leaf r false). reflexivity.
  - split; [apply shrinks_refl|]. intros _. unfold Trie.with_child. destruct rt; discriminate.
Qed.

Lemma shr_shrinks {hp t a t' fl a' rm} : Mutate.shr pfx V hp t a t' fl a' rm -> shrinks t a t' a'.
Proof.
  induction 1 as [| hp i p v l r a t' fl a' RS | hp i p v l r s c' fl a a' rm t'' a'' H IH E
                  | hp t a t1 a1 rm1 t2 fl a2 rm2 H1 IH1 H2 IH2].
  - apply shrinks_refl.
  - apply (remove_self_acct _ _ _ _ _ _ _ _ _ _ RS).
  - pose proof (shrinks_child i p v l r s _ c' a a' eq_refl IH) as A. destruct fl.
    + rewrite (Mutate.shr_flag pfx V H eq_refl) in A. eapply shrinks_trans; [exact A | apply (absorb_acct E)].
    + inversion E; subst. exact A.
  - eapply shrinks_trans; eassumption.
Qed.

(** what every sequence of removal steps guarantees about storage and about the node standing there *)
Lemma shr_acct {hp t a t' fl a' rm} : Mutate.shr pfx V hp t a t' fl a' rm ->
  shrinks t a t' a' /\ (fl = true -> t' = Leaf) /\ (hp = false -> t <> Leaf -> t' <> Leaf).
Proof.
  intros S. split; [exact (shr_shrinks S)|]. split; [exact (Mutate.shr_flag pfx V S)|].
  intros Hp Hn. destruct t as [|i p v l r]; [congruence|].
  destruct (Mutate.shr_root pfx V S Hp _ _ _ _ _ eq_refl) as (v' & l' & r' & ->). discriminate.
Qed.

Lemma rem_acct {q a t} : forall {hp t' fl o a'}, rem hp t q a = (t', fl, o, a') ->
  shrinks t a t' a' /\ (fl = true -> t' = Leaf) /\ (hp = false -> t <> Leaf -> t' <> Leaf).
Proof. intros hp t' fl o a' H. exact (shr_acct (Mutate.rem_shr pfx V peq contains is_bit_set plen H)). Qed.

Theorem remove_self_storage hp i p v l r a t' fl a' :
  remove_self hp i p v l r a = (t', fl, a') ->
  Permutation (ids t' ++ free a') (ids (Node i p v l r) ++ free a) /\
  alen a' = alen a /\
  (count a' - count a = nentries t' - nentries (Node i p v l r))%Z /\
  length (ids t') <= length (ids (Node i p v l r)) /\
  (fl = true -> t' = Leaf) /\ (hp = false -> t' <> Leaf).
Proof.
  intros H. destruct (remove_self_acct _ _ _ _ _ _ _ _ _ _ H) as (A & B & C).
  apply shrinks_storage in A. tauto.
Qed.

Theorem absorb_storage hp i p v l r rt a t' a' :
  absorb hp i p v l r rt a = (t', a') ->
  let t0 := with_child i p v l r rt Leaf in
  Permutation (ids t' ++ free a') (ids t0 ++ free a) /\
  alen a' = alen a /\
  (count a' - count a = nentries t' - nentries t0)%Z /\
  length (ids t') <= length (ids t0) /\
  (hp = false -> t' <> Leaf).
Proof.
  intros H t0. destruct (absorb_acct H) as (A & C).
  apply shrinks_storage in A. tauto.
Qed.

Theorem rem_storage hp t q a t' fl o a' :
  rem hp t q a = (t', fl, o, a') ->
  Permutation (ids t' ++ free a') (ids t ++ free a) /\
  alen a' = alen a /\
  (count a' - count a = nentries t' - nentries t)%Z /\
  length (ids t') <= length (ids t) /\
  (fl = true -> t' = Leaf) /\ (hp = false -> t <> Leaf -> t' <> Leaf).
Proof.
  intros H. destruct (rem_acct H) as (A & B & C).
  apply shrinks_storage in A. tauto.
Qed.

Theorem rem_slots_ok hp t q a t' fl o a' :
  rem hp t q a = (t', fl, o, a') -> slots_ok t a -> slots_ok t' a'.
Proof. intros H. destruct (rem_acct H) as (A & _). eapply shrinks_slots; eauto. Qed.

Lemma free_all_acct t : forall a,
  (forall z, cnt (free (free_all t a)) z = cnt (ids t) z + cnt (free a) z) /\
  alen (free_all t a) = alen a /\ count (free_all t a) = (count a - nentries t)%Z.
Proof.
  induction t as [|i p v l IHl r IHr]; intros a; cbn [Trie.free_all].
  - unfold nentries. cbn. split; [|split]; try reflexivity. lia.
  - destruct (IHl (free_all r (push_free i (dec_if v a)))) as (L1 & L2 & L3).
    destruct (IHr (push_free i (dec_if v a))) as (R1 & R2 & R3).
    split; [|split].
    + intros z. rewrite L1, R1. cbn [ids push_free free]. rewrite !cnt_cons, count_occ_app.
      destruct v; cbn [dec_if add_count free]; lia.
    + rewrite L2, R2. destruct v; reflexivity.
    + rewrite L3, R3. unfold nentries. cbn [entries]. rewrite !app_length.
      destruct v; cbn [dec_if add_count push_free count length]; lia.
Qed.

Theorem free_all_storage t a :
  Permutation (free (free_all t a)) (ids t ++ free a) /\
  alen (free_all t a) = alen a /\
  count (free_all t a) = (count a - nentries t)%Z.
Proof.
  destruct (free_all_acct t a) as (A & B & C). split; [|split]; auto.
  apply perm_cnt. intros z. rewrite count_occ_app. apply A.
Qed.

Lemma free_all_shrinks t a : shrinks t a Leaf (free_all t a).
Proof.
  destruct (free_all_storage t a) as (P & B & C). split; [|split; [|split; [exact B|]]].
  - intros z. rewrite perm_cnt in P. rewrite (P z), count_occ_app, B. cbn [ids]. rewrite cnt_nil. lia.
  - intros _. rewrite C. unfold nentries. cbn [entries length]. lia.
  - apply Permutation_length in P. rewrite app_length in P. lia.
Qed.

Lemma rc_acct t : forall q a t' a', rc t q a = (t', a') -> shrinks t a t' a'.
Proof.
  intros q a.
  induction t as [|i p v l r E|i p v l r E Hs|i p v l r ci cp cv cl cr E Ec C IH] using (descent_ind q);
    intros t' a' H; [cbn in H|rewrite rc_node, E in H; cbv zeta in H..].
  - injection H as <- <-. apply shrinks_refl.
  - injection H as <- <-. apply shrinks_refl.
  - destruct (child_of l r (to_right p q)) as [|ci cp cv cl cr] eqn:Ec; [injection H as <- <-; apply shrinks_refl|].
    rewrite Hs in H. destruct (contains q cp); injection H as <- <-; [|apply shrinks_refl].
    eapply shrinks_child; [exact Ec|]. exact (free_all_shrinks (Node ci cp cv cl cr) a).
  - rewrite Ec, C in H. destruct (peq cp q).
    + injection H as <- <-. eapply shrinks_child; [exact Ec|]. exact (free_all_shrinks (Node ci cp cv cl cr) a).
    + destruct (rc (Node ci cp cv cl cr) q a) as [c' a1] eqn:R. injection H as <- <-.
      eapply shrinks_child; [exact Ec|]. apply IH. reflexivity.
Qed.

Theorem rc_storage t q a t' a' :
  rc t q a = (t', a') ->
  Permutation (ids t' ++ free a') (ids t ++ free a) /\
  alen a' = alen a /\
  (count a' - count a = nentries t' - nentries t)%Z /\
  length (ids t') <= length (ids t).
Proof.
  intros H. pose proof (rc_acct _ _ _ _ _ H) as A.
  apply shrinks_storage in A. tauto.
Qed.

Theorem rc_slots_ok t q a t' a' : rc t q a = (t', a') -> slots_ok t a -> slots_ok t' a'.
Proof. intros H. eapply shrinks_slots. eapply rc_acct; eauto. Qed.

Lemma ret_acct f t hp s t' st s' : ret f hp t s = (t', st, s') ->
  shrinks t (fst s) t' (fst s') /\ (st = RDone true -> t' = Leaf) /\
  (hp = false -> t <> Leaf -> t' <> Leaf).
Proof.
  intros H. apply ret_graph_sound in H. destruct (ret_run pfx V f H) as (cv & rest & S & _).
  destruct (shr_acct S) as (A & B & C). split; [exact A|]. split; [intros ->; exact (B eq_refl) | exact C].
Qed.

Theorem ret_storage f hp t a log t' st a' log' :
  ret f hp t (a, log) = (t', st, (a', log')) ->
  Permutation (ids t' ++ free a') (ids t ++ free a) /\
  alen a' = alen a /\
  (count a' - count a = nentries t' - nentries t)%Z /\
  length (ids t') <= length (ids t) /\
  (st = RDone true -> t' = Leaf) /\ (hp = false -> t <> Leaf -> t' <> Leaf).
Proof.
  intros H. destruct (ret_acct _ _ _ _ _ _ _ H) as (A & B & C). cbn [fst] in A.
  apply shrinks_storage in A. tauto.
Qed.

Theorem ret_slots_ok f hp t a log t' st a' log' :
  ret f hp t (a, log) = (t', st, (a', log')) -> slots_ok t a -> slots_ok t' a'.
Proof.
  intros H. destruct (ret_acct _ _ _ _ _ _ _ H) as (A & _). cbn [fst] in A.
  eapply shrinks_slots; eauto.
Qed.

Lemma shrinks_cinv t a t' a' : shrinks t a t' a' -> count a = nentries t -> count a' = nentries t'.
Proof. intros S. exact (moved_cinv _ _ _ _ _ _ S I). Qed.

Lemma slots_once t a : slots_ok t a -> forall z, cnt (ids t) z + cnt (free a) z <= 1.
Proof.
  intros S z. rewrite slots_ok_cnt in S. rewrite S. apply (NoDup_count_occ N.eq_dec). apply NoDup_seqN.
Qed.

Theorem slots_nodup t a : slots_ok t a -> NoDup (ids t).
Proof.
  intros S. apply (NoDup_count_occ N.eq_dec). intros z. pose proof (slots_once t a S z). lia.
Qed.

Theorem slots_free_nodup t a : slots_ok t a -> NoDup (free a).
Proof.
  intros S. apply (NoDup_count_occ N.eq_dec). intros z. pose proof (slots_once t a S z). lia.
Qed.

Theorem slots_disjoint t a : slots_ok t a -> forall i, In i (ids t) -> ~ In i (free a).
Proof.
  intros S i H1 H2. pose proof (slots_once t a S i).
  apply (count_occ_In N.eq_dec) in H1. apply (count_occ_In N.eq_dec) in H2. lia.
Qed.

Theorem slots_range t a : slots_ok t a ->
  forall i, (i < alen a)%N <-> In i (ids t) \/ In i (free a).
Proof.
  intros S i. rewrite <- in_seqN, <- in_app_iff. split; apply Permutation_in.
  - apply Permutation_sym. exact S.
  - exact S.
Qed.

Theorem minv_partition m : minv m ->
  NoDup (ids (root m)) /\ NoDup (free (al m)) /\
  (forall i, In i (ids (root m)) -> ~ In i (free (al m))) /\
  (forall i, (i < alen (al m))%N <-> In i (ids (root m)) \/ In i (free (al m))) /\
  alen (al m) = (nnodes (root m) + N.of_nat (length (free (al m))))%N.
Proof.
  intros S. split; [exact (slots_nodup _ _ S)|]. split; [exact (slots_free_nodup _ _ S)|].
  split; [exact (slots_disjoint _ _ S)|]. split; [exact (slots_range _ _ S)|].
  unfold minv, nnodes in *. apply slots_len in S. lia.
Qed.

Theorem alen_bounded m : minv m ->
  (nnodes (root m) <= alen (al m))%N /\
  (alen (al m) = nnodes (root m) + N.of_nat (length (free (al m))))%N.
Proof. unfold minv, nnodes. intros S. apply slots_len in S. lia. Qed.

Theorem minv_empty : minv empty.
Proof. unfold minv, slots_ok. cbn. apply Permutation_refl. Qed.

Theorem cinv_empty : cinv empty.
Proof. reflexivity. Qed.

Lemma insert_acct m q x :
  acct_post True (root m) (al m) (root (fst (insert m q x))) (al (fst (insert m q x))).
Proof.
  unfold Trie.insert. destruct (ins (root m) q x (al m)) as [[t o] a] eqn:H. cbn [fst root al].
  eapply ins_acct; exact H.
Qed.

Theorem insert_minv m q x : minv m -> minv (fst (insert m q x)).
Proof. unfold minv. apply bal_slots. apply insert_acct. Qed.

Theorem insert_cinv m q x : cinv m -> cinv (fst (insert m q x)).
Proof. unfold cinv. exact (moved_cinv _ _ _ _ _ _ (insert_acct m q x) I). Qed.

Theorem insert_alen m q x : minv m ->
  alen (al (fst (insert m q x))) = N.max (alen (al m)) (nnodes (root (fst (insert m q x)))).
Proof. exact (acct_max (insert_acct m q x)). Qed.

Theorem insert_alen_le m q x : (alen (al m) <= alen (al (fst (insert m q x))))%N.
Proof. apply (insert_acct m q x). Qed.

Lemma remove_shrinks m q : shrinks (root m) (al m) (root (fst (remove m q))) (al (fst (remove m q))).
Proof.
  unfold Trie.remove. destruct (rem false (root m) q (al m)) as [[[t fl] o] a] eqn:H.
  cbn [fst root al]. eapply rem_acct; eauto.
Qed.

Theorem remove_minv m q : minv m -> minv (fst (remove m q)).
Proof. unfold minv. eapply shrinks_slots. apply remove_shrinks. Qed.

Theorem remove_cinv m q : cinv m -> cinv (fst (remove m q)).
Proof. unfold cinv. eapply shrinks_cinv. apply remove_shrinks. Qed.

Theorem remove_alen m q : alen (al (fst (remove m q))) = alen (al m).
Proof. apply (remove_shrinks m q). Qed.

Theorem remove_nnodes m q : (nnodes (root (fst (remove m q))) <= nnodes (root m))%N.
Proof. destruct (shrinks_storage _ _ _ _ (remove_shrinks m q)) as (_ & _ & _ & L). unfold nnodes. lia. Qed.

Theorem remove_root m q : root m <> Leaf -> root (fst (remove m q)) <> Leaf.
Proof.
  unfold Trie.remove. destruct (rem false (root m) q (al m)) as [[[t fl] o] a] eqn:H.
  cbn [fst root]. destruct (rem_acct H) as (_ & _ & C). apply C. reflexivity.
Qed.

Lemma get_node_get t q : get t q = match get_node t q with Some (_, _, v) => v | None => None end.
Proof. reflexivity. Qed.

Lemma dec_if_free {A} (o : option A) a : free (dec_if o a) = free a.
Proof. destruct o; reflexivity. Qed.
Lemma dec_if_alen {A} (o : option A) a : alen (dec_if o a) = alen a.
Proof. destruct o; reflexivity. Qed.
Lemma dec_if_count {A} (o : option A) a : count (dec_if o a) = (count a - Z.of_nat (ownn o))%Z.
Proof. destruct o; cbn [dec_if add_count count ownn]; lia. Qed.

Lemma slots_ok_ext t a t' a' :
  ids t' = ids t -> free a' = free a -> alen a' = alen a -> slots_ok t a -> slots_ok t' a'.
Proof. unfold slots_ok. intros -> -> ->. exact (fun H => H). Qed.

Lemma take_value_count t q a :
  (count (dec_if (get t q) a) - count a
   = nentries (modify t q (fun p _ => (p, None))) - nentries t)%Z.
Proof.
  rewrite dec_if_count. unfold Trie.get, nentries.
  pose proof (modify_entries t q (fun p _ => (p, None))) as M.
  destruct (get_node t q) as [[[j pj] vj]|].
  - cbn [snd ownn] in M. lia.
  - rewrite M. cbn [ownn]. lia.
Qed.

Lemma remove_keep_tree_shrinks m q :
  shrinks (root m) (al m) (root (fst (remove_keep_tree m q))) (al (fst (remove_keep_tree m q))).
Proof.
  unfold Trie.remove_keep_tree. cbn [fst root al].
  apply ids_stays; [apply modify_ids | apply dec_if_free | apply dec_if_alen | intros _; apply take_value_count].
Qed.

Theorem remove_keep_tree_minv m q : minv m -> minv (fst (remove_keep_tree m q)).
Proof.
  unfold minv, Trie.remove_keep_tree. cbn [fst root al].
  apply slots_ok_ext; [apply modify_ids | apply dec_if_free | apply dec_if_alen].
Qed.

Theorem remove_keep_tree_cinv m q : cinv m -> cinv (fst (remove_keep_tree m q)).
Proof. unfold cinv. apply shrinks_cinv, remove_keep_tree_shrinks. Qed.

Theorem remove_keep_tree_alen m q : alen (al (fst (remove_keep_tree m q))) = alen (al m).
Proof. unfold Trie.remove_keep_tree. cbn [fst al]. apply dec_if_alen. Qed.

Theorem occ_remove_minv m q : minv m -> minv (fst (occ_remove m q)).
Proof. exact (remove_keep_tree_minv m q). Qed.

(** holds for every handle, occupied or not; with [get (root m) q = Some y] both the counter and
    the number of entries drop by one ([occ_remove_len]) *)
Theorem occ_remove_cinv m q : cinv m -> cinv (fst (occ_remove m q)).
Proof. exact (remove_keep_tree_cinv m q). Qed.

Theorem occ_remove_len m q y : get (root m) q = Some y ->
  count (al (fst (occ_remove m q))) = (count (al m) - 1)%Z /\
  nentries (root (fst (occ_remove m q))) = (nentries (root m) - 1)%Z.
Proof.
  intros G. unfold Trie.occ_remove. cbn [fst root al].
  pose proof (take_value_count (root m) q (al m)) as T. rewrite G in *.
  cbn [dec_if add_count count] in *. lia.
Qed.

Theorem occ_remove_alen m q : alen (al (fst (occ_remove m q))) = alen (al m).
Proof. exact (remove_keep_tree_alen m q). Qed.

(** replacing an existing value leaves the number of entries unchanged.  The hypothesis is
    needed: on a value-less node the write creates an entry but the counter is not touched. *)
Theorem occ_insert_entries t q x : get t q <> None ->
  nentries (modify t q (fun _ _ => (q, Some x))) = nentries t.
Proof.
  unfold Trie.get, nentries. intros G.
  pose proof (modify_entries t q (fun _ _ => (q, Some x))) as M.
  destruct (get_node t q) as [[[j pj] vj]|]; [|congruence].
  destruct vj; [|congruence]. cbn [snd ownn] in M. lia.
Qed.

Lemma occ_insert_stays m q x :
  moved stays (get (root m) q <> None) (root m) (al m) (root (fst (occ_insert m q x))) (al (fst (occ_insert m q x))).
Proof.
  unfold Trie.occ_insert. cbn [fst root al]. apply ids_stays; try reflexivity; [apply modify_ids|].
  intros G. rewrite occ_insert_entries by exact G. lia.
Qed.

Theorem occ_insert_minv m q x : minv m -> minv (fst (occ_insert m q x)).
Proof.
  unfold minv, Trie.occ_insert. cbn [fst root al]. apply slots_ok_ext; try reflexivity.
  apply modify_ids.
Qed.

Theorem occ_insert_cinv m q x : get (root m) q <> None -> cinv m -> cinv (fst (occ_insert m q x)).
Proof. unfold cinv. eapply moved_cinv, occ_insert_stays. Qed.

Theorem occ_insert_alen m q x : alen (al (fst (occ_insert m q x))) = alen (al m).
Proof. reflexivity. Qed.

Lemma update_value_shrinks m q g : shrinks (root m) (al m) (root (update_value m q g)) (al (update_value m q g)).
Proof.
  unfold Trie.update_value. cbn [root al]. apply ids_stays; try reflexivity; [apply modify_ids|].
  intros _. unfold nentries. pose proof (modify_entries (root m) q (fun p v => (p, option_map g v))) as M.
  destruct (get_node (root m) q) as [[[j pj] [y|]]|]; [cbn [snd option_map ownn] in M; lia .. | rewrite M; lia].
Qed.

Theorem update_value_minv m q g : minv m -> minv (update_value m q g).
Proof.
  unfold minv, Trie.update_value. cbn [root al]. apply slots_ok_ext; try reflexivity.
  apply modify_ids.
Qed.

Theorem update_value_cinv m q g : cinv m -> cinv (update_value m q g).
Proof. unfold cinv. apply shrinks_cinv, update_value_shrinks. Qed.

Theorem update_value_alen m q g : alen (al (update_value m q g)) = alen (al m).
Proof. reflexivity. Qed.

Theorem clear_minv m : minv (clear m).
Proof. exact minv_empty. Qed.

Theorem clear_cinv m : cinv (clear m).
Proof. exact cinv_empty. Qed.

Theorem remove_children_minv m q : minv m -> minv (remove_children m q).
Proof.
  unfold Trie.remove_children. destruct (plen q =? 0)%N; [intros _; apply clear_minv|].
  unfold minv. destruct (rc (root m) q (al m)) as [t a] eqn:H. cbn [root al].
  eapply rc_slots_ok; eauto.
Qed.

Theorem remove_children_cinv m q : cinv m -> cinv (remove_children m q).
Proof.
  unfold Trie.remove_children. destruct (plen q =? 0)%N; [intros _; apply clear_cinv|].
  unfold cinv. destruct (rc (root m) q (al m)) as [t a] eqn:H. cbn [root al].
  eapply shrinks_cinv. eapply rc_acct; eauto.
Qed.

(** [clear] resets the arena to the single root slot; otherwise the length is untouched *)
Theorem remove_children_alen m q :
  alen (al (remove_children m q)) = if (plen q =? 0)%N then 1%N else alen (al m).
Proof.
  unfold Trie.remove_children. destruct (plen q =? 0)%N; [reflexivity|].
  destruct (rc (root m) q (al m)) as [t a] eqn:H. cbn [root al].
  apply (rc_acct _ _ _ _ _ H).
Qed.

Lemma retain_shrinks f m :
  shrinks (root m) (al m) (root (fst (fst (retain f m)))) (al (fst (fst (retain f m)))).
Proof.
  unfold Trie.retain. destruct (ret f false (root m) (al m, [])) as [[t st] [a lg]] eqn:H.
  cbn [fst root al]. apply (ret_acct _ _ _ _ _ _ _ H).
Qed.

Theorem retain_minv f m : minv m -> minv (fst (fst (retain f m))).
Proof. unfold minv. eapply shrinks_slots. apply retain_shrinks. Qed.

Theorem retain_cinv f m : cinv m -> cinv (fst (fst (retain f m))).
Proof. unfold cinv. eapply shrinks_cinv. apply retain_shrinks. Qed.

Theorem retain_alen f m : alen (al (fst (fst (retain f m)))) = alen (al m).
Proof. apply (retain_shrinks f m). Qed.

Theorem retain_root f m : root m <> Leaf -> root (fst (fst (retain f m))) <> Leaf.
Proof.
  unfold Trie.retain. destruct (ret f false (root m) (al m, [])) as [[t st] [a lg]] eqn:H.
  cbn [fst root]. destruct (ret_acct _ _ _ _ _ _ _ H) as (_ & _ & C). apply C. reflexivity.
Qed.

Lemma vacant_insert_acct m q x :
  acct_post (get (root m) q = None) (root m) (al m) (root (vacant_insert m q x)) (al (vacant_insert m q x)).
Proof.
  unfold Trie.vacant_insert. destruct (vins (root m) q x (al m)) as [t a] eqn:H. cbn [root al].
  eapply vins_acct; exact H.
Qed.

Theorem vacant_insert_minv m q x : minv m -> minv (vacant_insert m q x).
Proof. unfold minv. apply bal_slots. apply vacant_insert_acct. Qed.

Theorem vacant_insert_cinv m q x :
  get (root m) q = None -> cinv m -> cinv (vacant_insert m q x).
Proof. unfold cinv. eapply moved_cinv, vacant_insert_acct. Qed.

Theorem vacant_insert_alen m q x : minv m ->
  alen (al (vacant_insert m q x)) = N.max (alen (al m)) (nnodes (root (vacant_insert m q x))).
Proof. exact (acct_max (vacant_insert_acct m q x)). Qed.

Lemma fold_insert_inv (l : list (pfx * V)) : forall m, minv m -> cinv m ->
  let m' := fold_left (fun m e => fst (insert m (fst e) (snd e))) l m in minv m' /\ cinv m'.
Proof.
  induction l as [|e l IH]; intros m M C; cbn [fold_left].
  - split; assumption.
  - apply IH; [apply insert_minv|apply insert_cinv]; assumption.
Qed.

Theorem from_list_minv l : minv (from_list l).
Proof. apply (fold_insert_inv l empty minv_empty cinv_empty). Qed.

Theorem from_list_cinv l : cinv (from_list l).
Proof. apply (fold_insert_inv l empty minv_empty cinv_empty). Qed.

Lemma insert_free_nil m q x : free (al m) = [] -> free (al (fst (insert m q x))) = [].
Proof. apply (insert_acct m q x). Qed.

Lemma from_list_free l : free (al (from_list l)) = [].
Proof.
  unfold Trie.from_list. assert (H0 : free (al empty) = []) by reflexivity. revert H0. generalize empty as m.
  induction l as [|e l IH]; intros m H0; cbn [fold_left]; [exact H0|]. apply IH, insert_free_nil, H0.
Qed.

(** * Churn — freed slots are reused before the arena grows *)

Theorem reuse_before_grow m q x : minv m ->
  let m' := fst (insert m q x) in
  (nnodes (root m') <= alen (al m))%N -> alen (al m') = alen (al m).
Proof. intros M m' H. subst m'. rewrite insert_alen by exact M. lia. Qed.

(** in particular: an insertion with a non-empty free list that needs one slot (every placement
    but NewBranch), or with two free slots, never grows the arena *)
Theorem reuse_free_slots m q x : minv m ->
  let m' := fst (insert m q x) in
  (nnodes (root m') <= nnodes (root m) + N.of_nat (length (free (al m))))%N ->
  alen (al m') = alen (al m).
Proof.
  intros M m' H. apply reuse_before_grow; [exact M|].
  destruct (alen_bounded m M) as [_ E]. fold m'. lia.
Qed.

Theorem clear_alen m : alen (al (clear m)) = 1%N.
Proof. reflexivity. Qed.

(** ** Over any sequence of insertions and removals the arena length is exactly the high-water mark
    of the number of live nodes.  [op], [step], [step_minv], [step_cinv] below are over these four
    operations; for the full alphabet [History.op] see [History.step_minv], [HistoryExtra.step_cinv]
    and [HistoryExtra.high_water_noreset]. *)

Inductive op :=
| OIns (q : pfx) (x : V)
| ORem (q : pfx)
| ORemKeep (q : pfx)
| ORetain (f : nat -> pfx -> V -> option bool).

Definition step (o : op) (m : pmap) : pmap :=
  match o with
  | OIns q x => fst (insert m q x)
  | ORem q => fst (remove m q)
  | ORemKeep q => fst (remove_keep_tree m q)
  | ORetain f => fst (fst (retain f m))
  end.

Fixpoint run_ops (ops : list op) (m : pmap) : pmap :=
  match ops with [] => m | o :: ops' => run_ops ops' (step o m) end.

(** the largest number of nodes of any state visited *)
Fixpoint peak (ops : list op) (m : pmap) : N :=
  match ops with
  | [] => nnodes (root m)
  | o :: ops' => N.max (nnodes (root m)) (peak ops' (step o m))
  end.

Lemma step_minv o m : minv m -> minv (step o m).
Proof.
  destruct o; cbn [step].
  - apply insert_minv.
  - apply remove_minv.
  - apply remove_keep_tree_minv.
  - apply retain_minv.
Qed.

Lemma step_cinv o m : cinv m -> cinv (step o m).
Proof.
  destruct o; cbn [step].
  - apply insert_cinv.
  - apply remove_cinv.
  - apply remove_keep_tree_cinv.
  - apply retain_cinv.
Qed.

Lemma peak_ge ops m : (nnodes (root m) <= peak ops m)%N.
Proof. destruct ops; cbn [peak]; lia. Qed.

Theorem run_ops_inv ops : forall m, minv m -> cinv m -> minv (run_ops ops m) /\ cinv (run_ops ops m).
Proof.
  induction ops as [|o ops IH]; intros m M C; cbn [run_ops].
  - split; assumption.
  - apply IH; [apply step_minv|apply step_cinv]; assumption.
Qed.

Theorem churn_high_water ops : forall m, minv m ->
  alen (al (run_ops ops m)) = N.max (alen (al m)) (peak ops m).
Proof.
  induction ops as [|o ops IH]; intros m M; cbn [run_ops peak].
  - destruct (alen_bounded m M) as [B _]. lia.
  - rewrite (IH _ (step_minv o m M)).
    destruct (alen_bounded m M) as [B _].
    pose proof (peak_ge ops (step o m)) as P.
    assert (E : alen (al (step o m)) = alen (al m) \/
                alen (al (step o m)) = N.max (alen (al m)) (nnodes (root (step o m)))).
    { destruct o; cbn [step].
      - right. apply insert_alen. exact M.
      - left. apply remove_alen.
      - left. apply remove_keep_tree_alen.
      - left. apply retain_alen. }
    destruct E as [E|E]; rewrite E; lia.
Qed.

Corollary churn_from_empty ops : alen (al (run_ops ops empty)) = peak ops empty.
Proof.
  rewrite (churn_high_water ops empty minv_empty).
  pose proof (peak_ge ops empty) as P. cbn in P |- *. lia.
Qed.

End SL.

Print Assumptions ins_slots_ok.
Print Assumptions ins_count.
Print Assumptions ins_alen_max.
Print Assumptions ins_alen_le.
Print Assumptions vins_slots_ok.
Print Assumptions vins_count.
Print Assumptions vins_alen_max.
Print Assumptions vins_alen_le.
Print Assumptions modify_ids.
Print Assumptions modify_entries.
Print Assumptions write_ids_ids.
Print Assumptions write_ids_entries.
Print Assumptions subst_ids.
Print Assumptions remove_self_storage.
Print Assumptions absorb_storage.
Print Assumptions rem_storage.
Print Assumptions rem_slots_ok.
Print Assumptions free_all_storage.
Print Assumptions rc_storage.
Print Assumptions rc_slots_ok.
Print Assumptions ret_storage.
Print Assumptions ret_slots_ok.
Print Assumptions slots_nodup.
Print Assumptions slots_free_nodup.
Print Assumptions slots_disjoint.
Print Assumptions slots_range.
Print Assumptions alen_bounded.
Print Assumptions minv_empty.
Print Assumptions cinv_empty.
Print Assumptions insert_minv.
Print Assumptions insert_cinv.
Print Assumptions insert_alen.
Print Assumptions insert_alen_le.
Print Assumptions remove_minv.
Print Assumptions remove_cinv.
Print Assumptions remove_alen.
Print Assumptions remove_nnodes.
Print Assumptions remove_root.
Print Assumptions remove_keep_tree_minv.
Print Assumptions remove_keep_tree_cinv.
Print Assumptions remove_keep_tree_alen.
Print Assumptions occ_remove_minv.
Print Assumptions occ_remove_cinv.
Print Assumptions occ_remove_len.
Print Assumptions occ_remove_alen.
Print Assumptions occ_insert_minv.
Print Assumptions occ_insert_entries.
Print Assumptions occ_insert_cinv.
Print Assumptions occ_insert_alen.
Print Assumptions update_value_minv.
Print Assumptions update_value_cinv.
Print Assumptions update_value_alen.
Print Assumptions clear_minv.
Print Assumptions clear_cinv.
Print Assumptions remove_children_minv.
Print Assumptions remove_children_cinv.
Print Assumptions remove_children_alen.
Print Assumptions retain_minv.
Print Assumptions retain_cinv.
Print Assumptions retain_alen.
Print Assumptions retain_root.
Print Assumptions vacant_insert_minv.
Print Assumptions vacant_insert_cinv.
Print Assumptions vacant_insert_alen.
Print Assumptions from_list_minv.
Print Assumptions from_list_cinv.
Print Assumptions reuse_before_grow.
Print Assumptions reuse_free_slots.
Print Assumptions clear_alen.
Print Assumptions run_ops_inv.
Print Assumptions churn_high_water.
Print Assumptions churn_from_empty.
