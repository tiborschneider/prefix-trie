(** C18 stated directly about the ARENA transcription: keys are identified by their network part;
    the stored representation is the one passed to the last inserting call.

    - [arena_C18_key_only]: two VALID representations [q], [q'] of one key (same [bits], i.e. same
      length and same masked address — they may differ in host bits) give literally the same result in
      every lookup and selection of the arena-level code, on every reachable arena.
    - [arena_C18_insert_stores_repr]: after the arena-level [insert q x] / [entry(q).insert(x)], looking
      up ANY representation [q'] of the key returns the pair [(q, x)]: the representation passed to the
      call — not the one stored before, not the query's. *)
From Coq Require Import List ZArith.
From PT Require Import Laws Trie Slots Refine2 KeyCongr Arena ArenaThm Arena2 Arena2Thm Arena3 Arena3Thm ArenaProps.
Import ListNotations.

Section AK.
Variables (pfx V : Type).
Variables (peq contains : pfx -> pfx -> bool) (is_bit_set : pfx -> N -> bool)
          (plen : pfx -> N) (lcp : pfx -> pfx -> pfx) (pzero : pfx)
          (mcmp : pfx -> pfx -> comparison).
Variable bits : pfx -> list bool.
Variable ok : pfx -> Prop.
Hypothesis LAWS : prefix_laws pfx peq contains is_bit_set plen lcp pzero mcmp bits ok.

Notation areach := (ArenaProps.areach pfx V peq contains is_bit_set plen lcp pzero ok).
Notation a_get := (Arena.a_get pfx V peq contains is_bit_set plen).
Notation a_get_lpm := (Arena.a_get_lpm pfx V peq contains is_bit_set plen).
Notation a_insert := (Arena.a_insert pfx V peq contains is_bit_set plen lcp).
Notation a_entry_insert := (Arena2.a_entry_insert pfx V peq contains is_bit_set plen lcp).
Notation a_get_key_value := (Arena3.a_get_key_value pfx V peq contains is_bit_set plen).
Notation a_contains_key := (Arena3.a_contains_key pfx V peq contains is_bit_set plen).
Notation a_get_lpm_prefix := (Arena3.a_get_lpm_prefix pfx V peq contains is_bit_set plen).
Notation a_get_lpm_mut := (Arena3.a_get_lpm_mut pfx V peq contains is_bit_set plen).
Notation a_get_spm := (Arena3.a_get_spm pfx V peq contains is_bit_set plen).
Notation a_get_spm_prefix := (Arena3.a_get_spm_prefix pfx V peq contains is_bit_set plen).
Notation a_cover := (Arena3.a_cover pfx V peq contains is_bit_set plen).
Notation a_children := (Arena3.a_children pfx V peq contains is_bit_set plen).
Notation a_step2 := (Arena2.a_step2 pfx V peq contains is_bit_set plen lcp pzero).
Notation t_step2 := (Arena2.t_step2 pfx V peq contains is_bit_set plen lcp pzero).
Notation aop2_ok := (ArenaProps.aop2_ok pfx V ok).
Notation Rep := (ArenaThm.Rep pfx V).

Theorem arena_C18_key_only am q q' : areach am -> ok q -> ok q' -> bits q = bits q' ->
  a_get am q = a_get am q' /\ a_get_key_value am q = a_get_key_value am q' /\
  a_contains_key am q = a_contains_key am q' /\
  a_get_lpm am q = a_get_lpm am q' /\ a_get_lpm_prefix am q = a_get_lpm_prefix am q' /\
  a_get_lpm_mut am q = a_get_lpm_mut am q' /\
  a_get_spm am q = a_get_spm am q' /\ a_get_spm_prefix am q = a_get_spm_prefix am q' /\
  a_cover am q = a_cover am q' /\ a_children am q = a_children am q'.
Proof.
  intros H Hq Hq' E.
  destruct (ArenaProps.areach_Rep pfx V peq contains is_bit_set plen lcp pzero mcmp bits ok LAWS am H) as (m & R & M & W).
  pose proof (KeyCongr.wf_root_nodes_ok pfx V bits ok (root m) W) as Hn.
  repeat split.
  - rewrite !(ArenaThm.get_sim pfx V peq contains is_bit_set plen lcp pzero am m _ R M). f_equal.
    exact (KeyCongr.get_congr pfx V peq contains is_bit_set plen lcp pzero mcmp bits ok LAWS q q' Hq Hq' E (root m) Hn).
  - rewrite !(Arena3Thm.get_key_value_sim pfx V peq contains is_bit_set plen lcp pzero am m _ R). f_equal.
    exact (KeyCongr.get_key_value_congr pfx V peq contains is_bit_set plen lcp pzero mcmp bits ok LAWS q q' Hq Hq' E (root m) Hn).
  - rewrite !(Arena3Thm.contains_key_sim pfx V peq contains is_bit_set plen lcp pzero am m _ R). f_equal.
    exact (KeyCongr.contains_key_congr pfx V peq contains is_bit_set plen lcp pzero mcmp bits ok LAWS q q' Hq Hq' E (root m) Hn).
  - rewrite !(ArenaThm.get_lpm_sim pfx V peq contains is_bit_set plen lcp pzero am m _ R M). f_equal.
    exact (KeyCongr.get_lpm_congr pfx V peq contains is_bit_set plen lcp pzero mcmp bits ok LAWS q q' Hq Hq' E (root m) Hn).
  - rewrite !(Arena3Thm.get_lpm_prefix_sim pfx V peq contains is_bit_set plen lcp pzero am m _ R). f_equal.
    exact (KeyCongr.get_lpm_prefix_congr pfx V peq contains is_bit_set plen lcp pzero mcmp bits ok LAWS q q' Hq Hq' E (root m) Hn).
  - rewrite !(Arena3Thm.get_lpm_mut_sim pfx V peq contains is_bit_set plen lcp pzero am m _ R). f_equal.
    exact (KeyCongr.get_lpm_mut_congr pfx V peq contains is_bit_set plen lcp pzero mcmp bits ok LAWS q q' Hq Hq' E (root m) Hn).
  - rewrite !(Arena3Thm.get_spm_sim pfx V peq contains is_bit_set plen lcp pzero am m _ R). f_equal.
    exact (KeyCongr.get_spm_congr pfx V peq contains is_bit_set plen lcp pzero mcmp bits ok LAWS q q' Hq Hq' E (root m) Hn).
  - rewrite !(Arena3Thm.get_spm_prefix_sim pfx V peq contains is_bit_set plen lcp pzero am m _ R). f_equal.
    exact (KeyCongr.get_spm_prefix_congr pfx V peq contains is_bit_set plen lcp pzero mcmp bits ok LAWS q q' Hq Hq' E (root m) Hn).
  - rewrite !(Arena3Thm.cover_walk_sim pfx V peq contains is_bit_set plen lcp pzero am m _ R). f_equal.
    exact (KeyCongr.cover_walk_congr pfx V peq contains is_bit_set plen lcp pzero mcmp bits ok LAWS q q' Hq Hq' E (root m) Hn).
  - rewrite !(Arena3Thm.children_sim pfx V peq contains is_bit_set plen lcp pzero am m _ R M). f_equal. f_equal.
    exact (KeyCongr.children_start_congr pfx V peq contains is_bit_set plen lcp pzero mcmp bits ok LAWS q q' Hq Hq' E (root m) Hn).
Qed.

Lemma after_step o am am' m q' : areach am -> aop2_ok o -> a_step2 o am = Ok am' -> Rep am' (t_step2 o m) ->
  areach am' /\ a_get_key_value am' q' = Ok (Trie.get_key_value pfx V peq contains is_bit_set plen (root (t_step2 o m)) q').
Proof.
  intros H Ho ST R'.
  split; [exact (ArenaProps.areach_step pfx V peq contains is_bit_set plen lcp pzero ok o am am' H Ho ST)|].
  exact (Arena3Thm.get_key_value_sim pfx V peq contains is_bit_set plen lcp pzero am' _ q' R').
Qed.

Theorem arena_C18_insert_stores_repr am q q' x : areach am -> ok q -> ok q' -> bits q' = bits q ->
  (exists am' o, a_insert am q x = Ok (am', o) /\ areach am' /\ a_get_key_value am' q' = Ok (Some (q, x))) /\
  (exists am' o, a_entry_insert am q x = Ok (am', o) /\ areach am' /\ a_get_key_value am' q' = Ok (Some (q, x))).
Proof.
  intros H Hq Hq' E.
  destruct (ArenaProps.areach_Rep pfx V peq contains is_bit_set plen lcp pzero mcmp bits ok LAWS am H) as (m & R & M & W).
  destruct (Refine2.insert_stores_repr_full pfx V peq contains is_bit_set plen lcp pzero mcmp bits ok LAWS m q q' x W Hq Hq' E)
    as (I1 & I2 & _).
  split.
  - destruct (ArenaThm.insert_sim pfx V peq contains is_bit_set plen lcp pzero am m q x R M) as (am' & EI & R').
    assert (ST : a_step2 (AOld (AIns q x)) am = Ok am') by (cbn [Arena2.a_step2 Arena.a_step]; rewrite EI; reflexivity).
    destruct (after_step (AOld (AIns q x)) am am' m q' H Hq ST R') as (H' & G).
    eexists am', _. split; [exact EI|]. split; [exact H'|]. rewrite G. f_equal. exact I1.
  - destruct (Arena2Thm.entry_insert_sim pfx V peq contains is_bit_set plen lcp pzero am m q x R M) as (am' & EI & R').
    assert (ST : a_step2 (AEntryIns q x) am = Ok am') by (cbn [Arena2.a_step2]; rewrite EI; reflexivity).
    destruct (after_step (AEntryIns q x) am am' m q' H Hq ST R') as (H' & G).
    eexists am', _. split; [exact EI|]. split; [exact H'|]. rewrite G. f_equal.
    rewrite (ArenaProps.t_step2_hop pfx V peq contains is_bit_set plen lcp pzero (AEntryIns q x) m eq_refl). exact I2.
Qed.

End AK.

Print Assumptions arena_C18_key_only.
Print Assumptions arena_C18_insert_stores_repr.
