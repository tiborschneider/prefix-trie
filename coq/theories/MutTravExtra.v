(** Mutable traversals, continued (supplement to [MutTrav.v], used by Properties/C13 and C14).

    PART A (Section XA, no prefix operation): pointwise readings of [write_ids]; [value_mut] as a
      [write_ids]; order-preserving interleavings of two workers' writes; a view none of whose
      slots is written sees no change.
    PART A' (Section XA from [vm_step] on, prefix operations, no law): the mutable views derived from one view by
      [find*]/[left]/[right] stay inside its slot set, the two halves of a split are disjoint; the
      structural writes of two views at incomparable paths ([set]/[remove]/[value_mut]) commute;
      the keyed reads ([get], [get_key_value], [get_lpm]) after a write.
    PART B (Sections XSO, XD, prefix laws): the references yielded by the four [*_mut] set
      operations are items of their operands, pairwise distinct on either side (the distinctness
      argument, between Sections XA and XSO, is [keyed_slots_nodup]: items with strictly ascending keys
      whose references designate entries of a tree with distinct slots carry distinct slots); [get] of any
      representation of a key after a write; every reachable state has pairwise distinct slots;
      sub-views are well formed; over two disjoint sub-views of one map the references of a [*_mut]
      set operation are disjoint between the two sides. *)
From Coq Require Import List NArith ZArith Bool Sorted Permutation Relations.
From PT Require Import Bits BitsThm Laws Trie Views TrieWf Lookup Lookup2 Slots MutTrav UnionThm
                       SetOpsExtra History.
Import ListNotations.

Section XA.
Variables (pfx V : Type).
Notation tree := (Trie.tree pfx V).
Notation ids := (Slots.ids pfx V).
Notation slot3 := (MutTrav.slot3 pfx V).
Notation vmut := (Views.vmut pfx).
Notation mpath := (Views.mpath pfx).
Notation mvirt := (Views.mvirt pfx).

(** the value an item holds after the write list [ws] was applied: the value component of [MutTrav.upd] *)
Definition newval (ws : list (N * V)) (i : N) (x : V) : V :=
  match assoc_id ws i with Some y => y | None => x end.

Theorem write_ids_entries_id_newval (t : tree) ws :
  entries_id (write_ids t ws) = map (fun '(i, p, x) => (i, p, newval ws i x)) (entries_id t).
Proof. exact (write_ids_entries_id_upd pfx V t ws). Qed.

Corollary write_ids_entries_newval (t : tree) ws :
  entries (write_ids t ws) = map (fun '(i, p, x) => (p, newval ws i x)) (entries_id t).
Proof.
  rewrite <- (entries_id_entries pfx V), write_ids_entries_id_newval, map_map. apply map_ext.
  intros [[i p] x]. reflexivity.
Qed.

Theorem write_ids_written (t : tree) ws i p x y :
  In (i, p, x) (entries_id t) -> assoc_id ws i = Some y -> In (i, p, y) (entries_id (write_ids t ws)).
Proof.
  intros Hin Ha. rewrite write_ids_entries_id_newval. apply in_map_iff. exists (i, p, x).
  split; [unfold newval; rewrite Ha; reflexivity | exact Hin].
Qed.

Theorem write_ids_untouched (t : tree) ws i p x :
  In (i, p, x) (entries_id t) -> ~ In i (map fst ws) -> In (i, p, x) (entries_id (write_ids t ws)).
Proof.
  intros Hin Hn. rewrite write_ids_entries_id_newval. apply in_map_iff. exists (i, p, x).
  split; [unfold newval; rewrite (assoc_id_none V ws i Hn); reflexivity | exact Hin].
Qed.

Theorem write_ids_in_inv (t : tree) ws i p y :
  In (i, p, y) (entries_id (write_ids t ws)) ->
  exists x, In (i, p, x) (entries_id t) /\ y = newval ws i x.
Proof.
  rewrite write_ids_entries_id_newval. intros H. apply in_map_iff in H.
  destruct H as [[[i' p'] x] [E Hin]]. inversion E; subst. exists x. split; [exact Hin | reflexivity].
Qed.

Corollary write_ids_written_nodup (t : tree) ws i p x y :
  NoDup (map fst ws) -> In (i, y) ws -> In (i, p, x) (entries_id t) ->
  In (i, p, y) (entries_id (write_ids t ws)).
Proof.
  intros Hnd Hw Hin. apply (write_ids_written t ws i p x y Hin).
  apply (assoc_id_nodup V ws i y Hnd). exact Hw.
Qed.

Corollary write_ids_nth (t : tree) ws n i p x :
  nth_error (entries_id t) n = Some (i, p, x) ->
  nth_error (entries_id (write_ids t ws)) n = Some (i, p, newval ws i x).
Proof. intros H. rewrite write_ids_entries_id_newval, nth_error_map, H. reflexivity. Qed.

Theorem vm_value_mut_write (T : tree) (m : vmut) g i p x l r :
  NoDup (ids T) -> mvirt m = None -> vm_tree T m = Node i p (Some x) l r ->
  fst (vm_value_mut T m g) = write_ids T [(i, g x)].
Proof.
  intros Hnd Hv Hs. unfold vm_value_mut. rewrite Hv. cbn [fst]. rewrite Hs. cbn [tval option_map set_tval].
  unfold vm_tree in Hs.
  rewrite (write_ids_local pfx V (mpath m) T [(i, g x)] Hnd).
  - rewrite Hs. rewrite write_ids_root_only; [reflexivity|].
    rewrite <- Hs. apply subtree_nodup. exact Hnd.
  - intros j [<-|[]]. rewrite Hs. left. reflexivity.
Qed.

Theorem vm_value_mut_none (T : tree) (m : vmut) g i p l r :
  mvirt m = None -> vm_tree T m = Node i p None l r ->
  vm_value_mut T m g = (T, None).
Proof.
  intros Hv Hs. unfold vm_value_mut. rewrite Hv, Hs. cbn [tval option_map set_tval pv].
  f_equal. unfold vm_tree in Hs. rewrite <- Hs. apply subst_same.
Qed.

(** the reference [value_mut]/[prefix_value_mut] hands out reads what the read-only accessor reads *)
Theorem vm_value_mut_sim (T : tree) (m : vmut) g :
  snd (vm_value_mut T m g) = v_prefix_value (vm_view T m).
Proof. unfold vm_value_mut, vm_view. destruct (mvirt m); reflexivity. Qed.

(** [w] is an order-preserving merge of [w1] and [w2] (a schedule of two sequential workers) *)
Inductive interleave {A} : list A -> list A -> list A -> Prop :=
| il_nil : interleave [] [] []
| il_left e w1 w2 w : interleave w1 w2 w -> interleave (e :: w1) w2 (e :: w)
| il_right e w1 w2 w : interleave w1 w2 w -> interleave w1 (e :: w2) (e :: w).

Lemma interleave_perm {A} (w1 w2 w : list A) : interleave w1 w2 w -> Permutation w (w1 ++ w2).
Proof.
  induction 1 as [|e w1 w2 w H IH|e w1 w2 w H IH]; cbn [app].
  - constructor.
  - constructor. exact IH.
  - eapply Permutation_trans; [apply perm_skip; exact IH | apply Permutation_middle].
Qed.

Lemma interleave_app {A} (w1 w2 : list A) : interleave w1 w2 (w1 ++ w2).
Proof. induction w1; cbn [app]; [induction w2; constructor; assumption | constructor; assumption]. Qed.
Lemma interleave_app_rev {A} (w1 w2 : list A) : interleave w1 w2 (w2 ++ w1).
Proof. induction w2; cbn [app]; [induction w1; constructor; assumption | constructor; assumption]. Qed.

Lemma write_each_cons (t : tree) e w : write_each pfx V t (e :: w) = write_each pfx V (write_ids t [e]) w.
Proof. reflexivity. Qed.

Lemma write_each_app (t : tree) w w' :
  write_each pfx V t (w ++ w') = write_each pfx V (write_each pfx V t w) w'.
Proof. unfold write_each. apply fold_left_app. Qed.

Lemma write_each_comm1 (t : tree) (e : N * V) w :
  ~ In (fst e) (map fst w) ->
  write_each pfx V (write_ids t [e]) w = write_ids (write_each pfx V t w) [e].
Proof.
  intros Hn. rewrite !(write_each_rev pfx V). apply (write_ids_comm pfx V).
  intros i [<-|[]]. rewrite map_rev, <- in_rev. exact Hn.
Qed.

(** any schedule of two workers whose slot sets are disjoint yields the result of running the
    first worker to completion and then the second — each worker may write a slot any number of
    times, but [w] keeps each worker's order ([MutTrav.interleaving_sequential] allows any
    permutation and no repeated slot) *)
Theorem interleave_sequential (w1 w2 w : list (N * V)) :
  interleave w1 w2 w -> (forall i, In i (map fst w1) -> ~ In i (map fst w2)) ->
  forall t : tree, write_each pfx V t w = write_each pfx V (write_each pfx V t w1) w2.
Proof.
  induction 1 as [|e w1 w2 w H IH|e w1 w2 w H IH]; intros Hd t.
  - reflexivity.
  - rewrite !write_each_cons. apply IH. intros i Hi. apply Hd. right. exact Hi.
  - rewrite !write_each_cons. rewrite IH.
    + rewrite write_each_comm1; [reflexivity|]. intros Hin. apply (Hd _ Hin). left. reflexivity.
    + intros i Hi Hi2. apply (Hd i Hi). right. exact Hi2.
Qed.

Corollary interleave_sequential_sym (w1 w2 w : list (N * V)) :
  interleave w1 w2 w -> (forall i, In i (map fst w1) -> ~ In i (map fst w2)) ->
  forall t : tree, write_each pfx V t w = write_each pfx V (write_each pfx V t w2) w1.
Proof.
  intros H Hd t. rewrite (interleave_sequential w1 w2 w H Hd t).
  rewrite <- !write_each_app.
  rewrite (interleave_sequential w1 w2 (w2 ++ w1) (interleave_app_rev w1 w2) Hd t).
  rewrite <- write_each_app. reflexivity.
Qed.

Definition vm_slots (T : tree) (m : vmut) : list N := ids (vm_tree T m).

Lemma vm_below_slots (T : tree) (m m' : vmut) :
  prefix_of (mpath m) (mpath m') -> incl (vm_slots T m') (vm_slots T m).
Proof.
  intros [pa E]. unfold vm_slots, vm_tree. rewrite E, (subtree_app pfx V). apply subtree_ids_incl.
Qed.

Lemma vm_iter_mut_slots (T : tree) (m : vmut) :
  incl (map slot3 (vm_iter_mut T m)) (vm_slots T m).
Proof.
  intros i Hi. unfold vm_iter_mut in Hi. rewrite (iter_mut_items_spec pfx V) in Hi.
  apply slots_in_ids. exact Hi.
Qed.

Lemma subtree_write_ids (pa : path) : forall (T : tree) ws,
  subtree (write_ids T ws) pa = write_ids (subtree T pa) ws.
Proof.
  induction pa as [|b pa IH]; intros T ws; [rewrite !(subtree_nil pfx V); reflexivity|].
  destruct T as [|i p v l r]; [reflexivity|]. cbn [write_ids subtree]. destruct b; apply IH.
Qed.

(** a view none of whose slots is written sees nothing change (frame property: what a
    read-only or mutable view over other entries observes is unaffected) *)
Theorem vm_tree_frame (T : tree) (m : vmut) ws :
  (forall i, In i (vm_slots T m) -> ~ In i (map fst ws)) -> vm_tree (write_ids T ws) m = vm_tree T m.
Proof.
  intros H. unfold vm_tree. rewrite subtree_write_ids. apply (write_ids_foreign pfx V). exact H.
Qed.

Variables (peq contains : pfx -> pfx -> bool) (is_bit_set : pfx -> N -> bool)
          (plen : pfx -> N) (pzero : pfx).
Notation vm_find := (Views.vm_find pfx V peq contains is_bit_set plen).
Notation vm_find_exact := (Views.vm_find_exact pfx V peq contains is_bit_set plen).
Notation vm_find_lpm := (Views.vm_find_lpm pfx V peq contains is_bit_set plen).
Notation vm_left := (Views.vm_left pfx V is_bit_set plen pzero).
Notation vm_right := (Views.vm_right pfx V is_bit_set plen pzero).
Notation vm_split := (Views.vm_split pfx V is_bit_set plen pzero).

(** one consuming step [find] / [find_exact] / [find_lpm] / [left] / [right] of [TrieViewMut] *)
Inductive vm_step (T : tree) (m m' : vmut) : Prop :=
| vs_find q : vm_find T m q = Some m' -> vm_step T m m'
| vs_find_exact q : vm_find_exact T m q = Some m' -> vm_step T m m'
| vs_find_lpm q : vm_find_lpm T m q = Some m' -> vm_step T m m'
| vs_left : vm_left T m = Some m' -> vm_step T m m'
| vs_right : vm_right T m = Some m' -> vm_step T m m'.

(** any number of such steps *)
Definition vm_derived (T : tree) : vmut -> vmut -> Prop := clos_refl_trans vmut (vm_step T).

Lemma vm_step_below (T : tree) (m m' : vmut) : vm_step T m m' -> prefix_of (mpath m) (mpath m').
Proof.
  intros [q H|q H|q H|H|H].
  - exact (vm_find_below H).
  - exact (proj1 (vm_find_exact_below H)).
  - exact (proj1 (vm_find_lpm_below H)).
  - exact (proj1 (vm_left_below H)).
  - exact (proj1 (vm_right_below H)).
Qed.

Lemma vm_derived_below (T : tree) (m m' : vmut) : vm_derived T m m' -> prefix_of (mpath m) (mpath m').
Proof.
  induction 1 as [m m' H|m|m m1 m2 _ IH1 _ IH2].
  - apply (vm_step_below T). exact H.
  - apply prefix_of_refl.
  - eapply prefix_of_trans; eassumption.
Qed.

Theorem vm_derived_slots (T : tree) (m m' : vmut) :
  vm_derived T m m' -> incl (vm_slots T m') (vm_slots T m).
Proof. intros H. apply vm_below_slots. apply (vm_derived_below T). exact H. Qed.

Lemma vm_split_both (T : tree) (m ml mr : vmut) :
  vm_split T m = (Some ml, Some mr) ->
  mvirt m = None /\ ml = Views.mkvmut pfx (mpath m ++ [false]) None /\
  mr = Views.mkvmut pfx (mpath m ++ [true]) None.
Proof.
  unfold Views.vm_split. destruct (mvirt m) as [p|].
  - destruct (Trie.to_right _ _ _ _ _); discriminate.
  - destruct (is_node (tleft _)); [|discriminate]. destruct (is_node (tright _)); [|discriminate].
    intros H. inversion H; subst. auto.
Qed.

Lemma vm_left_right_split (T : tree) (m ml mr : vmut) :
  vm_left T m = Some ml -> vm_right T m = Some mr -> vm_split T m = (Some ml, Some mr).
Proof.
  intros Hl Hr. unfold Views.vm_split, Views.vm_left, Views.vm_right in *. destruct (mvirt m) as [p|].
  - destruct (Trie.to_right _ _ _ _ _); cbn [negb] in *; discriminate.
  - rewrite Hl, Hr. reflexivity.
Qed.

Theorem vm_split_slots_disjoint (T : tree) (m ml mr : vmut) :
  NoDup (ids T) -> vm_split T m = (Some ml, Some mr) ->
  forall i, In i (vm_slots T ml) -> ~ In i (vm_slots T mr).
Proof.
  intros Hnd Hs. destruct (vm_split_both T m ml mr Hs) as [_ [-> ->]].
  unfold vm_slots, vm_tree. cbn [Views.mpath].
  apply (split_slots_disjoint pfx V T (mpath m) Hnd).
Qed.

Theorem vm_split_derived_disjoint (T : tree) (m ml mr m1 m2 : vmut) :
  NoDup (ids T) -> vm_split T m = (Some ml, Some mr) ->
  vm_derived T ml m1 -> vm_derived T mr m2 ->
  forall i, In i (vm_slots T m1) -> ~ In i (vm_slots T m2).
Proof.
  intros Hnd Hs D1 D2 i H1 H2.
  apply (vm_split_slots_disjoint T m ml mr Hnd Hs i).
  - apply (vm_derived_slots T ml m1 D1). exact H1.
  - apply (vm_derived_slots T mr m2 D2). exact H2.
Qed.

Lemma subtree_subst_other (pa1 : path) : forall (T n : tree) (pa2 : path),
  ~ prefix_of pa1 pa2 -> ~ prefix_of pa2 pa1 -> subtree (subst T pa1 n) pa2 = subtree T pa2.
Proof.
  intros T n pa2 H12 H21. revert T. revert pa1 pa2 H12 H21. refine (incomparable_ind _ _ _).
  - intros b r1 r2 [|i p v l r]; [reflexivity|]. destruct b; reflexivity.
  - intros b r1 r2 _ _ IH [|i p v l r]; [reflexivity|]. destruct b; cbn [subst subtree]; apply IH.
Qed.

Lemma subst_comm (pa1 : path) : forall (T n1 n2 : tree) (pa2 : path),
  ~ prefix_of pa1 pa2 -> ~ prefix_of pa2 pa1 ->
  subst (subst T pa1 n1) pa2 n2 = subst (subst T pa2 n2) pa1 n1.
Proof.
  intros T n1 n2 pa2 H12 H21. revert T. revert pa1 pa2 H12 H21. refine (incomparable_ind _ _ _).
  - intros b r1 r2 [|i p v l r]; [reflexivity|]. destruct b; reflexivity.
  - intros b r1 r2 _ _ IH [|i p v l r]; [reflexivity|]. destruct b; cbn [subst]; rewrite IH; reflexivity.
Qed.

(** a structural write of a mutable view: [remove] (take the value out), [set x], or a write of
    [g old] through [value_mut] *)
Inductive vwrite := WRemove | WSet (x : V) | WValueMut (g : V -> V).

Definition vm_apply (T : tree) (m : vmut) (o : vwrite) : tree :=
  match o with
  | WRemove => fst (vm_remove T m)
  | WSet x => fst (vm_set T m x)
  | WValueMut g => fst (vm_value_mut T m g)
  end.

Definition wval (o : vwrite) (v : option V) : option V :=
  match o with WRemove => None | WSet x => Some x | WValueMut g => option_map g v end.

Lemma vm_apply_eq (T : tree) (m : vmut) o :
  vm_apply T m o =
  match mvirt m with
  | Some _ => T
  | None => subst T (mpath m) (set_tval (vm_tree T m) (wval o (tval (vm_tree T m))))
  end.
Proof.
  destruct o; cbn [vm_apply wval]; unfold vm_remove, vm_set, vm_value_mut; destruct (mvirt m); reflexivity.
Qed.

Theorem vm_apply_comm (T : tree) (m1 m2 : vmut) o1 o2 :
  ~ prefix_of (mpath m1) (mpath m2) -> ~ prefix_of (mpath m2) (mpath m1) ->
  vm_apply (vm_apply T m1 o1) m2 o2 = vm_apply (vm_apply T m2 o2) m1 o1.
Proof.
  intros H12 H21. rewrite !vm_apply_eq.
  destruct (mvirt m1) as [q1|], (mvirt m2) as [q2|]; try reflexivity.
  unfold vm_tree. rewrite !subtree_subst_other by assumption. apply subst_comm; assumption.
Qed.

Theorem vm_apply_other (T : tree) (m1 m2 : vmut) o1 :
  ~ prefix_of (mpath m1) (mpath m2) -> ~ prefix_of (mpath m2) (mpath m1) ->
  vm_tree (vm_apply T m1 o1) m2 = vm_tree T m2.
Proof.
  intros H12 H21. rewrite vm_apply_eq. destruct (mvirt m1); [reflexivity|].
  unfold vm_tree. apply subtree_subst_other; assumption.
Qed.

Lemma sides_below_incomparable (pa p1 p2 : path) :
  prefix_of (pa ++ [false]) p1 -> prefix_of (pa ++ [true]) p2 ->
  ~ prefix_of p1 p2 /\ ~ prefix_of p2 p1.
Proof.
  intros H1 H2. split; intros H.
  - eapply sides_disjoint; [eapply prefix_of_trans; [exact H1 | exact H] | exact H2].
  - eapply sides_disjoint; [exact H1 | eapply prefix_of_trans; [exact H2 | exact H]].
Qed.

Notation get_node := (Trie.get_node pfx V peq contains is_bit_set plen).
Notation get := (Trie.get pfx V peq contains is_bit_set plen).
Notation get_key_value := (Trie.get_key_value pfx V peq contains is_bit_set plen).
Notation lpm_walk := (Trie.lpm_walk pfx V peq contains is_bit_set plen).
Notation lpmm_walk := (Trie.lpmm_walk pfx V peq contains is_bit_set plen).
Notation get_lpm := (Trie.get_lpm pfx V peq contains is_bit_set plen).
Notation get_lpm_mut := (Trie.get_lpm_mut pfx V peq contains is_bit_set plen).
Notation to_right := (Trie.to_right pfx is_bit_set plen).
Notation descent_ind := (TrieWf.descent_ind pfx V peq contains is_bit_set plen).

Lemma write_ids_if (b : bool) (l r : tree) ws :
  (if b then write_ids r ws else write_ids l ws) = write_ids (if b then r else l) ws.
Proof. destruct b; reflexivity. Qed.

Theorem get_node_write_ids (t : tree) ws : forall q,
  get_node (write_ids t ws) q
  = option_map (fun '(i, p, v) => (i, p, option_map (newval ws i) v)) (get_node t q).
Proof.
  intros q.
  induction t as [|i p v l r E|i p v l r E Hs|i p v l r ci cp cv cl cr E Ec C IH] using (descent_ind q);
    [reflexivity|cbn [write_ids]; cbn [Trie.get_node]; unfold child_of in *; rewrite E, ?write_ids_if..].
  - cbn [option_map]. unfold newval. destruct v, (assoc_id ws i); reflexivity.
  - destruct (if to_right p q then r else l) as [|ci cp cv cl cr]; [reflexivity|]. cbn [write_ids].
    rewrite Hs. reflexivity.
  - rewrite Ec. cbn [write_ids]. rewrite C. exact IH.
Qed.

Corollary get_write_ids (t : tree) ws q :
  get (write_ids t ws) q
  = match get_node t q with Some (i, _, v) => option_map (newval ws i) v | None => None end.
Proof.
  unfold Trie.get. rewrite get_node_write_ids. destruct (get_node t q) as [[[i p] v]|]; reflexivity.
Qed.

Corollary get_key_value_write_ids (t : tree) ws q :
  get_key_value (write_ids t ws) q
  = match get_node t q with Some (i, p, Some x) => Some (p, newval ws i x) | _ => None end.
Proof.
  unfold Trie.get_key_value. rewrite get_node_write_ids.
  destruct (get_node t q) as [[[i p] [x|]]|]; reflexivity.
Qed.

Lemma lpm_best_write ws i p (v : option V) (best : option (N * pfx * V)) :
  match match v, assoc_id ws i with Some _, Some x => Some x | _, _ => v end with
  | Some x => Some (p, x)
  | None => option_map (fun '(i, p, x) => (p, newval ws i x)) best
  end
  = option_map (fun '(i, p, x) => (p, newval ws i x)) (match v with Some x => Some (i, p, x) | None => best end).
Proof. unfold newval. destruct v as [x|]; [cbn; destruct (assoc_id ws i)|]; reflexivity. Qed.

Lemma lpm_walk_write_ids (t : tree) ws : forall q best,
  lpm_walk (write_ids t ws) q (option_map (fun '(i, p, x) => (p, newval ws i x)) best)
  = option_map (fun '(i, p, x) => (p, newval ws i x)) (lpmm_walk t q best).
Proof.
  intros q.
  induction t as [|i p v l r E|i p v l r E Hs|i p v l r ci cp cv cl cr E Ec C IH] using (descent_ind q);
    intros best; [reflexivity|..].
  all: cbn [write_ids]; cbn [Trie.lpm_walk Trie.lpmm_walk]; unfold child_of in *.
  all: rewrite E, ?write_ids_if, lpm_best_write.
  - reflexivity.
  - destruct (if to_right p q then r else l) as [|ci cp cv cl cr]; [reflexivity|]. cbn [write_ids].
    rewrite Hs. reflexivity.
  - rewrite Ec. cbn [write_ids]. rewrite C. apply IH.
Qed.

Theorem get_lpm_write_ids (t : tree) ws q :
  get_lpm (write_ids t ws) q
  = option_map (fun '(i, p, x) => (p, newval ws i x)) (get_lpm_mut t q).
Proof. unfold Trie.get_lpm, Trie.get_lpm_mut. apply (lpm_walk_write_ids t ws q None). Qed.

(** [get_mut] on a key that is not stored hands out no reference: the keyed update is the identity *)
Theorem update_value_absent (m : pmap pfx V) q g :
  get (root m) q = None -> Trie.update_value pfx V peq contains is_bit_set plen m q g = m.
Proof.
  intros H. unfold Trie.update_value. destruct m as [t a]. cbn [root al] in *. f_equal.
  unfold Trie.get in H.
  induction t as [|i p v l r E|i p v l r E Hs|i p v l r ci cp cv cl cr E Ec C IH] using (descent_ind q);
    [reflexivity|cbn [Trie.get_node] in H; cbn [Trie.modify]; unfold child_of in *; rewrite E in H |- *..].
  - subst v. reflexivity.
  - destruct (if to_right p q then r else l) as [|ci cp cv cl cr]; [reflexivity|]. rewrite Hs. reflexivity.
  - rewrite Ec, C in H |- *. rewrite (IH H), <- Ec. destruct (to_right p q); reflexivity.
Qed.

End XA.

Definition olist {A} (o : option A) : list A := match o with Some a => [a] | None => [] end.

(** the references selected by [s] from a list of yielded items: the same function as [MachineThm.pick] *)
Definition refs_by {I E} (s : I -> option E) (out : list I) : list E :=
  flat_map (fun it => olist (s it)) out.

Lemma refs_by_total {I E} (s : I -> option E) (f : I -> E) (out : list I) :
  (forall it, s it = Some (f it)) -> refs_by s out = map f out.
Proof.
  intros H. unfold refs_by. induction out as [|it out IH]; [reflexivity|].
  cbn [flat_map map]. rewrite H, IH. reflexivity.
Qed.

Lemma in_refs_by {I E} (s : I -> option E) (out : list I) e :
  In e (refs_by s out) <-> exists it, In it out /\ s it = Some e.
Proof. exact (MachineThm.in_pick s out e). Qed.

Section KS.
Variables (pfx T I : Type) (bits : pfx -> list bool).
Variables (k : I -> list bool) (s : I -> option (N * pfx * T)).

(** items with strictly ascending keys, each of whose references designates (up to the denoted
    key) an item of a tree with distinct slots, carry pairwise distinct slots *)
Lemma keyed_slots_nodup (t : Trie.tree pfx T) (out : list I) :
  NoDup (Slots.ids pfx T t) -> StronglySorted lex_lt (map k out) ->
  (forall it i p x, In it out -> s it = Some (i, p, x) ->
     exists pr, In (i, pr, x) (entries_id t) /\ bits pr = k it) ->
  NoDup (map (slot3 pfx T) (refs_by s out)).
Proof.
  intros Hnd. induction out as [|it out IH]; intros Hs Hin; [constructor|].
  cbn [map] in Hs. inversion Hs as [|a l Hs' Hf]; subst.
  unfold refs_by. cbn [flat_map]. rewrite map_app. apply nodup_app_intro.
  - destruct (s it) as [[[i p] x]|]; cbn [olist map]; [constructor; [intros []|constructor] | constructor].
  - apply IH; [exact Hs'|]. intros it' i p x Hit. apply Hin. right. exact Hit.
  - intros j Hj Hj'. destruct (s it) as [[[i p] x]|] eqn:E; cbn [olist map] in Hj; [|destruct Hj].
    destruct Hj as [<-|[]]. cbn [slot3] in Hj'.
    apply in_map_iff in Hj'. destruct Hj' as [[[i' p'] x'] [Ei He]]. cbn [slot3] in Ei. subst i'.
    apply in_refs_by in He. destruct He as [it' [Hit' E']].
    destruct (Hin it i p x (or_introl eq_refl) E) as [pr [H1 K1]].
    destruct (Hin it' i p' x' (or_intror Hit') E') as [pr' [H2 K2]].
    destruct (entries_id_slot_inj pfx T t Hnd i pr x pr' x' H1 H2) as [<- _].
    rewrite Forall_forall in Hf. specialize (Hf (k it') (in_map k _ _ Hit')).
    rewrite <- K2, K1 in Hf. exact (lex_lt_irrefl _ Hf).
Qed.
End KS.

Corollary keyed_slots_nodup_map {pfx T I} (bits : pfx -> list bool) (k : I -> list bool)
    (f : I -> N * pfx * T) (t : Trie.tree pfx T) (out : list I) :
  NoDup (Slots.ids pfx T t) -> StronglySorted lex_lt (map k out) ->
  (forall it, In it out ->
     exists pr, In (fst (fst (f it)), pr, snd (f it)) (entries_id t) /\ bits pr = k it) ->
  NoDup (map (slot3 pfx T) (map f out)).
Proof.
  intros Hnd Hs H. rewrite <- (refs_by_total (fun it => Some (f it)) f out) by reflexivity.
  apply (keyed_slots_nodup pfx T I bits k _ t out Hnd Hs). intros it i p x Hin [= E].
  destruct (H it Hin) as [pr Hpr]. rewrite E in Hpr. exists pr. exact Hpr.
Qed.

Lemma mirror_sorted {I O} (ko : O -> list bool) (ki : I -> list bool) (f : I -> O) out outm :
  StronglySorted (fun a b => lex_lt (ko a) (ko b)) out -> map f outm = out ->
  (forall it, ki it = ko (f it)) -> StronglySorted lex_lt (map ki outm).
Proof.
  intros Hs <- Hk. apply (ss_map ko) in Hs. rewrite map_map in Hs.
  rewrite (map_ext _ _ Hk). exact Hs.
Qed.

Lemma incl_map_forall {A B} (f : A -> B) (l : list A) (L : list B) :
  (forall a, In a l -> In (f a) L) -> incl (map f l) L.
Proof. intros H b Hb. apply in_map_iff in Hb. destruct Hb as [a [<- Ha]]. exact (H a Ha). Qed.

Section XSO.
Variables (pfx L R : Type).
Variables (peq contains : pfx -> pfx -> bool) (is_bit_set : pfx -> N -> bool)
          (plen : pfx -> N) (lcp : pfx -> pfx -> pfx) (pzero : pfx)
          (mcmp : pfx -> pfx -> comparison).
Variable bits : pfx -> list bool.
Variable ok : pfx -> Prop.
Hypothesis LAWS : prefix_laws pfx peq contains is_bit_set plen lcp pzero mcmp bits ok.

Notation treeL := (Trie.tree pfx L).
Notation treeR := (Trie.tree pfx R).
Notation wfL := (TrieWf.wf_under pfx L bits ok).
Notation wfR := (TrieWf.wf_under pfx R bits ok).
Notation idsL := (Slots.ids pfx L).
Notation idsR := (Slots.ids pfx R).
Notation umitem := (SetOps.umitem pfx L R).
Notation imitem := (SetOps.imitem pfx L R).
Notation dmitem := (SetOps.dmitem pfx L R).
Notation union_mut := (SetOps.union_mut pfx L R contains is_bit_set plen pzero mcmp).
Notation intersection_mut := (SetOps.intersection_mut pfx L R contains is_bit_set plen pzero mcmp).
Notation difference_mut := (SetOps.difference_mut pfx L R contains is_bit_set plen pzero mcmp).
Notation covering_difference_mut := (SetOps.covering_difference_mut pfx L R contains is_bit_set plen pzero mcmp).

(** the references into the left / right operand carried by the items of [union_mut]
    (slot, reported prefix, current value) *)
Definition um_lref (it : umitem) : option (N * pfx * L) :=
  let '(p, l, _) := it in match l with Some (i, x) => Some (i, p, x) | None => None end.
Definition um_rref (it : umitem) : option (N * pfx * R) :=
  let '(p, _, r) := it in match r with Some (i, y) => Some (i, p, y) | None => None end.
Definition um_lrefs (out : list umitem) : list (N * pfx * L) := refs_by um_lref out.
Definition um_rrefs (out : list umitem) : list (N * pfx * R) := refs_by um_rref out.
(** [intersection_mut] *)
Definition im_lrefs (out : list imitem) : list (N * pfx * L) := map (fun '(p, (i, l), _) => (i, p, l)) out.
Definition im_rrefs (out : list imitem) : list (N * pfx * R) := map (fun '(p, _, (j, r)) => (j, p, r)) out.
(** [difference_mut], [covering_difference_mut]: only the left operand is borrowed mutably *)
Definition dm_refs (out : list dmitem) : list (N * pfx * L) := map (fun '(p, (i, l), _) => (i, p, l)) out.
Definition cdm_refs (out : list (pfx * (N * L))) : list (N * pfx * L) := map (fun '(p, (i, l)) => (i, p, l)) out.

Definition umkey (it : umitem) : list bool := bits (fst (fst it)).

Lemma union_mut_keys_sorted ba bb (ta : treeL) (tb : treeR) outm :
  wfL ba ta -> wfR bb tb -> union_mut ta tb = Some outm -> StronglySorted lex_lt (map umkey outm).
Proof.
  intros Ha Hb Hm.
  destruct (union_mut_mirrors pfx L R _ _ _ _ _ _ _ _ _ LAWS _ _ _ _ Ha Hb) as (out & outm' & Hu & Hm' & M).
  rewrite Hm in Hm'. injection Hm' as <-.
  change (map umkey outm) with (map (fun it : umitem => bits (fst (fst it))) outm).
  rewrite (union_mut_keys (eq_sym M)).
  exact (union_keys_sorted (union_some LAWS Ha Hb Hu)).
Qed.

(** [union_mut]: the left references are items of the left operand; the right references are
    items of the right operand up to the reported prefix (an item with both sides reports the
    left node's stored prefix, which denotes the same key); on either side the slots are
    pairwise distinct *)
Theorem union_mut_refs ba bb (ta : treeL) (tb : treeR) outm :
  wfL ba ta -> wfR bb tb -> union_mut ta tb = Some outm ->
  incl (um_lrefs outm) (entries_id ta) /\
  (forall i p y, In (i, p, y) (um_rrefs outm) ->
     exists pr, In (i, pr, y) (entries_id tb) /\ bits pr = bits p) /\
  (NoDup (idsL ta) -> NoDup (map (slot3 pfx L) (um_lrefs outm))) /\
  (NoDup (idsR tb) -> NoDup (map (slot3 pfx R) (um_rrefs outm))).
Proof.
  intros Ha Hb Hm.
  pose proof (union_mut_slots pfx L R peq contains is_bit_set plen lcp pzero mcmp bits ok LAWS
                ba bb ta tb outm Ha Hb Hm) as Hsl.
  pose proof (union_mut_keys_sorted ba bb ta tb outm Ha Hb Hm) as Hso.
  assert (HL : forall it i p x, In it outm -> um_lref it = Some (i, p, x) ->
                 In (i, p, x) (entries_id ta) /\ bits p = umkey it).
  { intros [[p0 l] r] i p x Hin E. cbn [um_lref] in E. destruct l as [[i0 x0]|]; [|discriminate].
    injection E as <- <- <-. split; [exact (proj1 (Hsl _ _ _ Hin) i0 x0 eq_refl) | reflexivity]. }
  assert (HR : forall it i p y, In it outm -> um_rref it = Some (i, p, y) ->
                 (exists pr, In (i, pr, y) (entries_id tb) /\ bits pr = bits p) /\ bits p = umkey it).
  { intros [[p0 l] r] i p y Hin E. cbn [um_rref] in E. destruct r as [[i0 y0]|]; [|discriminate].
    injection E as <- <- <-. split; [exact (proj2 (proj2 (Hsl _ _ _ Hin) i0 y0 eq_refl)) | reflexivity]. }
  split; [|split; [|split]].
  - intros [[i p] x] He. apply in_refs_by in He. destruct He as [it [Hin E]]. exact (proj1 (HL it i p x Hin E)).
  - intros i p y He. apply in_refs_by in He. destruct He as [it [Hin E]]. exact (proj1 (HR it i p y Hin E)).
  - intros Hnd. apply (keyed_slots_nodup pfx L umitem bits umkey um_lref ta outm Hnd Hso).
    intros it i p x Hin E. exists p. exact (HL it i p x Hin E).
  - intros Hnd. apply (keyed_slots_nodup pfx R umitem bits umkey um_rref tb outm Hnd Hso).
    intros it i p y Hin E. destruct (HR it i p y Hin E) as [[pr [H1 H2]] K].
    exists pr. split; [exact H1 | rewrite H2; exact K].
Qed.

Theorem intersection_mut_refs ba bb (ta : treeL) (tb : treeR) outm :
  wfL ba ta -> wfR bb tb -> intersection_mut ta tb = Some outm ->
  incl (im_lrefs outm) (entries_id ta) /\
  (forall j p y, In (j, p, y) (im_rrefs outm) ->
     exists pr, In (j, pr, y) (entries_id tb) /\ bits pr = bits p) /\
  (NoDup (idsL ta) -> NoDup (map (slot3 pfx L) (im_lrefs outm))) /\
  (NoDup (idsR tb) -> NoDup (map (slot3 pfx R) (im_rrefs outm))).
Proof.
  intros Ha Hb Hm.
  destruct (InterDiffThm.intersection_mut_mirrors pfx L R _ _ _ _ _ _ _ _ _ LAWS _ _ _ _ Ha Hb) as (out & outm' & Hu & Hm' & E & Hsl).
  rewrite Hm in Hm'. injection Hm' as <-.
  pose proof (proj1 (inter_some LAWS Ha Hb Hu)) as Hs.
  set (ki := fun it : imitem => bits (fst (fst it))).
  assert (Hso : StronglySorted lex_lt (map ki outm)).
  { apply (mirror_sorted _ ki _ out outm Hs (eq_sym E)). intros [[p [i l]] [j r]]. reflexivity. }
  split; [|split; [|split]].
  - apply incl_map_forall. intros [[p [i l]] [j r]] Hin. exact (proj1 (Hsl _ _ _ _ _ Hin)).
  - intros j p y He. apply in_map_iff in He. destruct He as [[[p0 [i0 l0]] [j0 r0]] [[= <- <- <-] Hin]].
    exact (proj2 (Hsl _ _ _ _ _ Hin)).
  - intros Hnd. apply (keyed_slots_nodup_map bits ki _ ta outm Hnd Hso).
    intros [[p [i l]] [j r]] Hin. exists p. split; [exact (proj1 (Hsl _ _ _ _ _ Hin)) | reflexivity].
  - intros Hnd. apply (keyed_slots_nodup_map bits ki _ tb outm Hnd Hso).
    intros [[p [i l]] [j r]] Hin. exact (proj2 (Hsl _ _ _ _ _ Hin)).
Qed.

Theorem difference_mut_refs ba bb (ta : treeL) (tb : treeR) outm :
  wfL ba ta -> wfR bb tb -> difference_mut ta tb = Some outm ->
  incl (dm_refs outm) (entries_id ta) /\
  (NoDup (idsL ta) -> NoDup (map (slot3 pfx L) (dm_refs outm))).
Proof.
  intros Ha Hb Hm.
  destruct (InterDiffThm.difference_mut_mirrors pfx L R _ _ _ _ _ _ _ _ _ LAWS _ _ _ _ Ha Hb) as (out & outm' & Hu & Hm' & E & Hsl).
  rewrite Hm in Hm'. injection Hm' as <-.
  pose proof (proj1 (diff_some LAWS Ha Hb Hu)) as Hs.
  set (ki := fun it : dmitem => bits (fst (fst it))).
  assert (Hso : StronglySorted lex_lt (map ki outm)).
  { apply (mirror_sorted _ ki _ out outm Hs (eq_sym E)). intros [[p [i l]] a]. reflexivity. }
  split.
  - apply incl_map_forall. intros [[p [i l]] a] Hin. exact (Hsl _ _ _ _ Hin).
  - intros Hnd. apply (keyed_slots_nodup_map bits ki _ ta outm Hnd Hso).
    intros [[p [i l]] a] Hin. exists p. split; [exact (Hsl _ _ _ _ Hin) | reflexivity].
Qed.

Theorem covering_difference_mut_refs ba bb (ta : treeL) (tb : treeR) outm :
  wfL ba ta -> wfR bb tb -> covering_difference_mut ta tb = Some outm ->
  incl (cdm_refs outm) (entries_id ta) /\
  (NoDup (idsL ta) -> NoDup (map (slot3 pfx L) (cdm_refs outm))).
Proof.
  intros Ha Hb Hm.
  destruct (InterDiffThm.covering_difference_mut_mirrors pfx L R _ _ _ _ _ _ _ _ _ LAWS _ _ _ _ Ha Hb)
    as (out & outm' & Hu & Hm' & E & Hsl).
  rewrite Hm in Hm'. injection Hm' as <-.
  pose proof (proj1 (cdiff_some LAWS Ha Hb Hu)) as Hs.
  set (ki := fun it : pfx * (N * L) => bits (fst it)).
  assert (Hso : StronglySorted lex_lt (map ki outm)).
  { apply (mirror_sorted _ ki _ out outm Hs (eq_sym E)). intros [p [i l]]. reflexivity. }
  split.
  - apply incl_map_forall. intros [p [i l]] Hin. exact (Hsl _ _ _ Hin).
  - intros Hnd. apply (keyed_slots_nodup_map bits ki _ ta outm Hnd Hso).
    intros [p [i l]] Hin. exists p. split; [exact (Hsl _ _ _ Hin) | reflexivity].
Qed.

End XSO.

Section XD.
Variables (pfx V : Type).
Variables (peq contains : pfx -> pfx -> bool) (is_bit_set : pfx -> N -> bool)
          (plen : pfx -> N) (lcp : pfx -> pfx -> pfx) (pzero : pfx)
          (mcmp : pfx -> pfx -> comparison).
Variable bits : pfx -> list bool.
Variable ok : pfx -> Prop.
Hypothesis LAWS : prefix_laws pfx peq contains is_bit_set plen lcp pzero mcmp bits ok.

Notation tree := (Trie.tree pfx V).
Notation ids := (Slots.ids pfx V).
Notation slot3 := (MutTrav.slot3 pfx V).
Notation wf_under := (TrieWf.wf_under pfx V bits ok).
Notation union_mut := (SetOps.union_mut pfx V V contains is_bit_set plen pzero mcmp).
Notation intersection_mut := (SetOps.intersection_mut pfx V V contains is_bit_set plen pzero mcmp).
Notation difference_mut := (SetOps.difference_mut pfx V V contains is_bit_set plen pzero mcmp).
Notation covering_difference_mut := (SetOps.covering_difference_mut pfx V V contains is_bit_set plen pzero mcmp).

Notation wf_root := (TrieWf.wf_root pfx V bits ok).
Notation get := (Trie.get pfx V peq contains is_bit_set plen).
Notation get_node := (Trie.get_node pfx V peq contains is_bit_set plen).

Theorem write_ids_get (t : tree) ws i p x q :
  wf_root t -> ok q -> In (i, p, x) (entries_id t) -> bits q = bits p ->
  get (write_ids t ws) q = Some (newval V ws i x).
Proof.
  intros Hwf Hq Hin Hk.
  pose proof (write_ids_wf_root pfx V bits ok ws t Hwf) as Hwf'.
  assert (Hu : wf_under [] (write_ids t ws)).
  { destruct (write_ids t ws) as [|i0 p0 v0 l0 r0]; [destruct Hwf' | exact (proj2 Hwf')]. }
  apply (get_spec pfx V peq contains is_bit_set plen lcp pzero mcmp bits ok LAWS [] _ q _ Hu Hq
           (wf_root_covers pfx V bits ok _ q Hwf')).
  exists p. split; [|symmetry; exact Hk].
  rewrite write_ids_entries_newval. apply in_map_iff. exists (i, p, x). split; [reflexivity | exact Hin].
Qed.

Theorem get_node_item (t : tree) q i p x :
  get_node t q = Some (i, p, Some x) -> In (i, p, x) (entries_id t).
Proof.
  intros H. destruct (get_node_in pfx V peq contains is_bit_set plen t H) as [_ B].
  apply B. reflexivity.
Qed.

Theorem reachable_nodup (ops : list (History.op pfx V)) :
  Forall (History.op_ok pfx V ok) ops ->
  NoDup (ids (root (History.run pfx V peq contains is_bit_set plen lcp pzero ops))).
Proof.
  intros H.
  destruct (reachable_wf pfx V peq contains is_bit_set plen lcp pzero mcmp bits ok LAWS ops H) as [_ Hm].
  exact (slots_nodup pfx V peq contains is_bit_set plen lcp pzero _ _ Hm).
Qed.

Lemma subtree_wf (pa : path) : forall b (T : tree),
  wf_under b T -> exists b', wf_under b' (subtree T pa).
Proof.
  induction pa as [|s pa IH]; intros b T H; [exists b; rewrite (subtree_nil pfx V); exact H|].
  destruct T as [|i p v l r]; [exists b; exact I|]. cbn [subtree].
  destruct H as [_ [_ [Hl Hr]]]. destruct s; [exact (IH _ _ Hr) | exact (IH _ _ Hl)].
Qed.

Lemma refs_slots_in_ids {t : tree} {items : list (N * pfx * V)} :
  incl items (entries_id t) -> incl (map slot3 items) (ids t).
Proof.
  intros H i Hi. apply slots_in_ids. eapply incl_map; [exact H | exact Hi].
Qed.

Lemma keyed_refs_in_ids {t : tree} {items : list (N * pfx * V)} :
  (forall i p y, In (i, p, y) items -> exists pr, In (i, pr, y) (entries_id t) /\ bits pr = bits p) ->
  incl (map slot3 items) (ids t).
Proof.
  intros H i Hi. apply in_map_iff in Hi. destruct Hi as [[[j p] y] [<- Hin]].
  destruct (H j p y Hin) as [pr [Hpr _]]. exact (entries_id_in_ids pfx V t j pr y Hpr).
Qed.

Section Two.
Variables (b : list bool) (T : tree) (pa1 pa2 : path).
Hypothesis Hwf : wf_under b T.
Hypothesis Hnd : NoDup (ids T).
Hypothesis H12 : ~ prefix_of pa1 pa2.
Hypothesis H21 : ~ prefix_of pa2 pa1.

(** glue: the hypothesis of [two_sided] is literally the conclusion of [union_mut_refs] /
    [intersection_mut_refs] at [subtree T pa1], [subtree T pa2], that of [one_sided] the conclusion
    of [difference_mut_refs] / [covering_difference_mut_refs]; out comes disjointness across the two
    incomparable subtrees, from [subtree_slots_disjoint] *)
Lemma two_sided {lr rr : list (N * pfx * V)} :
  incl lr (entries_id (subtree T pa1)) /\
  (forall i p y, In (i, p, y) rr ->
     exists pr, In (i, pr, y) (entries_id (subtree T pa2)) /\ bits pr = bits p) /\
  (NoDup (ids (subtree T pa1)) -> NoDup (map slot3 lr)) /\
  (NoDup (ids (subtree T pa2)) -> NoDup (map slot3 rr)) ->
  incl (map slot3 lr) (ids (subtree T pa1)) /\ incl (map slot3 rr) (ids (subtree T pa2)) /\
  NoDup (map slot3 lr ++ map slot3 rr).
Proof.
  intros [A [B [C D]]].
  pose proof (refs_slots_in_ids A) as IA. pose proof (keyed_refs_in_ids B) as IB.
  split; [exact IA|]. split; [exact IB|].
  apply nodup_app_intro.
  - apply C. apply subtree_nodup. exact Hnd.
  - apply D. apply subtree_nodup. exact Hnd.
  - intros i H1 H2. exact (subtree_slots_disjoint pfx V pa1 T pa2 Hnd H12 H21 i (IA i H1) (IB i H2)).
Qed.

Lemma one_sided {lr : list (N * pfx * V)} :
  incl lr (entries_id (subtree T pa1)) /\ (NoDup (ids (subtree T pa1)) -> NoDup (map slot3 lr)) ->
  incl (map slot3 lr) (ids (subtree T pa1)) /\ NoDup (map slot3 lr) /\
  (forall i, In i (map slot3 lr) -> ~ In i (ids (subtree T pa2))).
Proof.
  intros [A C]. pose proof (refs_slots_in_ids A) as IA.
  split; [exact IA|]. split; [apply C; apply subtree_nodup; exact Hnd|].
  intros i H1. exact (subtree_slots_disjoint pfx V pa1 T pa2 Hnd H12 H21 i (IA i H1)).
Qed.

(** all references handed out by [union_mut] over the two views — on both sides together — are
    pairwise distinct, the left ones inside the first view, the right ones inside the second *)
Theorem union_mut_views_disjoint outm :
  union_mut (subtree T pa1) (subtree T pa2) = Some outm ->
  incl (map slot3 (um_lrefs pfx V V outm)) (ids (subtree T pa1)) /\
  incl (map slot3 (um_rrefs pfx V V outm)) (ids (subtree T pa2)) /\
  NoDup (map slot3 (um_lrefs pfx V V outm) ++ map slot3 (um_rrefs pfx V V outm)).
Proof.
  intros Hm.
  destruct (subtree_wf pa1 b T Hwf) as [b1 W1].
  destruct (subtree_wf pa2 b T Hwf) as [b2 W2].
  exact (two_sided (union_mut_refs pfx V V peq contains is_bit_set plen lcp pzero mcmp bits ok LAWS
                          b1 b2 _ _ outm W1 W2 Hm)).
Qed.

Theorem intersection_mut_views_disjoint outm :
  intersection_mut (subtree T pa1) (subtree T pa2) = Some outm ->
  incl (map slot3 (im_lrefs pfx V V outm)) (ids (subtree T pa1)) /\
  incl (map slot3 (im_rrefs pfx V V outm)) (ids (subtree T pa2)) /\
  NoDup (map slot3 (im_lrefs pfx V V outm) ++ map slot3 (im_rrefs pfx V V outm)).
Proof.
  intros Hm.
  destruct (subtree_wf pa1 b T Hwf) as [b1 W1].
  destruct (subtree_wf pa2 b T Hwf) as [b2 W2].
  exact (two_sided (intersection_mut_refs pfx V V peq contains is_bit_set plen lcp pzero mcmp bits ok LAWS
                          b1 b2 _ _ outm W1 W2 Hm)).
Qed.

(** [difference_mut] / [covering_difference_mut] borrow only the left view mutably: the
    references are pairwise distinct slots of the left view, none of which belongs to the
    (read-only) right view *)
Theorem difference_mut_views_disjoint outm :
  difference_mut (subtree T pa1) (subtree T pa2) = Some outm ->
  incl (map slot3 (dm_refs pfx V V outm)) (ids (subtree T pa1)) /\
  NoDup (map slot3 (dm_refs pfx V V outm)) /\
  (forall i, In i (map slot3 (dm_refs pfx V V outm)) -> ~ In i (ids (subtree T pa2))).
Proof.
  intros Hm.
  destruct (subtree_wf pa1 b T Hwf) as [b1 W1].
  destruct (subtree_wf pa2 b T Hwf) as [b2 W2].
  exact (one_sided (difference_mut_refs pfx V V peq contains is_bit_set plen lcp pzero mcmp bits ok LAWS
                        b1 b2 _ _ outm W1 W2 Hm)).
Qed.

Theorem covering_difference_mut_views_disjoint outm :
  covering_difference_mut (subtree T pa1) (subtree T pa2) = Some outm ->
  incl (map slot3 (cdm_refs pfx V outm)) (ids (subtree T pa1)) /\
  NoDup (map slot3 (cdm_refs pfx V outm)) /\
  (forall i, In i (map slot3 (cdm_refs pfx V outm)) -> ~ In i (ids (subtree T pa2))).
Proof.
  intros Hm.
  destruct (subtree_wf pa1 b T Hwf) as [b1 W1].
  destruct (subtree_wf pa2 b T Hwf) as [b2 W2].
  exact (one_sided (covering_difference_mut_refs pfx V V peq contains is_bit_set plen lcp pzero mcmp bits ok LAWS
                        b1 b2 _ _ outm W1 W2 Hm)).
Qed.

End Two.
End XD.

Print Assumptions write_ids_entries_id_newval.
Print Assumptions write_ids_entries_newval.
Print Assumptions write_ids_written.
Print Assumptions write_ids_untouched.
Print Assumptions write_ids_in_inv.
Print Assumptions write_ids_written_nodup.
Print Assumptions write_ids_nth.
Print Assumptions vm_value_mut_write.
Print Assumptions vm_value_mut_none.
Print Assumptions vm_value_mut_sim.
Print Assumptions interleave_perm.
Print Assumptions interleave_sequential.
Print Assumptions interleave_sequential_sym.
Print Assumptions vm_derived_slots.
Print Assumptions vm_tree_frame.
Print Assumptions vm_split_slots_disjoint.
Print Assumptions vm_split_derived_disjoint.
Print Assumptions vm_apply_comm.
Print Assumptions vm_apply_other.
Print Assumptions get_node_write_ids.
Print Assumptions get_write_ids.
Print Assumptions get_key_value_write_ids.
Print Assumptions get_lpm_write_ids.
Print Assumptions update_value_absent.
Print Assumptions write_ids_get.
Print Assumptions get_node_item.
Print Assumptions reachable_nodup.
Print Assumptions subtree_wf.
Print Assumptions union_mut_refs.
Print Assumptions intersection_mut_refs.
Print Assumptions difference_mut_refs.
Print Assumptions covering_difference_mut_refs.
Print Assumptions union_mut_views_disjoint.
Print Assumptions intersection_mut_views_disjoint.
Print Assumptions difference_mut_views_disjoint.
Print Assumptions covering_difference_mut_views_disjoint.
