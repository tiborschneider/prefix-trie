(** Correctness of the simultaneous traversals [intersection], [difference],
    [covering_difference] (and their [*_mut] twins) of [SetOps.v], for arbitrary pairs of
    well-formed subtrees (no relation assumed between the two view roots).

    Method: each of the three is [union] with part of the work left out.  Its stack entries are
    the union's with one-sided ones dropped ([MachineThm.run_prune]): both kinds for intersection,
    the right-only ones for the two differences, and for the covering difference also everything
    pushed below a valued right root.  The step relations are syntactic: no prefix law and no
    well-formedness enters.  Its items are the [IBoth] items, the [ILeft] items, the [ILeft] items
    annotated [None] of the union's, and the specifications are the same projections of
    [union_spec]. *)
From Coq Require Import List NArith Bool Arith Lia Sorted.
From PT Require Import Bits BitsThm Laws Machine MachineThm Trie TrieWf Lookup SetOps UnionThm.
Import ListNotations.

(** [a] is a proper prefix of [b] *)
Definition sprefix (a b : list bool) : Prop := prefix_of a b /\ a <> b.

Lemma sprefix_not_back a b : sprefix a b -> ~ prefix_of b a.
Proof. intros [H N] H'. apply N. apply prefix_of_antisym; assumption. Qed.

Lemma sprefix_len a b : sprefix a b -> length a < length b.
Proof.
  intros [H N]. pose proof (prefix_of_len _ _ H) as Hl.
  destruct (Nat.eq_dec (length a) (length b)) as [E|E]; [|lia].
  exfalso. apply N. apply prefix_of_same_len; [exact H|lia].
Qed.

Lemma option_map_id {X} (o : option X) : option_map (fun x => x) o = o.
Proof. destruct o; reflexivity. Qed.

Section Sim.
Variables (E I1 I2 : Type) (ex1 : E -> option I1 * list E) (ex2 : E -> option I2 * list E).
Variable f : I2 -> I1.
Hypothesis sim : forall e, fst (ex1 e) = option_map f (fst (ex2 e)) /\ snd (ex1 e) = snd (ex2 e).

(** [MachineThm.run_sim] for two machines on one stack type ([g] the identity), as the equation
    that [run_mirror] takes *)
Lemma run_sim n : forall st, run E I1 ex1 n st = option_map (map f) (run E I2 ex2 n st).
Proof.
  intros st. rewrite <- (map_id st) at 2.
  rewrite <- (MachineThm.run_sim E E I1 I2 I1 ex1 ex2 (fun e => e) (fun x => x) f).
  - rewrite <- (option_map_id (run E I1 ex1 n st)) at 1. destruct (run E I1 ex1 n st); cbn; [rewrite map_id|]; reflexivity.
  - intros e. destruct (sim e) as [-> ->]. rewrite option_map_id, map_id. split; reflexivity.
Qed.

Lemma run_sim_total n st : (exists out, run E I1 ex1 n st = Some out) -> exists outm, run E I2 ex2 n st = Some outm.
Proof.
  intros [out H]. rewrite run_sim in H. destruct (run E I2 ex2 n st) as [outm|]; [exists outm; reflexivity | discriminate].
Qed.
End Sim.

Lemma negb_existsb {A} (f : A -> bool) (Q : A -> Prop) (l : list A) :
  (forall x, f x = true <-> Q x) -> (negb (existsb f l) = true <-> forall x, In x l -> ~ Q x).
Proof.
  intros Hf. rewrite negb_true_iff. split.
  - intros H x Hx Hq. apply Hf in Hq.
    assert (X : existsb f l = true) by (apply existsb_exists; exists x; split; assumption). congruence.
  - intros H. destruct (existsb f l) eqn:X; [|reflexivity]. exfalso.
    apply existsb_exists in X. destruct X as [x [Hx Hfx]]. apply (H x Hx). apply Hf. exact Hfx.
Qed.

Lemma pick_sorted {A B} (ka : A -> list bool) (kb : B -> list bool) (f : A -> option B) l :
  (forall a b, f a = Some b -> kb b = ka a) ->
  StronglySorted (fun x y => lex_lt (ka x) (ka y)) l ->
  StronglySorted (fun x y => lex_lt (kb x) (kb y)) (pick f l).
Proof.
  intros Hk. induction 1 as [|a l Hs IH Hf]; [constructor|]. unfold pick in *. cbn [flat_map].
  destruct (f a) as [b|] eqn:E; [|exact IH]. constructor; [exact IH|].
  apply Forall_forall. intros b' Hb'. apply (in_pick f l b') in Hb'. destruct Hb' as [a' [Ha' E']].
  rewrite (Hk _ _ E), (Hk _ _ E'). rewrite Forall_forall in Hf. exact (Hf a' Ha').
Qed.

Section ID.
Variables (pfx L R : Type).
Variables (peq contains : pfx -> pfx -> bool) (is_bit_set : pfx -> N -> bool)
          (plen : pfx -> N) (lcp : pfx -> pfx -> pfx) (pzero : pfx)
          (mcmp : pfx -> pfx -> comparison).
Variable bits : pfx -> list bool.
Variable ok : pfx -> Prop.
Hypothesis LAWS : prefix_laws pfx peq contains is_bit_set plen lcp pzero mcmp bits ok.

Section Gen.
Variable T : Type.
Notation tree := (Trie.tree pfx T).
Notation wfu := (wf_under pfx T bits ok).
Implicit Types (t c : tree) (B : list (pfx * T)) (k : list bool) (e : pfx * T).

(** no entry of [B] covers [k] *)
Definition nocov k B : Prop := forall e, In e B -> ~ prefix_of (bits (fst e)) k.

Lemma nocov_nil k : nocov k [].
Proof. intros e []. Qed.

Lemma nocov_root b t k :
  wfu b t -> match t with Leaf => True | Node _ p _ _ _ => ~ prefix_of (bits p) k end ->
  nocov k (entries t).
Proof.
  intros Hwf Hn e Hin Hc. destruct t as [|i p v l r]; [contradiction|].
  apply Hn. eapply prefix_of_trans; [|exact Hc].
  eapply under_entries; [eapply wf_self; exact Hwf | exact Hin].
Qed.

Lemma nocov_bound b t k : wfu b t -> ~ prefix_of b k -> nocov k (entries t).
Proof.
  intros Hwf Hn e Hin Hc. apply Hn. eapply prefix_of_trans; [|exact Hc]. eapply under_entries; eassumption.
Qed.

Lemma nocov_below b j q w rl rr :
  wfu b (Node j q w rl rr) -> nocov (bits q) (entries rl ++ entries rr).
Proof.
  intros (_ & _ & Hl & Hr) e Hin Hc.
  rewrite in_app_iff in Hin. destruct Hin as [Hin|Hin].
  - eapply below_not_above; [eapply under_entries; [exact Hl | exact Hin] | exact Hc].
  - eapply below_not_above; [eapply under_entries; [exact Hr | exact Hin] | exact Hc].
Qed.

End Gen.

Arguments nocov {T}.

Notation treeL := (Trie.tree pfx L).
Notation treeR := (Trie.tree pfx R).
Notation wfL := (wf_under pfx L bits ok).
Notation wfR := (wf_under pfx R bits ok).
Notation lpmR := (SetOps.lpmR pfx R).

Notation uidx := (SetOps.uidx pfx L R).
Notation uentry := (SetOps.uentry pfx L R).
Notation uitem := (SetOps.uitem pfx L R).
Notation umitem := (SetOps.umitem pfx L R).
Notation ni := (u_next_indices pfx L R contains plen pzero mcmp).
Notation extend := (u_extend_lpm pfx L R).
Notation kids := (UnionThm.kids pfx L R contains is_bit_set plen pzero mcmp).
Notation isz := (UnionThm.isz pfx L R).
Notation u_expand := (SetOps.u_expand pfx L R contains is_bit_set plen pzero mcmp).
Notation um_expand := (SetOps.um_expand pfx L R contains is_bit_set plen pzero mcmp).
Notation union := (SetOps.union pfx L R contains is_bit_set plen pzero mcmp).
Notation union_mut := (SetOps.union_mut pfx L R contains is_bit_set plen pzero mcmp).
Notation eix := (UnionThm.eix pfx L R).
Notation ikey := (UnionThm.ikey pfx L R bits).
Notation union_spec := (UnionThm.union_spec pfx L R bits).
#[local] Arguments UBoth {pfx L R}.
#[local] Arguments UFirstL {pfx L R}.
#[local] Arguments UFirstR {pfx L R}.
#[local] Arguments UOnlyL {pfx L R}.
#[local] Arguments UOnlyR {pfx L R}.
#[local] Arguments ILeft {pfx L R}.
#[local] Arguments IRight {pfx L R}.
#[local] Arguments IBoth {pfx L R}.

(** no two entries of the list denote the same key *)
Definition kinj {T} (A : list (pfx * T)) : Prop :=
  forall e1 e2, In e1 A -> In e2 A -> bits (fst e1) = bits (fst e2) -> e1 = e2.

Lemma entries_kinj {T b} {t : tree pfx T} : wf_under pfx T bits ok b t -> kinj (entries t).
Proof. intros H e1 e2. exact (entries_key_inj pfx T bits ok b t e1 e2 H). Qed.

Lemma pick_extend {X} (g : uidx -> option X) la ra xs : pick (fun e => g (eix e)) (extend la ra xs) = pick g xs.
Proof. rewrite <- (pick_map g eix), extend_eix. reflexivity. Qed.

(** one-sided entries push one-sided entries of the same side *)
Lemma only_l_kids l : Forall (fun c => exists t, c = UOnlyL t) (kids (UOnlyL l)).
Proof.
  cbn [UnionThm.kids]. unfold u_only_l. destruct (is_node (tright l)), (is_node (tleft l)); repeat constructor; eexists; reflexivity.
Qed.
Lemma only_r_kids r : Forall (fun c => exists t, c = UOnlyR t) (kids (UOnlyR r)).
Proof.
  cbn [UnionThm.kids]. unfold u_only_r. destruct (is_node (tright r)), (is_node (tleft r)); repeat constructor; eexists; reflexivity.
Qed.

(** * intersection *)

Notation iidx := (SetOps.iidx pfx L R).
Notation i_next := (i_next_indices pfx L R contains plen pzero mcmp).
Notation i_expand := (SetOps.i_expand pfx L R contains is_bit_set plen pzero mcmp).
Notation im_expand := (SetOps.im_expand pfx L R contains is_bit_set plen pzero mcmp).
Notation intersection := (SetOps.intersection pfx L R contains is_bit_set plen pzero mcmp).
Notation intersection_mut := (SetOps.intersection_mut pfx L R contains is_bit_set plen pzero mcmp).
#[local] Arguments IxBoth {pfx L R}.
#[local] Arguments IxFirstA {pfx L R}.
#[local] Arguments IxFirstB {pfx L R}.

Definition ilt (x : iidx) : treeL := match x with IxBoth l _ | IxFirstA l _ | IxFirstB l _ => l end.
Definition irt (x : iidx) : treeR := match x with IxBoth _ r | IxFirstA _ r | IxFirstB _ r => r end.
Definition isize (x : iidx) : nat := tsize (ilt x) + tsize (irt x).

(** Naming of the prunings.  [gi], [gd] : [uidx -> option _]: the index of the pruned machine that
    an index of the union machine becomes, [None] when the entry is dropped ([dead] of
    [run_prune]); [ui], [ud]: their right inverses; [gde]: [gd] on entries, keeping the inherited
    right match.  [si], [sd], [sc] : [uitem -> option _] (and [sim] on the items of [union_mut]):
    the selection and projection of the union's items ([s] of [run_prune]).  The covering
    difference has a relation [Gc] and a predicate [Dc] in place of [gd _ = Some _] and
    [gd _ = None]: there an entry is dead also for the right match it inherited, which its index
    does not tell, and an entry whose own right root is valued is both kept (then popped without
    pushing) and dead.  [ilt], [irt], [dlt], [drt]: the two trees of an index ([UnionThm.ilt] is
    another thing, the order on items). *)
Definition gi (x : uidx) : option iidx :=
  match x with
  | UBoth l r => Some (IxBoth l r) | UFirstL l r => Some (IxFirstA l r) | UFirstR l r => Some (IxFirstB l r)
  | _ => None
  end.
Definition ui (x : iidx) : uidx :=
  match x with IxBoth l r => UBoth l r | IxFirstA l r => UFirstL l r | IxFirstB l r => UFirstR l r end.
Definition si (it : uitem) : option (pfx * L * R) :=
  match it with IBoth p l r => Some (p, l, r) | _ => None end.

Lemma i_next_prune a b : i_next a b = pick gi (ni a b).
Proof.
  unfold i_next_indices, u_next_indices. destruct (is_node a), (is_node b); try reflexivity.
  destruct (_ =? _)%N; [destruct (mcmp _ _); reflexivity|].
  destruct (contains _ _); [reflexivity|]. destruct (contains _ _); [reflexivity|]. destruct (mcmp _ _); reflexivity.
Qed.

Lemma i_next_shape a b :
  i_next a b = [] \/ exists x, i_next a b = [x] /\ ilt x = a /\ irt x = b.
Proof.
  unfold i_next_indices. destruct (is_node a), (is_node b); auto.
  destruct (plen _ =? plen _)%N.
  - destruct (mcmp _ _); auto. right. eexists. repeat split.
  - destruct (contains _ _); [right; eexists; repeat split|].
    destruct (contains _ _); [right; eexists; repeat split|]. auto.
Qed.

Lemma i_next_in a b c : In c (i_next a b) -> ilt c = a /\ irt c = b.
Proof.
  destruct (i_next_shape a b) as [->|[x [-> [E1 E2]]]]; [intros []|]. intros [<-|[]]. auto.
Qed.

Lemma i_kids_prune x x' : gi x = Some x' -> snd (i_expand x') = pick gi (kids x).
Proof.
  destruct x as [l r|l r|l r|l|r]; intros [= <-]; cbn [SetOps.i_expand snd UnionThm.kids].
  - rewrite pick_app, !i_next_prune. reflexivity.
  - unfold i_next_first_a, u_next_first_l. cbv zeta. destruct (is_node (tleft l)), (is_node (tright l));
      try destruct (to_right _ _ _ _ _); rewrite ?pick_app, ?i_next_prune; cbn [pick flat_map gi app];
      rewrite ?app_nil_r; reflexivity.
  - unfold i_next_first_b, u_next_first_r. cbv zeta. destruct (is_node (tleft r)), (is_node (tright r));
      try destruct (to_right _ _ _ _ _); rewrite ?pick_app, ?i_next_prune; cbn [pick flat_map gi app];
      rewrite ?app_nil_r; reflexivity.
Qed.

Lemma gi_dead x : gi x = None -> Forall (fun c => gi c = None) (kids x).
Proof.
  destruct x as [l r|l r|l r|l|r]; try discriminate; intros _;
    (eapply Forall_impl; [|apply only_l_kids || apply only_r_kids]); intros c [t ->]; reflexivity.
Qed.

Lemma i_dead_step e : gi (eix e) = None ->
  match fst (u_expand e) with Some a => si a | None => None end = None /\
  Forall (fun e => gi (eix e) = None) (snd (u_expand e)).
Proof.
  destruct e as [[x la] ra]. cbn [UnionThm.eix fst]. intros D.
  split; [|rewrite u_expand_snd; apply (extend_forall pfx L R (fun x => gi x = None)), gi_dead, D].
  destruct x as [l r|l r|l r|l|r]; try discriminate; cbn; destruct (tval _); reflexivity.
Qed.

Lemma i_step e x' : gi (eix e) = Some x' ->
  fst (i_expand x') = match fst (u_expand e) with Some a => si a | None => None end /\
  pruned uentry iidx (fun e x => gi (eix e) = Some x) (fun e => gi (eix e) = None) (snd (u_expand e)) (snd (i_expand x')).
Proof.
  destruct e as [[x la] ra]. cbn [UnionThm.eix fst]. intros H. split.
  - destruct x as [l r|l r|l r|l|r]; try discriminate; injection H as <-; cbn [SetOps.i_expand SetOps.u_expand fst];
      try destruct (tval l); try destruct (tval r); reflexivity.
  - rewrite u_expand_snd, (i_kids_prune x x' H), <- (pick_extend gi la ra). apply pruned_by.
Qed.

Theorem intersection_prune la ra n ta tb out :
  run uentry uitem u_expand n (rev (extend la ra (ni ta tb))) = Some out ->
  run iidx _ i_expand n (rev (i_next ta tb)) = Some (pick si out).
Proof.
  apply (run_prune uentry iidx uitem _ u_expand i_expand si _ _ i_dead_step (fun e x' H => or_intror (i_step e x' H))).
  apply pruned_rev. rewrite i_next_prune, <- (pick_extend gi la ra). apply pruned_by.
Qed.

Lemma gi_size a b : gi a = Some b -> isize b = isz a.
Proof. destruct a; intros [= <-]; reflexivity. Qed.

Lemma i_next_size a b : msize iidx isize (i_next a b) <= tsize a + tsize b.
Proof. rewrite i_next_prune. eapply Nat.le_trans; [apply (pick_size isz isize gi), gi_size | apply isz_ni]. Qed.

Lemma i_expand_size x : is_node (ilt x) = true -> is_node (irt x) = true ->
  msize iidx isize (snd (i_expand x)) < isize x.
Proof.
  intros Nl Nr. assert (H : gi (ui x) = Some x) by (destruct x; reflexivity).
  rewrite (i_kids_prune _ _ H), (gi_size _ _ H).
  eapply Nat.le_lt_trans; [apply (pick_size isz isize gi), gi_size | apply kids_size].
  destruct x; cbn [ui ilt irt] in *; split; assumption.
Qed.

(** exactly the keys stored in both operands, once, ascending, with both values; the reported
    prefix is the left operand's stored representation *)
Definition inter_spec (A : list (pfx * L)) (B : list (pfx * R)) (out : list (pfx * L * R)) : Prop :=
  StronglySorted (fun i j => lex_lt (bits (fst (fst i))) (bits (fst (fst j)))) out /\
  (forall p l r, In (p, l, r) out -> In (p, l) A /\ exists pr, In (pr, r) B /\ bits pr = bits p) /\
  (forall ea eb, In ea A -> In eb B -> bits (fst ea) = bits (fst eb) ->
                 In (fst ea, snd ea, snd eb) out).

(** the [IBoth] items of a union are the intersection *)
Lemma inter_of_union A B out : kinj A -> kinj B -> union_spec A B out -> inter_spec A B (pick si out).
Proof.
  intros KA KB (Hs & Hi & Hca & _). split; [|split].
  - apply (pick_sorted ikey (fun it => bits (fst (fst it))) si); [|exact Hs].
    intros [p l a|p a r|p l r] b [= <-]. reflexivity.
  - intros p l r Hin. apply in_pick in Hin. destruct Hin as [[p0 l0 a|p0 a r0|p0 l0 r0] [Hin [= -> -> ->]]].
    exact (Hi _ Hin).
  - intros ea eb Ha Hb E. destruct (Hca ea Ha) as [it [Hit Ek]]. specialize (Hi it Hit).
    apply in_pick. exists it. split; [exact Hit|].
    destruct it as [p l a|p a r|p l r]; unfold UnionThm.ikey in Ek.
    + destruct Hi as (_ & Hn & _). destruct (Hn eb Hb). congruence.
    + destruct Hi as (Hr & Hn & _). destruct (Hn ea Ha). congruence.
    + destruct Hi as (Hl & pr & Hr & Ep). cbn [si].
      rewrite <- (KA (p, l) ea Hl Ha Ek), <- (KB (pr, r) eb Hr Hb) by (cbn [fst]; congruence). reflexivity.
Qed.

Theorem intersection_correct ba bb ta tb : wfL ba ta -> wfR bb tb ->
  exists out, intersection ta tb = Some out /\ inter_spec (entries ta) (entries tb) out.
Proof.
  intros Ha Hb. destruct (union_correct pfx L R _ _ _ _ _ _ _ _ _ LAWS ba bb ta tb Ha Hb) as [out [E U]].
  exists (pick si out). split; [exact (intersection_prune None None _ ta tb out E)|].
  exact (inter_of_union _ _ _ (entries_kinj Ha) (entries_kinj Hb) U).
Qed.

Corollary intersection_disjoint ba bb ta tb : wfL ba ta -> wfR bb tb ->
  ~ prefix_of ba bb -> ~ prefix_of bb ba -> intersection ta tb = Some [].
Proof.
  intros Ha Hb N1 N2. destruct (intersection_correct _ _ _ _ Ha Hb) as [out [E [_ [H _]]]].
  rewrite E. f_equal. destruct out as [|[[p l] r] out]; [reflexivity|]. exfalso.
  destruct (H p l r (or_introl eq_refl)) as [HA [pr [HB Hk]]].
  pose proof (under_entries Ha _ HA) as U1. pose proof (under_entries Hb _ HB) as U2.
  cbn [fst] in *. rewrite Hk in U2.
  destruct (prefix_of_comparable _ _ _ U1 U2); contradiction.
Qed.

Definition iproj : imitem pfx L R -> pfx * L * R := fun '(p, (_, l), (_, r)) => (p, l, r).

Lemma im_sim x :
  fst (i_expand x) = option_map iproj (fst (im_expand x)) /\ snd (i_expand x) = snd (im_expand x).
Proof.
  destruct x as [l r|l r|l r]; cbn [SetOps.i_expand SetOps.im_expand fst snd]; split; try reflexivity.
  destruct l as [|i p [x|] ll lr]; try reflexivity. destruct r as [|j q [y|] rl rr]; reflexivity.
Qed.

(** the item selection for [intersection_mut] (not the hypothesis [sim] of Section [Sim]) *)
Definition sim (it : umitem) : option (imitem pfx L R) :=
  match it with (p, Some a, Some b) => Some (p, a, b) | _ => None end.

Lemma im_dead_step x : gi x = None ->
  match fst (um_expand x) with Some a => sim a | None => None end = None /\
  Forall (fun c => gi c = None) (snd (um_expand x)).
Proof.
  intros D. split; [|rewrite um_expand_snd; apply gi_dead, D].
  destruct x as [l r|l r|l r|l|r]; try discriminate; cbn; destruct (is_some _); try destruct (idval _ _); reflexivity.
Qed.

Lemma im_step x x' : gi x = Some x' ->
  fst (im_expand x') = match fst (um_expand x) with Some a => sim a | None => None end /\
  pruned uidx iidx (fun x x' => gi x = Some x') (fun x => gi x = None) (snd (um_expand x)) (snd (im_expand x')).
Proof.
  intros H. split.
  - destruct x as [l r|l r|l r|l|r]; try discriminate; injection H as <-; cbn [SetOps.im_expand SetOps.um_expand fst].
    + destruct l as [|i p [x|] ll lr], r as [|j q [y|] rl rr]; reflexivity.
    + destruct (is_some _); [destruct (idval _ _)|]; reflexivity.
    + destruct (is_some _); reflexivity.
  - rewrite um_expand_snd, <- (proj2 (im_sim x')), (i_kids_prune x x' H). apply pruned_by.
Qed.

(** [intersection_mut] is [union_mut] pruned in the same way: its slots are slots of [union_mut] *)
Theorem intersection_mut_prune ta tb outm :
  union_mut ta tb = Some outm -> intersection_mut ta tb = Some (pick sim outm).
Proof.
  apply (run_prune uidx iidx umitem _ um_expand im_expand sim _ _ im_dead_step (fun x x' H => or_intror (im_step x x' H))).
  apply pruned_rev. rewrite i_next_prune. apply pruned_by.
Qed.

Theorem intersection_mut_mirrors ba bb ta tb : wfL ba ta -> wfR bb tb ->
  exists out outm, intersection ta tb = Some out /\ intersection_mut ta tb = Some outm /\
    out = map (fun '(p, (_, l), (_, r)) => (p, l, r)) outm /\
    (forall p i l j r, In (p, (i, l), (j, r)) outm ->
       In (i, p, l) (entries_id ta) /\ exists pr, In (j, pr, r) (entries_id tb) /\ bits pr = bits p).
Proof.
  intros Ha Hb. destruct (intersection_correct _ _ _ _ Ha Hb) as [out [E _]].
  destruct (union_mut_mirrors pfx L R _ _ _ _ _ _ _ _ _ LAWS ba bb ta tb Ha Hb) as (_ & outm & _ & Em & _).
  pose proof (intersection_mut_prune ta tb outm Em) as Ei.
  exists out, (pick sim outm). split; [exact E|]. split; [exact Ei|]. split.
  - pose proof (run_sim _ _ _ _ _ _ im_sim (so_fuel pfx L R ta tb) (rev (i_next ta tb))) as S.
    unfold SetOps.intersection in E. unfold SetOps.intersection_mut in Ei. rewrite E, Ei in S. injection S as ->. reflexivity.
  - intros p i l j r Hin. apply in_pick in Hin. destruct Hin as [[[p0 [a|]] [b|]] [Hin [= -> -> ->]]].
    destruct (union_mut_slots pfx L R _ _ _ _ _ _ _ _ _ LAWS ba bb ta tb outm Ha Hb Em _ _ _ Hin) as [Hl Hr].
    split; [exact (Hl _ _ eq_refl) | exact (proj2 (Hr _ _ eq_refl))].
Qed.

(** * difference *)

Notation didx := (SetOps.didx pfx L R).
Notation d_next := (d_next_indices pfx L R contains plen pzero mcmp).
Notation d_first_a := (d_next_first_a pfx L R contains is_bit_set plen pzero mcmp).
Notation d_first_b := (d_next_first_b pfx L R contains is_bit_set plen pzero mcmp).
Notation d_ext := (d_extend_lpm pfx L R).
Notation d_only := (d_only_l pfx L R).
#[local] Arguments DBoth {pfx L R}.
#[local] Arguments DFirstL {pfx L R}.
#[local] Arguments DFirstR {pfx L R}.
#[local] Arguments DOnlyL {pfx L R}.

Definition dlt (x : didx) : treeL :=
  match x with DBoth l _ | DFirstL l _ | DFirstR l _ | DOnlyL l => l end.
Definition drt (x : didx) : treeR :=
  match x with DBoth _ r | DFirstL _ r | DFirstR _ r => r | DOnlyL _ => Leaf end.
Definition dsize (x : didx) : nat := tsize (dlt x) + tsize (drt x).
(** the entries pushed by one iteration (before the inherited match is attached) *)
Definition dchildren (x : didx) : list didx :=
  match x with
  | DBoth l r => d_next (tright l) (tright r) ++ d_next (tleft l) (tleft r)
  | DFirstL l r => d_first_a l r
  | DFirstR l r => d_first_b l r
  | DOnlyL l => d_only l
  end.
(** the match inherited by a pushed entry *)
Definition dext (rho : lpmR) (x : didx) : lpmR :=
  match x with DBoth _ r | DFirstR _ r => orelse (pv r) rho | _ => rho end.

Lemma d_ext_eq rho xs : d_ext rho xs = map (fun x => (x, dext rho x)) xs.
Proof. unfold d_extend_lpm. apply map_ext. intros [l r|l r|l r|l]; reflexivity. Qed.

Notation d_expand := (SetOps.d_expand pfx L R contains is_bit_set plen pzero mcmp).
Notation dm_expand := (SetOps.dm_expand pfx L R contains is_bit_set plen pzero mcmp).
Notation cd_expand := (SetOps.cd_expand pfx L R contains is_bit_set plen pzero mcmp).
Notation cdm_expand := (SetOps.cdm_expand pfx L R contains is_bit_set plen pzero mcmp).
Notation difference := (SetOps.difference pfx L R contains is_bit_set plen pzero mcmp).
Notation difference_mut := (SetOps.difference_mut pfx L R contains is_bit_set plen pzero mcmp).
Notation covering_difference := (SetOps.covering_difference pfx L R contains is_bit_set plen pzero mcmp).
Notation covering_difference_mut :=
  (SetOps.covering_difference_mut pfx L R contains is_bit_set plen pzero mcmp).

Definition gd (x : uidx) : option didx :=
  match x with
  | UBoth l r => Some (DBoth l r) | UFirstL l r => Some (DFirstL l r) | UFirstR l r => Some (DFirstR l r)
  | UOnlyL l => Some (DOnlyL l) | UOnlyR _ => None
  end.
Definition ud (x : didx) : uidx :=
  match x with DBoth l r => UBoth l r | DFirstL l r => UFirstL l r | DFirstR l r => UFirstR l r | DOnlyL l => UOnlyL l end.
Lemma ud_gd x : gd (ud x) = Some x.
Proof. destruct x; reflexivity. Qed.

Lemma gd_ud a b : gd a = Some b -> ud b = a.
Proof. destruct a; intros [= <-]; reflexivity. Qed.

Definition gde (e : uentry) : option (didx * lpmR) := option_map (fun x => (x, snd e)) (gd (eix e)).
Definition sd (it : uitem) : option (pfx * L * lpmR) :=
  match it with ILeft p l a => Some (p, l, a) | _ => None end.

Definition dsz (e : didx * lpmR) : nat := dsize (fst e).

Lemma d_expand_children x rho : snd (d_expand (x, rho)) = d_ext rho (dchildren x).
Proof.
  destruct x as [l r|l r|l r|l]; cbn [SetOps.d_expand snd dchildren]; try reflexivity.
  unfold d_extend_lpm. rewrite map_app. reflexivity.
Qed.

Lemma msize_d_ext rho xs : msize _ dsz (d_ext rho xs) = msize _ dsize xs.
Proof. rewrite d_ext_eq. unfold msize. rewrite map_map. reflexivity. Qed.

Lemma d_next_prune a b : d_next a b = pick gd (ni a b).
Proof.
  unfold d_next_indices, u_next_indices. destruct (is_node a), (is_node b); try reflexivity.
  destruct (_ =? _)%N; [destruct (mcmp _ _); reflexivity|].
  destruct (contains _ _); [reflexivity|]. destruct (contains _ _); [reflexivity|]. destruct (mcmp _ _); reflexivity.
Qed.

Lemma d_next_shape a b :
  d_next a b = [] \/ exists x, d_next a b = [x] /\ dlt x = a /\ tsize (drt x) <= tsize b.
Proof.
  unfold d_next_indices. destruct (is_node a); [|auto]. destruct (is_node b).
  - destruct (plen _ =? plen _)%N.
    + destruct (mcmp _ _); right; eexists; repeat split; first [apply le_n | apply Nat.le_0_l].
    + destruct (contains _ _); [right; eexists; repeat split; apply le_n|].
      destruct (contains _ _); right; eexists; repeat split; first [apply le_n | apply Nat.le_0_l].
  - right; eexists; repeat split; apply Nat.le_0_l.
Qed.

Lemma d_next_in a b c : In c (d_next a b) -> dlt c = a.
Proof.
  destruct (d_next_shape a b) as [->|[x [-> [E1 E2]]]]; [intros []|]. intros [<-|[]]. exact E1.
Qed.

Lemma d_kids_prune x x' : gd x = Some x' -> dchildren x' = pick gd (kids x).
Proof.
  destruct x as [l r|l r|l r|l|r]; intros [= <-]; cbn [dchildren UnionThm.kids].
  - rewrite pick_app, !d_next_prune. reflexivity.
  - unfold d_next_first_a, u_next_first_l. cbv zeta. destruct (is_node (tleft l)), (is_node (tright l));
      try destruct (to_right _ _ _ _ _); rewrite ?pick_app, ?d_next_prune; reflexivity.
  - unfold d_next_first_b, u_next_first_r. cbv zeta. destruct (is_node (tleft r)), (is_node (tright r));
      try destruct (to_right _ _ _ _ _); rewrite ?pick_app, ?d_next_prune; cbn [pick flat_map gd app];
      rewrite ?app_nil_r; reflexivity.
  - unfold d_only_l, u_only_l. destruct (is_node (tright l)), (is_node (tleft l)); reflexivity.
Qed.

Lemma d_ext_prune la ra xs : d_ext ra (pick gd xs) = pick gde (extend la ra xs).
Proof.
  induction xs as [|x xs IH]; [reflexivity|]. change (x :: xs) with ([x] ++ xs).
  unfold u_extend_lpm, d_extend_lpm in *. rewrite map_app, !pick_app, map_app, IH. f_equal. destruct x; reflexivity.
Qed.

Lemma gd_dead x : gd x = None -> Forall (fun c => gd c = None) (kids x).
Proof.
  destruct x as [l r|l r|l r|l|r]; try discriminate; intros _.
  eapply Forall_impl; [|apply only_r_kids]. intros c [t ->]. reflexivity.
Qed.

Lemma d_dead_step e : gde e = None -> match fst (u_expand e) with Some a => sd a | None => None end = None /\
                                      Forall (fun e => gde e = None) (snd (u_expand e)).
Proof.
  destruct e as [[x la] ra]. unfold gde at 1. cbn [UnionThm.eix fst]. intros D.
  assert (D' : gd x = None) by (destruct (gd x); [discriminate | reflexivity]). split.
  - destruct x as [l r|l r|l r|l|r]; try discriminate. cbn. destruct (tval _); reflexivity.
  - rewrite u_expand_snd. eapply Forall_impl; [|exact (extend_forall pfx L R (fun x => gd x = None) la ra _ (gd_dead x D'))].
    intros e He. unfold gde. rewrite He. reflexivity.
Qed.

Lemma d_step e e' : gde e = Some e' ->
  fst (d_expand e') = match fst (u_expand e) with Some a => sd a | None => None end /\
  pruned uentry _ (fun e e' => gde e = Some e') (fun e => gde e = None) (snd (u_expand e)) (snd (d_expand e')).
Proof.
  destruct e as [[x la] ra]. unfold gde at 1. cbn [UnionThm.eix fst snd].
  destruct (gd x) as [x'|] eqn:H; [|discriminate]. intros [= <-]. split.
  - destruct x as [l r|l r|l r|l|r]; try discriminate; injection H as <-; cbn [SetOps.d_expand SetOps.u_expand fst];
      try destruct (tval l); try destruct (tval r); reflexivity.
  - rewrite u_expand_snd, d_expand_children, (d_kids_prune x x' H), (d_ext_prune la). apply pruned_by.
Qed.

Theorem difference_prune la rho n ta tb out :
  run uentry uitem u_expand n (rev (extend la rho (ni ta tb))) = Some out ->
  run _ _ d_expand n (rev (d_ext rho (d_next ta tb))) = Some (pick sd out).
Proof.
  apply (run_prune uentry _ uitem _ u_expand d_expand sd _ _ d_dead_step (fun e x' H => or_intror (d_step e x' H))).
  apply pruned_rev. rewrite d_next_prune, (d_ext_prune la). apply pruned_by.
Qed.

Lemma gd_size a b : gd a = Some b -> dsize b = isz a.
Proof. destruct a; intros [= <-]; unfold dsize; cbn [dlt drt UnionThm.isz tsize]; lia. Qed.

Lemma d_next_size a b : msize didx dsize (d_next a b) <= tsize a + tsize b.
Proof. rewrite d_next_prune. eapply Nat.le_trans; [apply (pick_size isz dsize gd), gd_size | apply isz_ni]. Qed.

Lemma dchildren_size x : is_node (dlt x) = true ->
  match x with DOnlyL _ => True | _ => is_node (drt x) = true end ->
  msize didx dsize (dchildren x) < dsize x.
Proof.
  intros Nl Nr. rewrite (d_kids_prune _ _ (ud_gd x)), (gd_size _ _ (ud_gd x)).
  eapply Nat.le_lt_trans; [apply (pick_size isz dsize gd), gd_size | apply kids_size].
  destruct x; cbn [ud dlt drt] in *; try split; assumption.
Qed.

(** what an index on the stack of a difference holds, stated of the union's index it is ([ud])
    so that [ni_held] and [kids_held] pass through [pick gd]: nodes, the left one a subtree of the
    left operand [ta]; nothing is asked of the right one *)
Definition dheld (ta : treeL) (x : didx) : Prop := held pfx L R (sub pfx ta) (fun _ => True) (ud x).

Lemma pick_dheld ta xs : Forall (held pfx L R (sub pfx ta) (fun _ => True)) xs -> Forall (dheld ta) (pick gd xs).
Proof.
  rewrite !Forall_forall. intros H c Hc. apply in_pick in Hc. destruct Hc as [a [Ha G]].
  unfold dheld. rewrite (gd_ud a c G). exact (H a Ha).
Qed.

Lemma d_next_held ta a b : sub pfx ta a -> Forall (dheld ta) (d_next a b).
Proof. intros H. rewrite d_next_prune. apply pick_dheld, ni_held; trivial. apply sub_leaf. Qed.

Lemma dchildren_held ta x : dheld ta x -> Forall (dheld ta) (dchildren x).
Proof.
  intros H. rewrite (d_kids_prune _ x (ud_gd x)). apply pick_dheld.
  apply kids_held; [apply sub_children | auto | apply sub_leaf | trivial | exact H].
Qed.

Lemma dheld_sub ta x : dheld ta x -> sub pfx ta (dlt x).
Proof. intros (_ & H & _). destruct x; exact H. Qed.

(** the body of [UnionThm.lpm_ann] again *)
Definition lpm_ann {T} (B : list (pfx * T)) (p : pfx) (ann : option (pfx * T)) : Prop :=
  match ann with
  | Some e => Lookup.is_lpm pfx T bits B p e
  | None => Lookup.no_cover pfx T bits B p
  end.
(** the entries of the left operand whose key is not stored in the right operand, annotated
    with the longest-prefix match of the key in the right operand *)
Definition diff_spec (A : list (pfx * L)) (B : list (pfx * R))
                     (out : list (pfx * L * option (pfx * R))) : Prop :=
  StronglySorted (fun i j => lex_lt (bits (fst (fst i))) (bits (fst (fst j)))) out /\
  (forall p l ann, In (p, l, ann) out ->
     In (p, l) A /\ (forall e, In e B -> bits (fst e) <> bits p) /\ lpm_ann B p ann) /\
  (forall e, In e A -> (forall e', In e' B -> bits (fst e') <> bits (fst e)) ->
             exists ann, In (fst e, snd e, ann) out).

(** the [ILeft] items of a union, with their annotations, are the difference *)
Lemma diff_of_union A B out : kinj A -> union_spec A B out -> diff_spec A B (pick sd out).
Proof.
  intros KA (Hs & Hi & Hca & _). split; [|split].
  - apply (pick_sorted ikey (fun it => bits (fst (fst it))) sd); [|exact Hs].
    intros [p l a|p a r|p l r] b [= <-]. reflexivity.
  - intros p l a Hin. apply in_pick in Hin. destruct Hin as [[p0 l0 a0|p0 a0 r0|p0 l0 r0] [Hin [= -> -> ->]]].
    exact (Hi _ Hin).
  - intros e He Hn. destruct (Hca e He) as [it [Hit Ek]]. specialize (Hi it Hit).
    destruct it as [p l a|p a r|p l r]; unfold UnionThm.ikey in Ek.
    + exists a. apply in_pick. exists (ILeft p l a). split; [exact Hit|].
      rewrite <- (KA (p, l) e (proj1 Hi) He Ek). reflexivity.
    + destruct (Hn (p, r) (proj1 Hi) Ek).
    + destruct Hi as (_ & pr & Hr & Ep). destruct (Hn (pr, r) Hr). cbn [fst]. congruence.
Qed.

(** for any inherited matches and any sufficient fuel *)
Theorem difference_run la rho ba bb ta tb n : wfL ba ta -> wfR bb tb -> tsize ta + tsize tb <= n ->
  exists outu, UnionThm.uspec pfx L R bits (entries ta) (entries tb) la rho outu /\
               run _ _ d_expand n (rev (d_ext rho (d_next ta tb))) = Some (pick sd outu).
Proof.
  intros Ha Hb Hn.
  destruct (union_run pfx L R _ _ _ _ _ _ _ _ _ LAWS ba bb ta tb la rho n Ha Hb Hn) as [outu [E U]].
  exists outu. split; [exact U | exact (difference_prune la rho n ta tb outu E)].
Qed.

Theorem difference_correct ba bb ta tb : wfL ba ta -> wfR bb tb ->
  exists out, difference ta tb = Some out /\ diff_spec (entries ta) (entries tb) out.
Proof.
  intros Ha Hb. destruct (union_correct pfx L R _ _ _ _ _ _ _ _ _ LAWS ba bb ta tb Ha Hb) as [out [E U]].
  exists (pick sd out). split; [exact (difference_prune None None _ ta tb out E)|].
  exact (diff_of_union _ _ _ (entries_kinj Ha) U).
Qed.

(** the list form: the (prefix, value) pairs yielded are the left entries, in order, whose key
    is not stored on the right *)
Theorem difference_filter ba bb ta tb : wfL ba ta -> wfR bb tb ->
  exists out, difference ta tb = Some out /\
    map fst out =
    filter (fun e => negb (existsb (fun e' => Bits.beq (bits (fst e')) (bits (fst e))) (entries tb)))
           (entries ta).
Proof.
  intros Ha Hb. destruct (difference_correct _ _ _ _ Ha Hb) as [out [E (Hs & Hin & Hc)]].
  exists out. split; [exact E|].
  apply (filter_char pfx L bits); [exact (entries_sorted pfx L bits ok ba ta Ha) | apply ss_map; exact Hs|].
  intros e. rewrite in_map_iff, (negb_existsb _ _ _ (fun e' : pfx * R => beq_spec (bits (fst e')) (bits (fst e)))). split.
  - intros [[[p l] ann] [<- Hit]]. destruct (Hin p l ann Hit) as (H1 & H2 & _). split; assumption.
  - intros [H1 H2]. destruct (Hc e H1 H2) as [ann Hit]. exists (fst e, snd e, ann).
    split; [destruct e; reflexivity | exact Hit].
Qed.

(** * covering difference

    [cd_expand] also leaves an entry whose right root holds a value without pushing anything: from
    there on the union's inherited right match is never [None], so no [ILeft] item below is
    annotated [None].  [Gc]: the entry was pushed by an entry that inherited no right match.
    [Dc]: a right-only entry, or one that inherited a right match. *)

Definition sc (it : uitem) : option (pfx * L) :=
  match it with ILeft p l None => Some (p, l) | _ => None end.
Definition Gc (e : uentry) (x' : didx) : Prop :=
  gd (eix e) = Some x' /\
  match eix e with UBoth _ r | UFirstR _ r => snd e = pv r | _ => snd e = None end.
Definition Dc (e : uentry) : Prop := gd (eix e) = None \/ snd e <> None.

Lemma orelse_some {T} (a b : option T) : b <> None -> orelse a b <> None.
Proof. destruct a; [discriminate | trivial]. Qed.

Lemma c_dead_step e : Dc e -> match fst (u_expand e) with Some a => sc a | None => None end = None /\
                               Forall Dc (snd (u_expand e)).
Proof.
  destruct e as [[x la] ra]. unfold Dc at 1. cbn [UnionThm.eix fst snd]. intros D. split.
  - (* [sc] keeps an [ILeft] item only; one emitted here is annotated [ra], which is not [None] *)
    assert (S : forall p y, gd x <> None -> sc (ILeft p y ra) = None).
    { intros p y G. destruct D as [D|D]; [destruct (G D)|].
      destruct ra; [reflexivity | destruct D; reflexivity]. }
    destruct x as [l r|l r|l r|l|r]; cbn.
    + destruct (tval l), (tval r); try reflexivity. apply S. discriminate.
    + destruct (tval l); [apply S; discriminate | reflexivity].
    + destruct (tval r); reflexivity.
    + destruct (tval l); [apply S; discriminate | reflexivity].
    + destruct (tval r); reflexivity.
  - rewrite u_expand_snd. unfold u_extend_lpm. apply Forall_map, Forall_forall. intros c H. unfold Dc.
    destruct D as [D|D].
    + destruct x as [l r|l r|l r|l|r]; try discriminate. cbn [UnionThm.kids] in H |- *.
      left. revert c H. apply Forall_forall. unfold u_only_r.
      destruct (is_node (tright _)), (is_node (tleft _)); repeat constructor.
    + right. destruct c; cbn [snd]; try exact D; apply orelse_some; exact D.
Qed.

Lemma orelse_none {T} (a : option T) : orelse a None = a.
Proof. destruct a; reflexivity. Qed.

Lemma c_pruned la xs : pruned uentry didx Gc Dc (extend la None xs) (pick gd xs).
Proof.
  rewrite <- (pick_extend gd la None). apply pruned_pick. intros e He. unfold u_extend_lpm in He.
  apply in_map_iff in He. destruct He as [x [<- _]]. unfold Gc, Dc.
  destruct x; cbn [UnionThm.eix fst snd gd]; auto; (split; [reflexivity | apply orelse_none]).
Qed.

Lemma c_step e x' : Gc e x' ->
  (Dc e /\ cd_expand x' = (None, [])) \/
  (fst (cd_expand x') = match fst (u_expand e) with Some a => sc a | None => None end /\
   pruned uentry didx Gc Dc (snd (u_expand e)) (snd (cd_expand x'))).
Proof.
  destruct e as [[x la] ra]. unfold Gc, Dc. cbn [UnionThm.eix fst snd]. intros [H C].
  assert (K : pruned uentry didx Gc Dc (extend la None (kids x)) (dchildren x')).
  { rewrite (d_kids_prune x x' H). apply c_pruned. }
  rewrite u_expand_snd.
  destruct x as [l r|l r|l r|l|r]; try discriminate; injection H as <-; subst ra.
  - (* [DBoth]: at a valued right root covering difference stops, where difference goes on *)
    destruct r as [|j q [y|] rl rr].
    + right. split; [cbn; destruct (tval l); reflexivity | exact K].
    + left. split; [right; discriminate | reflexivity].
    + right. split; [cbn; destruct (tval l); reflexivity | exact K].
  - right. split; [cbn; destruct (tval l); reflexivity | exact K].
  - (* [DFirstR]: likewise *)
    destruct r as [|j q [y|] rl rr].
    + right. split; [reflexivity | exact K].
    + left. split; [right; discriminate | reflexivity].
    + right. split; [reflexivity | exact K].
  - right. split; [cbn; destruct (tval l); reflexivity | exact K].
Qed.

Theorem covering_difference_prune la n ta tb out :
  run uentry uitem u_expand n (rev (extend la None (ni ta tb))) = Some out ->
  run didx _ cd_expand n (rev (d_next ta tb)) = Some (pick sc out).
Proof.
  apply (run_prune uentry didx uitem _ u_expand cd_expand sc Gc Dc c_dead_step c_step).
  apply pruned_rev. rewrite d_next_prune. apply c_pruned.
Qed.

(** the entries of the left operand whose key is not covered by any key of the right operand *)
Definition cdiff_spec (A : list (pfx * L)) (B : list (pfx * R)) (out : list (pfx * L)) : Prop :=
  StronglySorted (fun i j => lex_lt (bits (fst i)) (bits (fst j))) out /\
  (forall e, In e out <->
             In e A /\ forall e', In e' B -> ~ prefix_of (bits (fst e')) (bits (fst e))).

(** the [ILeft] items of a union annotated [None] are the covering difference *)
Lemma cdiff_of_union A B out : kinj A -> union_spec A B out -> cdiff_spec A B (pick sc out).
Proof.
  intros KA (Hs & Hi & Hca & _). split.
  - apply (pick_sorted ikey (fun it => bits (fst it)) sc); [|exact Hs].
    intros [p l [a|]|p a r|p l r] b [= <-]. reflexivity.
  - intros e. rewrite in_pick. split.
    + intros [[p l [a|]|p a r|p l r] [Hit [= <-]]]. destruct (Hi _ Hit) as (Hl & _ & Hn). split; [exact Hl | exact Hn].
    + intros [He Hn]. destruct (Hca e He) as [it [Hit Ek]]. exists it. split; [exact Hit|]. specialize (Hi it Hit).
      destruct it as [p l a|p a r|p l r]; unfold UnionThm.ikey in Ek.
      * destruct Hi as (Hl & _ & Ha). rewrite <- (KA (p, l) e Hl He Ek). destruct a as [e'|]; [|reflexivity].
        destruct Ha as (Hb & Hc & _). destruct (Hn e' Hb). rewrite <- Ek. exact Hc.
      * destruct (Hn (p, r) (proj1 Hi)). cbn [fst]. rewrite Ek. apply prefix_of_refl.
      * destruct Hi as (_ & pr & Hr & Ep). destruct (Hn (pr, r) Hr). cbn [fst]. rewrite Ep, Ek. apply prefix_of_refl.
Qed.

Theorem covering_difference_correct ba bb ta tb : wfL ba ta -> wfR bb tb ->
  exists out, covering_difference ta tb = Some out /\ cdiff_spec (entries ta) (entries tb) out.
Proof.
  intros Ha Hb. destruct (union_correct pfx L R _ _ _ _ _ _ _ _ _ LAWS ba bb ta tb Ha Hb) as [out [E U]].
  exists (pick sc out). split; [exact (covering_difference_prune None _ ta tb out E)|].
  exact (cdiff_of_union _ _ _ (entries_kinj Ha) U).
Qed.

Lemma cd_children x o cs : cd_expand x = (o, cs) -> cs = dchildren x \/ cs = [].
Proof.
  destruct x as [l r|l r|l r|l]; cbn [SetOps.cd_expand dchildren]; try destruct (is_some (tval r));
    intros H; inversion H; auto.
Qed.

Lemma cd_expand_size x : is_node (dlt x) = true ->
  match x with DOnlyL _ => True | _ => is_node (drt x) = true end ->
  msize didx dsize (snd (cd_expand x)) < dsize x.
Proof.
  intros Nl Nr. pose proof (dchildren_size x Nl Nr) as H.
  destruct (cd_children x _ _ (surjective_pairing _)) as [->| ->]; [exact H|].
  unfold msize in *. cbn [map list_sum fold_right]. lia.
Qed.

Definition dproj : dmitem pfx L R -> pfx * L * lpmR := fun '(p, (_, l), ann) => (p, l, ann).
Definition cproj : pfx * (N * L) -> pfx * L := fun '(p, (_, l)) => (p, l).

Lemma dm_sim e :
  fst (d_expand e) = option_map dproj (fst (dm_expand e)) /\ snd (d_expand e) = snd (dm_expand e).
Proof.
  destruct e as [x rho]. destruct x as [l r|l r|l r|l];
    cbn [SetOps.d_expand SetOps.dm_expand fst snd]; split; try reflexivity;
    destruct l as [|i p [x|] ll lr]; try reflexivity.
  cbn [tval idval]. destruct (is_none (tval r)); reflexivity.
Qed.

Lemma cdm_sim x :
  fst (cd_expand x) = option_map cproj (fst (cdm_expand x)) /\ snd (cd_expand x) = snd (cdm_expand x).
Proof.
  destruct x as [l r|l r|l r|l]; cbn [SetOps.cd_expand SetOps.cdm_expand];
    try destruct (is_some (tval r)); cbn [fst snd]; split; try reflexivity;
    destruct l as [|i p [x|] ll lr]; reflexivity.
Qed.

Lemma dm_item x rho p i l ann :
  fst (dm_expand (x, rho)) = Some (p, (i, l), ann) -> In (i, p, l) (entries_id (dlt x)).
Proof.
  intros H.
  assert (E : idval pfx (dlt x) = Some (i, l) /\ p = tpfx pfx L pzero (dlt x)).
  { destruct x as [a r|a r|a r|a]; cbn [SetOps.dm_expand fst dlt] in *; try discriminate;
      destruct (idval pfx a) as [[i0 l0]|]; try discriminate; try destruct (is_none (tval r)); try discriminate;
      injection H as <- <- <- <-; split; reflexivity. }
  destruct E as [E ->]. apply idval_in. exact E.
Qed.

Lemma cdm_item x p i l :
  fst (cdm_expand x) = Some (p, (i, l)) -> In (i, p, l) (entries_id (dlt x)).
Proof.
  intros H.
  assert (E : idval pfx (dlt x) = Some (i, l) /\ p = tpfx pfx L pzero (dlt x)).
  { destruct x as [a r|a r|a r|a]; cbn [SetOps.cdm_expand dlt] in *; try destruct (is_some (tval r));
      cbn [fst] in H; try discriminate;
      destruct (idval pfx a) as [[i0 l0]|]; try discriminate; injection H as <- <- <-; split; reflexivity. }
  destruct E as [E ->]. apply idval_in. exact E.
Qed.

Theorem difference_mut_mirrors ba bb ta tb : wfL ba ta -> wfR bb tb ->
  exists out outm, difference ta tb = Some out /\ difference_mut ta tb = Some outm /\
    out = map (fun '(p, (_, l), ann) => (p, l, ann)) outm /\
    (forall p i l ann, In (p, (i, l), ann) outm -> In (i, p, l) (entries_id ta)).
Proof.
  intros Ha Hb. destruct (difference_correct _ _ _ _ Ha Hb) as [out [E _]].
  destruct (run_mirror d_expand dm_expand dproj
              (fun e => dheld ta (fst e))
              (fun '(p, (i, l), _) => In (i, p, l) (entries_id ta)) (run_sim _ _ _ _ _ _ dm_sim))
    with (n := so_fuel pfx L R ta tb) (st := rev (d_ext None (d_next ta tb))) (out := out)
    as (outm & Em & -> & HQ).
  - intros [x rho] I1. cbn [fst] in I1. rewrite <- (proj2 (dm_sim (x, rho))), d_expand_children. split.
    + rewrite d_ext_eq. apply Forall_map. exact (dchildren_held ta x I1).
    + intros [[p [i l]] ann] H. exact (dheld_sub ta x I1 _ (dm_item _ _ _ _ _ _ H)).
  - exact E.
  - apply Forall_rev. rewrite d_ext_eq. apply Forall_map. apply d_next_held. intros e He. exact He.
  - exists (map dproj outm), outm. split; [exact E|]. split; [exact Em|]. split; [reflexivity|].
    intros p i l ann Hin. rewrite Forall_forall in HQ. exact (HQ _ Hin).
Qed.

Theorem covering_difference_mut_mirrors ba bb ta tb : wfL ba ta -> wfR bb tb ->
  exists out outm, covering_difference ta tb = Some out /\ covering_difference_mut ta tb = Some outm /\
    out = map (fun '(p, (_, l)) => (p, l)) outm /\
    (forall p i l, In (p, (i, l)) outm -> In (i, p, l) (entries_id ta)).
Proof.
  intros Ha Hb. destruct (covering_difference_correct _ _ _ _ Ha Hb) as [out [E _]].
  destruct (run_mirror cd_expand cdm_expand cproj
              (dheld ta)
              (fun '(p, (i, l)) => In (i, p, l) (entries_id ta)) (run_sim _ _ _ _ _ _ cdm_sim))
    with (n := so_fuel pfx L R ta tb) (st := rev (d_next ta tb)) (out := out)
    as (outm & Em & -> & HQ).
  - intros x I1. rewrite <- (proj2 (cdm_sim x)). split.
    + destruct (cd_children x _ _ (surjective_pairing _)) as [-> | ->]; [exact (dchildren_held ta x I1) | constructor].
    + intros [p [i l]] H. exact (dheld_sub ta x I1 _ (cdm_item _ _ _ _ H)).
  - exact E.
  - apply Forall_rev, d_next_held. intros e He. exact He.
  - exists (map cproj outm), outm. split; [exact E|]. split; [exact Em|]. split; [reflexivity|].
    intros p i l Hin. rewrite Forall_forall in HQ. exact (HQ _ Hin).
Qed.

(** Termination on ANY two trees (no law, no well-formedness): the union machine stops by its
    measure, the others are prunings or mirrors of a machine that stops. *)
Theorem intersection_total ta tb : exists out, intersection ta tb = Some out.
Proof.
  destruct (union_total pfx L R contains is_bit_set plen pzero mcmp ta tb) as [out E].
  exists (pick si out). exact (intersection_prune None None _ ta tb out E).
Qed.

Theorem intersection_mut_total ta tb : exists outm, intersection_mut ta tb = Some outm.
Proof.
  destruct (union_mut_total pfx L R contains is_bit_set plen pzero mcmp ta tb) as [outm E].
  exists (pick sim outm). exact (intersection_mut_prune ta tb outm E).
Qed.

Theorem difference_total ta tb : exists out, difference ta tb = Some out.
Proof.
  destruct (union_total pfx L R contains is_bit_set plen pzero mcmp ta tb) as [out E].
  exists (pick sd out). exact (difference_prune None None _ ta tb out E).
Qed.

Theorem difference_mut_total ta tb : exists outm, difference_mut ta tb = Some outm.
Proof. exact (run_sim_total _ _ _ _ _ _ dm_sim _ _ (difference_total ta tb)). Qed.

Theorem covering_difference_total ta tb : exists out, covering_difference ta tb = Some out.
Proof.
  destruct (union_total pfx L R contains is_bit_set plen pzero mcmp ta tb) as [out E].
  exists (pick sc out). exact (covering_difference_prune None _ ta tb out E).
Qed.

Theorem covering_difference_mut_total ta tb : exists outm, covering_difference_mut ta tb = Some outm.
Proof. exact (run_sim_total _ _ _ _ _ _ cdm_sim _ _ (covering_difference_total ta tb)). Qed.

Theorem setops_total ta tb :
  union ta tb <> None /\ union_mut ta tb <> None /\
  intersection ta tb <> None /\ intersection_mut ta tb <> None /\
  difference ta tb <> None /\ difference_mut ta tb <> None /\
  covering_difference ta tb <> None /\ covering_difference_mut ta tb <> None.
Proof.
  assert (H : forall X (o : option X), (exists x, o = Some x) -> o <> None) by (intros X o [x ->]; discriminate).
  repeat split; apply H;
    [ apply union_total | apply union_mut_total | apply intersection_total | apply intersection_mut_total
    | apply difference_total | apply difference_mut_total | apply covering_difference_total
    | apply covering_difference_mut_total ].
Qed.

End ID.

Print Assumptions intersection_correct.
Print Assumptions intersection_disjoint.
Print Assumptions covering_difference_correct.
Print Assumptions difference_correct.
Print Assumptions difference_filter.
Print Assumptions intersection_mut_mirrors.
Print Assumptions difference_mut_mirrors.
Print Assumptions covering_difference_mut_mirrors.

