(** Views, continued (for C11 / C12):
    - the iterators of a view against the entry list; results of [find] / [left] / [right] as
      *filters* of the entry list of the view (list equalities, hence order included);
    - the value of a view is the value stored exactly at its prefix;
    - [find_exact] is [find] restricted to stored queries; [find_lpm] is [find_exact] at the longest
      stored prefix covering the query;
    - closure: every view reachable by left / right / find / find_exact / find_lpm from a
      well-formed view is well-formed and addresses a subset of the entries;
    - canonical trees (insert / remove / retain / clear histories): every view below the map's root
      holds at least one entry, hence a sub-view or side exists exactly when it is non-empty. *)
From Coq Require Import List NArith Bool Lia Sorted.
From PT Require Import Bits BitsThm Laws Trie Views TrieWf Lookup Lookup2 ViewsThm Canon.
Import ListNotations.

Section VX.
Variables (pfx V : Type).
Variables (peq contains : pfx -> pfx -> bool) (is_bit_set : pfx -> N -> bool)
          (plen : pfx -> N) (lcp : pfx -> pfx -> pfx) (pzero : pfx)
          (mcmp : pfx -> pfx -> comparison).
Variable bits : pfx -> list bool.
Variable ok : pfx -> Prop.
Hypothesis LAWS : prefix_laws pfx peq contains is_bit_set plen lcp pzero mcmp bits ok.

Notation tree := (tree pfx V).
Notation view := (view pfx V).
Notation to_right := (to_right pfx is_bit_set plen).
Notation wf_root := (wf_root pfx V bits ok).
Notation key := (key pfx V bits).
Notation key_lt := (key_lt pfx V bits).
Notation tpfx := (tpfx pfx V pzero).
Notation find_walk := (find_walk pfx V peq contains is_bit_set plen).
Notation v_find := (v_find pfx V peq contains is_bit_set plen).
Notation view_at := (view_at pfx V peq contains is_bit_set plen).
Notation get := (Trie.get pfx V peq contains is_bit_set plen).
Notation v_find_exact := (v_find_exact pfx V peq contains is_bit_set plen).
Notation v_find_lpm := (v_find_lpm pfx V peq contains is_bit_set plen).
Notation v_left := (v_left pfx V is_bit_set plen pzero).
Notation v_right := (v_right pfx V is_bit_set plen pzero).
Notation v_prefix := (v_prefix pfx V pzero).
Notation view_wf := (ViewsThm.view_wf pfx V pzero bits ok).
Notation v_entries := (ViewsThm.v_entries pfx V).
Notation side_prefix := (ViewsThm.side_prefix pfx V pzero bits).
Notation is_lpm := (Lookup.is_lpm pfx V bits).
Notation canon_below := (Canon.canon_below pfx V).
Notation canonical := (Canon.canonical pfx V).

Local Notation L_peq_refl := (peq_refl_bits pfx peq contains is_bit_set plen lcp pzero mcmp bits ok LAWS).
Local Notation L_contains_true := (contains_true pfx peq contains is_bit_set plen lcp pzero mcmp bits ok LAWS).
Local Notation L_v_find_cases := (v_find_cases pfx V peq contains is_bit_set plen lcp pzero mcmp bits ok LAWS).
Local Notation L_v_find_spec := (v_find_spec pfx V peq contains is_bit_set plen lcp pzero mcmp bits ok LAWS).
Local Notation L_v_find_some := (v_find_some pfx V peq contains is_bit_set plen lcp pzero mcmp bits ok LAWS).
Local Notation L_v_find_none := (v_find_none pfx V peq contains is_bit_set plen lcp pzero mcmp bits ok LAWS).
Local Notation filter_char := (filter_char pfx V bits).
Local Notation L_v_side_spec := (v_side_spec pfx V peq contains is_bit_set plen lcp pzero mcmp bits ok LAWS).
Local Notation L_v_find_exact_spec := (v_find_exact_spec pfx V peq contains is_bit_set plen lcp pzero mcmp bits ok LAWS).
Local Notation L_v_find_exact_eq := (v_find_exact_eq pfx V peq contains is_bit_set plen lcp pzero mcmp bits ok LAWS).
Local Notation L_v_find_lpm_spec := (v_find_lpm_spec pfx V peq contains is_bit_set plen lcp pzero mcmp bits ok LAWS).
Local Notation find_walk_node := (find_walk_node pfx V peq contains is_bit_set plen).
Local Notation find_walk_below := (find_walk_below pfx V peq contains is_bit_set plen).
Local Notation descent_ind := (descent_ind pfx V peq contains is_bit_set plen).

Lemma filter_none (f : pfx * V -> bool) (l : list (pfx * V)) :
  (forall e, In e l -> f e <> true) -> filter f l = [].
Proof.
  induction l as [|x l IH]; intros H; [reflexivity|]. cbn [filter].
  destruct (f x) eqn:E; [exfalso; apply (H x); [left; reflexivity | exact E]|].
  apply IH. intros e He. apply H. right. exact He.
Qed.

(** "covered by the bit string [k]" as a boolean test on entries ([UnionThm.under] is a
    proposition about an entry list) *)
Definition under (k : list bool) (e : pfx * V) : bool := is_prefix k (key e).

Lemma under_spec k e : under k e = true <-> prefix_of k (key e).
Proof. apply is_prefix_spec. Qed.

(** a search that answers [None] only when no entry qualifies, and whose answers come with a
    qualifying entry, answers exactly when some entry qualifies *)
Lemma some_iff_exists {A B} {o : option A} {R : A -> Prop} {es : list B} {Q : B -> Prop} :
  match o with Some a => R a | None => forall e, In e es -> ~ Q e end ->
  (forall a, o = Some a -> R a -> exists e, In e es /\ Q e) ->
  (o <> None <-> exists e, In e es /\ Q e).
Proof.
  intros Hs Hex. split.
  - destruct o as [a|]; [intros _; exact (Hex a eq_refl Hs) | intros H; destruct (H eq_refl)].
  - intros [e [Hin Hq]] E. rewrite E in Hs. exact (Hs e Hin Hq).
Qed.

(** every iterator of a view ([iter], [keys], [values], [into_iter]) yields the view's entries *)
Theorem v_iter_entries (v : view) : map (Lookup2.drop_id pfx V) (v_iter v) = v_entries v.
Proof. unfold v_iter, ViewsThm.v_entries. rewrite iter_items_spec. apply entries_id_entries. Qed.

Theorem v_entries_sorted (v : view) : view_wf v -> StronglySorted key_lt (v_entries v).
Proof. intros [_ [[b Hwf] _]]. exact (entries_sorted pfx V bits ok b _ Hwf). Qed.

Lemma v_entries_ok (v : view) e : view_wf v -> In e (v_entries v) -> ok (fst e).
Proof. intros [_ [[b Hwf] _]] Hin. exact (entries_ok pfx V bits ok b _ e Hwf Hin). Qed.

Lemma v_entries_key_inj (v : view) e1 e2 :
  view_wf v -> In e1 (v_entries v) -> In e2 (v_entries v) -> key e1 = key e2 -> e1 = e2.
Proof. intros [_ [[b Hwf] _]]. exact (entries_key_inj pfx V bits ok b _ e1 e2 Hwf). Qed.

(** [find q]: the entry list of the result is the entry list of the view filtered by "covered by
    [q]" (same entries, same order); no result only if the filter is empty *)
Lemma v_find_filter_some (v : view) q v' :
  view_wf v -> ok q -> v_find v q = Some v' -> v_entries v' = filter (under (bits q)) (v_entries v).
Proof.
  intros Hv Hq H. destruct (L_v_find_some v q v' Hv Hq H) as [Hv' [_ Hm]].
  apply filter_char; [apply v_entries_sorted; exact Hv | apply v_entries_sorted; exact Hv'|].
  intros e. rewrite under_spec. apply Hm.
Qed.

Lemma v_find_filter_none (v : view) q :
  view_wf v -> ok q -> v_find v q = None -> filter (under (bits q)) (v_entries v) = [].
Proof.
  intros Hv Hq H. apply filter_none. intros e He. rewrite under_spec. exact (L_v_find_none v q Hv Hq H e He).
Qed.

Theorem v_find_filter (v : view) q :
  view_wf v -> ok q ->
  match v_find v q with
  | Some v' => v_entries v' = filter (under (bits q)) (v_entries v)
  | None => filter (under (bits q)) (v_entries v) = []
  end.
Proof.
  intros Hv Hq. destruct (v_find v q) as [v'|] eqn:E;
    [exact (v_find_filter_some v q v' Hv Hq E) | exact (v_find_filter_none v q Hv Hq E)].
Qed.

(** [left()] ([s = false]) / [right()] ([s = true]): the filter by "next bit after the view's
    prefix is [s]" *)
Theorem v_side_filter (v : view) (s : bool) :
  view_wf v ->
  match (if s then v_right v else v_left v) with
  | Some v' => v_entries v' = filter (under (side_prefix v s)) (v_entries v)
  | None => filter (under (side_prefix v s)) (v_entries v) = []
  end.
Proof.
  intros Hv. pose proof (L_v_side_spec v s Hv) as H.
  destruct (if s then v_right v else v_left v) as [v'|].
  - destruct H as [Hv' [_ Hm]]. apply filter_char; [apply v_entries_sorted; exact Hv | apply v_entries_sorted; exact Hv'|].
    intros e. rewrite under_spec. apply Hm.
  - apply filter_none. intros e He. rewrite under_spec. apply H. exact He.
Qed.

(** [value()] is the value stored in the view exactly at the view's prefix ([None] otherwise) *)
Theorem v_value_spec (v : view) x :
  view_wf v ->
  (v_value v = Some x <-> exists p, In (p, x) (v_entries v) /\ bits p = bits (v_prefix v)).
Proof.
  intros Hv. split.
  - intros H. exists (v_prefix v). split; [exact (v_value_in pfx V pzero v x H) | reflexivity].
  - intros [p [Hin Hk]]. destruct (v_own_entry pfx V pzero bits ok v (p, x) Hv Hin Hk) as [_ [_ H]]. exact H.
Qed.

Theorem v_find_value (v : view) q v' x :
  view_wf v -> ok q -> v_find v q = Some v' ->
  (v_value v' = Some x <-> exists p, In (p, x) (v_entries v) /\ bits p = bits q).
Proof.
  intros Hv Hq H. destruct (L_v_find_some v q v' Hv Hq H) as [Hv' [Hk Hm]].
  rewrite (v_value_spec v' x Hv'). rewrite Hk. split.
  - intros [p [Hin Hp]]. exists p. split; [apply Hm in Hin; tauto | exact Hp].
  - intros [p [Hin Hp]]. exists p. split; [|exact Hp]. apply Hm. split; [exact Hin|].
    unfold TrieWf.key. cbn [fst]. rewrite Hp. apply prefix_of_refl.
Qed.

Lemma view_at_value_get (T : tree) q v :
  wf_root T -> ok q -> view_at T q = Some v -> v_value v = get T q.
Proof.
  intros HT Hq H.
  assert (E : forall x, v_value v = Some x <-> get T q = Some x).
  { intros x. rewrite (v_find_value (view_of T) q v x (view_wf_root pfx V pzero bits ok T HT) Hq H).
    symmetry. exact (get_spec_root pfx V peq contains is_bit_set plen lcp pzero mcmp bits ok LAWS T q x HT Hq). }
  destruct (v_value v) as [x|]; [symmetry; apply E; reflexivity|].
  destruct (get T q) as [y|]; [apply E; reflexivity | reflexivity].
Qed.

Definition opt_entries (o : option view) : list (pfx * V) :=
  match o with Some v' => v_entries v' | None => [] end.
Definition own_entry (v : view) : list (pfx * V) :=
  match v_prefix_value v with Some e => [e] | None => [] end.

(** the entry list of a view IS its own entry followed by the entries of [left()] followed by the
    entries of [right()] (purely structural; holds for every view) *)
Theorem v_entries_decomp (v : view) :
  v_entries v = own_entry v ++ opt_entries (v_left v) ++ opt_entries (v_right v).
Proof.
  unfold own_entry, opt_entries, ViewsThm.v_entries. destruct v as [t|p t]; cbn [v_tree Views.v_prefix_value Views.v_left Views.v_right].
  - destruct t as [|i p0 v0 l r]; [reflexivity|]. cbn [tleft tright pv entries].
    destruct v0, l, r; cbn [app v_tree]; rewrite ?app_nil_r; reflexivity.
  - destruct (to_right p (tpfx t)); cbn [negb app v_tree]; [reflexivity | rewrite app_nil_r; reflexivity].
Qed.

(** the literal [prefix()] of a virtual result of [find q] is [q] itself (as passed, host bits
    included); a real result carries the stored node's prefix *)
Lemma find_walk_virt t : forall q p c, find_walk t q = Some (VVirt p c) -> p = q.
Proof.
  intros q p c.
  induction t as [|i p0 v l r E|i p0 v l r E S|i p0 v l r ci cp cv cl cr E Ec C IH] using (descent_ind q);
    intros H.
  - discriminate.
  - rewrite find_walk_node, E in H. discriminate.
  - rewrite find_walk_node, E in H. destruct (child_of pfx V l r (to_right p0 q)) as [|ci cp cv cl cr]; [discriminate|].
    rewrite S in H. destruct (contains q cp); [|discriminate]. injection H as <- _. reflexivity.
  - rewrite find_walk_node, E, Ec, C in H. exact (IH H).
Qed.

Theorem v_find_virt_prefix (v : view) q p c : v_find v q = Some (VVirt p c) -> p = q.
Proof.
  unfold Views.v_find. destruct (v_tree v) as [|i p0 v0 l r]; [discriminate|].
  destruct (contains q p0 && negb (peq p0 q)); [intros H; inversion H; reflexivity|].
  apply find_walk_virt.
Qed.

Theorem v_find_exact_find (v : view) q v' :
  view_wf v -> ok q -> v_find_exact v q = Some v' -> v_find v q = Some v'.
Proof.
  intros Hv Hq H. rewrite (L_v_find_exact_eq v q Hv Hq) in H. exact (proj1 (if_valued_some pfx V H)).
Qed.

Theorem v_find_exact_iff (v : view) q :
  view_wf v -> ok q ->
  (v_find_exact v q <> None <-> exists e, In e (v_entries v) /\ key e = bits q).
Proof.
  intros Hv Hq. apply (some_iff_exists (L_v_find_exact_spec v q Hv Hq)).
  intros v' _ [_ [_ [Hk [x [_ Hin]]]]]. exists (v_prefix v', x). split; [exact Hin | exact Hk].
Qed.

Theorem v_find_exact_full (v : view) q v' :
  view_wf v -> ok q -> v_find_exact v q = Some v' ->
  view_wf v' /\ v_is_virtual v' = false /\ bits (v_prefix v') = bits q /\
  (exists x, v_value v' = Some x /\ In (v_prefix v', x) (v_entries v)) /\
  (forall e, In e (v_entries v') <-> In e (v_entries v) /\ prefix_of (bits q) (key e)).
Proof.
  intros Hv Hq H. pose proof (L_v_find_exact_spec v q Hv Hq) as Hs. rewrite H in Hs.
  destruct Hs as [A [B [C D]]]. split; [exact A|]. split; [exact B|]. split; [exact C|]. split; [exact D|].
  exact (proj2 (proj2 (L_v_find_some v q v' Hv Hq (v_find_exact_find v q v' Hv Hq H)))).
Qed.

Theorem v_find_lpm_full (v : view) q v' :
  view_wf v -> ok q -> v_find_lpm v q = Some v' ->
  exists e, is_lpm (v_entries v) q e /\ v_prefix_value v' = Some e /\ v_find_exact v (fst e) = Some v'.
Proof.
  intros Hv Hq H. pose proof (L_v_find_lpm_spec v q Hv Hq) as Hs. rewrite H in Hs.
  destruct Hs as [e [Hvirt [Hpv Hlpm]]]. exists e. split; [exact Hlpm|]. split; [exact Hpv|].
  destruct Hv as [Hn [[b Hwf] _]]. unfold Views.v_find_lpm in H. unfold Views.v_find_exact.
  destruct (v_tree v) as [|i p v0 l r] eqn:Et; [discriminate|].
  destruct (contains p q) eqn:C; [|discriminate].
  destruct (find_lpm_walk_exact pfx V peq contains is_bit_set plen lcp pzero mcmp bits ok LAWS _ b q None v' Hwf Hq H)
    as [Hb|[t' [-> Hex]]]; [discriminate|].
  cbn [Views.v_prefix_value] in Hpv. destruct t' as [|i' p' [x'|] l' r']; cbn [pv] in Hpv; try discriminate.
  inversion Hpv; subst. cbn [fst Trie.tpfx] in *. exact Hex.
Qed.

Theorem v_find_lpm_iff (v : view) q :
  view_wf v -> ok q ->
  (v_find_lpm v q <> None <-> exists e, In e (v_entries v) /\ prefix_of (key e) (bits q)).
Proof.
  intros Hv Hq. apply (some_iff_exists (L_v_find_lpm_spec v q Hv Hq)).
  intros v' _ [e [_ [_ [Hin [Hc _]]]]]. exists e. split; assumption.
Qed.

Theorem v_find_lpm_view (v : view) q v' :
  view_wf v -> ok q -> v_find_lpm v q = Some v' ->
  exists e, is_lpm (v_entries v) q e /\
    view_wf v' /\ v_is_virtual v' = false /\ v_prefix v' = fst e /\ v_value v' = Some (snd e) /\
    (forall e', In e' (v_entries v') <-> In e' (v_entries v) /\ prefix_of (key e) (key e')).
Proof.
  intros Hv Hq H. destruct (v_find_lpm_full v q v' Hv Hq H) as [e [Hl [Hpv Hex]]].
  exists e. split; [exact Hl|].
  assert (Hoke : ok (fst e)) by (destruct Hl as [Hin _]; exact (v_entries_ok v e Hv Hin)).
  destruct (v_find_exact_full v (fst e) v' Hv Hoke Hex) as [A [B [_ [_ D]]]].
  split; [exact A|]. split; [exact B|].
  destruct v' as [t'|p' t']; [|discriminate]. cbn [Views.v_prefix_value Views.v_prefix Views.v_value] in *.
  destruct t' as [|i' p' [x'|] l' r']; cbn [pv] in Hpv; try discriminate. inversion Hpv; subst.
  cbn [Trie.tpfx tval fst snd]. split; [reflexivity|]. split; [reflexivity|]. exact D.
Qed.

(** a query covering the view's real node (in particular: covering the view's prefix, or lying
    between a virtual root and its real node) addresses the whole view *)
Theorem v_find_above (v : view) q :
  view_wf v -> ok q -> prefix_of (bits q) (bits (tpfx (v_tree v))) ->
  exists v', v_find v q = Some v' /\ v_tree v' = v_tree v /\ v_entries v' = v_entries v.
Proof.
  intros Hv Hq Hcov. destruct (L_v_find_cases v q Hv Hq) as [[_ [_ E]]|[Heq E]]; rewrite E.
  - eexists. split; [reflexivity|]. split; reflexivity.
  - destruct Hv as [Hn [[b Hwf] _]]. unfold ViewsThm.v_entries.
    destruct (v_tree v) as [|i p v0 l r]; [discriminate|].
    rewrite find_walk_node, (L_peq_refl p q (proj1 Hwf) Hq (Heq Hcov)).
    eexists. split; [reflexivity|]. split; reflexivity.
Qed.

Theorem v_find_disjoint (v : view) q :
  view_wf v -> ok q ->
  ~ prefix_of (bits q) (bits (v_prefix v)) -> ~ prefix_of (bits (v_prefix v)) (bits q) ->
  v_find v q = None /\ v_find_exact v q = None /\ v_find_lpm v q = None.
Proof.
  intros Hv Hq H1 H2.
  (* the real node is disjoint from the query, too *)
  pose proof (v_prefix_above pfx V pzero bits ok v Hv) as Hrel.
  assert (Hqp : ~ prefix_of (bits q) (bits (tpfx (v_tree v)))).
  { intros Hc. destruct (prefix_of_comparable _ _ _ Hc Hrel) as [H|H]; [exact (H1 H) | exact (H2 H)]. }
  assert (Hpq : ~ prefix_of (bits (tpfx (v_tree v))) (bits q)).
  { intros Hc. apply H2. eapply prefix_of_trans; eassumption. }
  assert (F : v_find v q = None).
  { destruct (L_v_find_cases v q Hv Hq) as [[Hc _]|[_ ->]]; [destruct (Hqp Hc)|].
    destruct Hv as [_ [[b Hwf] _]].
    exact (proj1 (find_walk_disjoint pfx V peq contains is_bit_set plen lcp pzero mcmp bits ok LAWS b _ q Hwf Hq Hpq Hqp)). }
  split; [exact F|]. split.
  - rewrite (L_v_find_exact_eq v q Hv Hq), F. reflexivity.
  - destruct Hv as [Hn [[b Hwf] _]]. unfold Views.v_find_lpm.
    destruct (v_tree v) as [|i p v0 l r]; [reflexivity|].
    destruct (contains p q) eqn:C; [|reflexivity]. destruct (Hpq (L_contains_true p q (proj1 Hwf) Hq C)).
Qed.

(** one navigation call of [TrieView] that returns a view ([left], [right], and [find],
    [find_exact], [find_lpm] at a valid query); [v_reach v v']: [v'] is obtained from [v] by any
    sequence of such calls.  The closure theorems below are inductions over [v_reach] whose step is
    [v_step_cases]. *)
Inductive v_step (v v' : view) : Prop :=
| VS_left : v_left v = Some v' -> v_step v v'
| VS_right : v_right v = Some v' -> v_step v v'
| VS_find q : ok q -> v_find v q = Some v' -> v_step v v'
| VS_find_exact q : ok q -> v_find_exact v q = Some v' -> v_step v v'
| VS_find_lpm q : ok q -> v_find_lpm v q = Some v' -> v_step v v'.

Inductive v_reach (v : view) : view -> Prop :=
| VR_refl : v_reach v v
| VR_step v1 v2 : v_reach v v1 -> v_step v1 v2 -> v_reach v v2.

Lemma v_lpm_key_ok (v : view) q e : view_wf v -> is_lpm (v_entries v) q e -> ok (fst e).
Proof. intros Hv [Hin _]. exact (v_entries_ok v e Hv Hin). Qed.

(** every step is a side step or a [find]: [find_exact] answers with [find]'s view, [find_lpm]
    with [find_exact]'s at the best match *)
Lemma v_step_cases (v v' : view) :
  view_wf v -> v_step v v' ->
  (exists s : bool, (if s then v_right v else v_left v) = Some v') \/ exists q, ok q /\ v_find v q = Some v'.
Proof.
  intros Hv [H|H|q Hq H|q Hq H|q Hq H].
  - left. exists false. exact H.
  - left. exists true. exact H.
  - right. exists q. split; assumption.
  - right. exists q. split; [exact Hq | exact (v_find_exact_find v q v' Hv Hq H)].
  - destruct (v_find_lpm_full v q v' Hv Hq H) as [e [Hl [_ Hex]]].
    pose proof (v_lpm_key_ok v q e Hv Hl) as Hoke.
    right. exists (fst e). split; [exact Hoke | exact (v_find_exact_find v (fst e) v' Hv Hoke Hex)].
Qed.

Theorem v_step_wf (v v' : view) :
  view_wf v -> v_step v v' -> view_wf v' /\ incl (v_entries v') (v_entries v).
Proof.
  intros Hv Hs. destruct (v_step_cases v v' Hv Hs) as [[s H]|[q [Hq H]]].
  - pose proof (L_v_side_spec v s Hv) as Hs'. rewrite H in Hs'.
    destruct Hs' as [A [_ B]]. split; [exact A|]. intros e He. apply B. exact He.
  - destruct (L_v_find_some v q v' Hv Hq H) as [A [_ B]]. split; [exact A|]. intros e He. apply B. exact He.
Qed.

Lemma v_search_wf (v v' : view) q :
  view_wf v -> ok q ->
  v_find v q = Some v' \/ v_find_exact v q = Some v' \/ v_find_lpm v q = Some v' -> view_wf v'.
Proof.
  intros Hv Hq H. apply (v_step_wf v v' Hv).
  destruct H as [H|[H|H]]; [exact (VS_find v v' q Hq H) | exact (VS_find_exact v v' q Hq H) | exact (VS_find_lpm v v' q Hq H)].
Qed.

(** every view reachable by any sequence of left / right / find / find_exact / find_lpm is
    well-formed (so every theorem about well-formed views applies to it, recursively) and addresses
    a subset of the entries of the view one started from *)
Theorem v_reach_wf (v v' : view) :
  view_wf v -> v_reach v v' -> view_wf v' /\ incl (v_entries v') (v_entries v).
Proof.
  intros Hv Hr. induction Hr as [|v1 v2 Hr IH Hs]; [split; [exact Hv | apply incl_refl]|].
  destruct IH as [A B]. destruct (v_step_wf v1 v2 A Hs) as [C D]. split; [exact C|].
  eapply incl_tran; eassumption.
Qed.

(** the canonicity invariant of a view: either its subtree is canonical as a subtree below the
    root ([canon_below]: every value-less node has two children, so it holds an entry), or the view
    is the whole-map view of a canonical map *)
Definition vcanon (v : view) : Prop :=
  canon_below (v_tree v) \/
  (v_is_virtual v = false /\ canonical (v_tree v) /\ bits (tpfx (v_tree v)) = []).

Lemma vcanon_root (T : tree) : wf_root T -> canonical T -> vcanon (view_of T).
Proof.
  intros Hwf Hc. right. split; [reflexivity|]. split; [exact Hc|].
  cbn [view_of v_tree]. destruct T as [|i p v l r]; [destruct Hwf|]. exact (proj1 Hwf).
Qed.

Lemma canon_below_child (t : tree) s :
  canon_below t -> canon_below (child_of pfx V (tleft t) (tright t) s).
Proof. destruct t as [|i p v l r], s; cbn; tauto. Qed.

Lemma canonical_child (t : tree) s :
  canonical t -> canon_below (child_of pfx V (tleft t) (tright t) s).
Proof. destruct t as [|i p v l r], s; cbn; tauto. Qed.

Theorem v_canon_inhabited (v : view) :
  view_wf v -> canon_below (v_tree v) -> exists e, In e (v_entries v).
Proof. intros [Hn _] Hc. exact (canon_inhabited pfx V _ Hc Hn). Qed.

Lemma v_find_canon_root (v : view) q v' :
  view_wf v -> vcanon v -> ok q -> v_find v q = Some v' ->
  canon_below (v_tree v') \/ (v' = v /\ bits q = []).
Proof.
  intros Hv Hc Hq H. destruct (L_v_find_cases v q Hv Hq) as [[Hcov [Hne E]]|[_ E]]; rewrite E in H.
  - (* re-rooted at a query strictly above the node: not at the root of the map *)
    injection H as <-. destruct Hc as [Hc|[_ [_ Hroot]]]; [left; exact Hc|].
    rewrite Hroot in Hcov, Hne. destruct (Hne (prefix_of_nil_r _ Hcov)).
  - destruct Hc as [Hc|[Hvirt [Hc Hroot]]].
    + (* below the root: every result is a subtree *)
      destruct (find_walk_below canon_below q canon_below_child _ v' (fun s => canon_below_child _ s Hc) H)
        as [->|Hb].
      * left. exact Hc.
      * left. exact Hb.
    + (* the whole-map view *)
      destruct (find_walk_below canon_below q canon_below_child _ v' (fun s => canonical_child _ s Hc) H)
        as [->|Hb].
      * (* the walk stops at the root itself only at the root's own key *)
        right. destruct v as [t|p t]; [|discriminate]. split; [reflexivity|].
        destruct Hv as [_ [[b Hwf] _]].
        destruct (find_walk_view pfx V peq contains is_bit_set plen lcp pzero mcmp bits ok LAWS Hwf Hq H)
          as [_ Hk].
        rewrite <- Hk. exact Hroot.
      * left. exact Hb.
Qed.

Theorem v_find_canon (v : view) q v' :
  view_wf v -> vcanon v -> ok q -> v_find v q = Some v' ->
  vcanon v' /\ (bits q <> [] \/ canon_below (v_tree v) -> canon_below (v_tree v')).
Proof.
  intros Hv Hc Hq H. destruct (v_find_canon_root v q v' Hv Hc Hq H) as [Hb|[-> Hk]].
  - split; [left; exact Hb | intros _; exact Hb].
  - split; [exact Hc|]. intros [Hne|Hb]; [destruct (Hne Hk) | exact Hb].
Qed.

Theorem v_side_canon (v : view) (s : bool) v' :
  view_wf v -> vcanon v -> (if s then v_right v else v_left v) = Some v' -> canon_below (v_tree v').
Proof.
  intros Hv Hc H. rewrite (v_side_eq pfx V is_bit_set plen pzero) in H. destruct v as [t|p t]; cbn [v_tree] in Hc.
  - assert (Hch : canon_below (child_of pfx V (tleft t) (tright t) s))
      by (destruct Hc as [Hc|[_ [Hc _]]]; [exact (canon_below_child t s Hc) | exact (canonical_child t s Hc)]).
    destruct (child_of pfx V (tleft t) (tright t) s); [discriminate|]. injection H as <-. exact Hch.
  - destruct Hc as [Hc|[Hvirt _]]; [|discriminate].
    destruct (eqb s (to_right p (tpfx t))); [|discriminate]. injection H as <-. exact Hc.
Qed.

Theorem v_step_canon (v v' : view) : view_wf v -> vcanon v -> v_step v v' -> vcanon v'.
Proof.
  intros Hv Hc Hs. destruct (v_step_cases v v' Hv Hs) as [[s H]|[q [Hq H]]].
  - left. exact (v_side_canon v s v' Hv Hc H).
  - exact (proj1 (v_find_canon v q v' Hv Hc Hq H)).
Qed.

Theorem v_reach_canon (v v' : view) : view_wf v -> vcanon v -> v_reach v v' -> vcanon v'.
Proof.
  intros Hv Hc Hr. induction Hr as [|v1 v2 Hr IH Hs]; [exact Hc|].
  apply (v_step_canon v1 v2); [exact (proj1 (v_reach_wf v v1 Hv Hr)) | exact IH | exact Hs].
Qed.

Theorem v_step_canon_below (v v' : view) :
  view_wf v -> canon_below (v_tree v) -> v_step v v' -> canon_below (v_tree v').
Proof.
  intros Hv Hc Hs. assert (Hvc : vcanon v) by (left; exact Hc).
  destruct (v_step_cases v v' Hv Hs) as [[s H]|[q [Hq H]]].
  - exact (v_side_canon v s v' Hv Hvc H).
  - exact (proj2 (v_find_canon v q v' Hv Hvc Hq H) (or_intror Hc)).
Qed.

Lemma v_step_root_canon (T : tree) (v' : view) :
  wf_root T -> canonical T -> v_step (view_of T) v' -> v' = view_of T \/ canon_below (v_tree v').
Proof.
  intros HT Hc Hs.
  pose proof (view_wf_root pfx V pzero bits ok T HT) as Hv.
  pose proof (vcanon_root T HT Hc) as Hvc.
  destruct (v_step_cases _ v' Hv Hs) as [[s H]|[q [Hq H]]].
  - right. exact (v_side_canon _ s v' Hv Hvc H).
  - destruct (v_find_canon_root _ q v' Hv Hvc Hq H) as [Hb|[-> _]]; [right; exact Hb | left; reflexivity].
Qed.

Theorem v_reach_canon_root (T : tree) (v : view) :
  wf_root T -> canonical T -> v_reach (view_of T) v ->
  v = view_of T \/ (canon_below (v_tree v) /\ exists e, In e (v_entries v)).
Proof.
  intros HT Hc Hr.
  pose proof (view_wf_root pfx V pzero bits ok T HT) as Hv0.
  induction Hr as [|v1 v2 Hr IH Hs]; [left; reflexivity|].
  pose proof (proj1 (v_reach_wf _ v1 Hv0 Hr)) as Hv1.
  pose proof (proj1 (v_step_wf v1 v2 Hv1 Hs)) as Hv2.
  assert (Hfin : canon_below (v_tree v2) -> v2 = view_of T \/ (canon_below (v_tree v2) /\ exists e, In e (v_entries v2))).
  { intros Hb. right. split; [exact Hb | exact (v_canon_inhabited v2 Hv2 Hb)]. }
  destruct IH as [->|[Hb _]].
  - destruct (v_step_root_canon T v2 HT Hc Hs) as [E|Hb]; [left; exact E | exact (Hfin Hb)].
  - exact (Hfin (v_step_canon_below v1 v2 Hv1 Hb Hs)).
Qed.

Theorem v_side_canon_iff (v : view) (s : bool) :
  view_wf v -> vcanon v ->
  ((if s then v_right v else v_left v) <> None <->
   exists e, In e (v_entries v) /\ prefix_of (side_prefix v s) (key e)).
Proof.
  intros Hv Hc. apply (some_iff_exists (L_v_side_spec v s Hv)). intros v' E [Hv' [_ Hm]].
  destruct (v_canon_inhabited v' Hv' (v_side_canon v s v' Hv Hc E)) as [e He].
  exists e. apply Hm. exact He.
Qed.

(** on canonical trees a sub-view exists EXACTLY when it contains an entry — for every query except
    the empty prefix asked of the whole-map view (which always exists) *)
Theorem v_find_canon_iff (v : view) q :
  view_wf v -> vcanon v -> ok q -> (bits q <> [] \/ canon_below (v_tree v)) ->
  (v_find v q <> None <-> exists e, In e (v_entries v) /\ prefix_of (bits q) (key e)).
Proof.
  intros Hv Hc Hq Hne. apply (some_iff_exists (L_v_find_spec v q Hv Hq)). intros v' E [Hv' [_ Hm]].
  destruct (v_canon_inhabited v' Hv' (proj2 (v_find_canon v q v' Hv Hc Hq E) Hne)) as [e He].
  exists e. apply Hm. exact He.
Qed.

Theorem view_at_root (T : tree) q : wf_root T -> ok q -> bits q = [] -> view_at T q = Some (view_of T).
Proof.
  intros Hwf Hq Hk. unfold Views.view_at, Views.v_find, view_of. cbn [v_tree].
  destruct T as [|i p v l r]; [destruct Hwf|]. destruct Hwf as [Hroot Hwf].
  assert (E : peq p q = true) by (apply L_peq_refl; [exact (proj1 Hwf) | exact Hq | congruence]).
  rewrite E, andb_false_r. cbn [Views.find_walk]. rewrite E. reflexivity.
Qed.

Lemma plen_pos_bits q : ok q -> (plen q <> 0%N <-> bits q <> []).
Proof.
  intros Hq. rewrite (plen_bits _ _ _ _ _ _ _ _ _ _ LAWS q Hq).
  destruct (bits q); cbn [length]; split; intros H; try congruence; lia.
Qed.

End VX.

Print Assumptions v_iter_entries.
Print Assumptions v_entries_sorted.
Print Assumptions v_find_filter.
Print Assumptions v_side_filter.
Print Assumptions v_value_spec.
Print Assumptions v_find_value.
Print Assumptions v_entries_decomp.
Print Assumptions v_find_virt_prefix.
Print Assumptions v_find_exact_find.
Print Assumptions v_find_exact_iff.
Print Assumptions v_find_exact_full.
Print Assumptions v_find_lpm_full.
Print Assumptions v_find_lpm_iff.
Print Assumptions v_find_lpm_view.
Print Assumptions v_find_above.
Print Assumptions v_find_disjoint.
Print Assumptions v_step_wf.
Print Assumptions v_reach_wf.
Print Assumptions v_canon_inhabited.
Print Assumptions v_find_canon.
Print Assumptions v_side_canon.
Print Assumptions v_step_canon.
Print Assumptions v_reach_canon.
Print Assumptions v_step_canon_below.
Print Assumptions v_reach_canon_root.
Print Assumptions v_side_canon_iff.
Print Assumptions v_find_canon_iff.
Print Assumptions view_at_root.
