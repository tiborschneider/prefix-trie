(** Refinement over the FULL mutator alphabet of [History.op].

    [Refine.v] proves that the contents of the map refine an abstract ordered association list for
    every call but three ([Refine.refinable]).  Those three address their target not by a key
    but by a designator into the concrete state: [OWrite ws] by slot numbers (the references handed
    out by a mutable traversal), [OViewSet pa x] / [OViewRemove pa] by a path to a node (the
    location of a [TrieViewMut]).  A designator has no meaning in an abstract map; its meaning is
    the KEY of the entry / node it designates in the state in which it is used.  [resolve m o]
    performs exactly that translation (it inspects the concrete state [m] only through
    [entries_id (root m)] for writes and through the node [subtree (root m) pa] for views) and
    yields a key-addressed abstract operation [xop]:

      - [OWrite ws]        |->  [XWrite kw]: set the values of the entries whose keys are in [kw]
                                 ([kw] = the (stored prefix, new value) of every entry whose slot is in [ws]);
      - [OViewSet pa x]    |->  [insert p x] where [p] is the prefix stored at the node (the value is
                                 replaced, or an entry with the node's existing prefix is created;
                                 returns the previous value); nothing if the path ends in a [Leaf];
      - [OViewRemove pa]   |->  [remove_keep_tree p] if the node holds a value (returns it);
                                 nothing otherwise;
      - every other call   |->  itself.

    Main theorems: [step_refines_full] (one step, any well-formed state), [run_refines_full],
    [outs_refine_full] (whole histories over the complete alphabet), the observers on every
    reachable state, and the facts about keys and stored representations used by C18. *)
From Coq Require Import List NArith ZArith Bool Arith Lia Sorted Permutation.
From PT Require Import Bits BitsThm Laws Trie Views TrieWf Lookup Lookup2 History MutTrav Refine.
Import ListNotations.

#[local] Arguments OInsert {pfx V}.
#[local] Arguments OEntryInsert {pfx V}.
#[local] Arguments OOrInsert {pfx V}.
#[local] Arguments OOccRemove {pfx V}.
#[local] Arguments OUpdate {pfx V}.
#[local] Arguments ORemove {pfx V}.
#[local] Arguments ORemoveKeepTree {pfx V}.
#[local] Arguments ORemoveChildren {pfx V}.
#[local] Arguments ORetain {pfx V}.
#[local] Arguments OClear {pfx V}.
#[local] Arguments OCollect {pfx V}.
#[local] Arguments OWrite {pfx V}.
#[local] Arguments OViewSet {pfx V}.
#[local] Arguments OViewRemove {pfx V}.

Section R2.
Variables (pfx V : Type).
Variables (peq contains : pfx -> pfx -> bool) (is_bit_set : pfx -> N -> bool)
          (plen : pfx -> N) (lcp : pfx -> pfx -> pfx) (pzero : pfx)
          (mcmp : pfx -> pfx -> comparison).
Variable bits : pfx -> list bool.
Variable ok : pfx -> Prop.
Hypothesis LAWS : prefix_laws pfx peq contains is_bit_set plen lcp pzero mcmp bits ok.

Notation tree := (Trie.tree pfx V).
Notation pmap := (Trie.pmap pfx V).
Notation wf_root := (TrieWf.wf_root pfx V bits ok).
Notation key := (TrieWf.key pfx V bits).
Notation key_lt := (TrieWf.key_lt pfx V bits).
Notation get := (Trie.get pfx V peq contains is_bit_set plen).
Notation get_key_value := (Trie.get_key_value pfx V peq contains is_bit_set plen).
Notation contains_key := (Trie.contains_key pfx V peq contains is_bit_set plen).
Notation entry := (Trie.entry pfx V peq contains is_bit_set plen).
Notation h_get := (Trie.h_get pfx V peq contains is_bit_set plen).
Notation h_key := (Trie.h_key pfx V peq contains is_bit_set plen).
Notation empty := (Trie.empty pfx V pzero).
Notation op := (History.op pfx V).
Notation step := (History.step pfx V peq contains is_bit_set plen lcp pzero).
Notation run := (History.run pfx V peq contains is_bit_set plen lcp pzero).
Notation op_ok := (History.op_ok pfx V ok).
Notation amap := (Refine.amap pfx V).
Notation akey := (Refine.akey pfx V bits).
Notation a_get := (Refine.a_get pfx V bits).
Notation a_insert := (Refine.a_insert pfx V bits).
Notation a_without := (Refine.a_without pfx V bits).
Notation a_step := (Refine.a_step pfx V bits).
Notation a_run := (Refine.a_run pfx V bits).
Notation c_out := (Refine.c_out pfx V peq contains is_bit_set plen lcp).
Notation refinable := (Refine.refinable pfx V ok).
Notation drop_id := (Lookup2.drop_id pfx V).
Notation own_id := (MutTrav.own_id pfx V).
Notation mkvmut := (Views.mkvmut pfx).
Local Notation wf_sorted := (TrieWf.wf_root_sorted pfx V bits ok).
Local Notation empty_wf := (Refine.empty_wf pfx V peq contains is_bit_set plen lcp pzero mcmp bits ok LAWS).


(** write the value [y] to the entry with the key of [p], for every [(p, y)] of [kw]
    (first match wins); every other entry, every stored prefix and the order are unchanged *)
Definition a_write (A : amap) (kw : amap) : amap :=
  map (fun e => match a_get kw (fst e) with Some y => (fst e, y) | None => e end) A.

Inductive xop :=
| XBase (o : op)          (* a key-addressed call of [Refine.a_step] *)
| XWrite (kw : amap)      (* writes through references, by key *)
| XSkip.                  (* no effect *)

Definition x_step (A : amap) (xo : xop) : amap * option V :=
  match xo with
  | XBase o => a_step A o
  | XWrite kw => (a_write A kw, None)
  | XSkip => (A, None)
  end.

(** the (stored prefix, new value) pairs of the entries whose slot is written *)
Definition kw1 (ws : list (N * V)) (e : N * pfx * V) : amap :=
  let '(i, p, _) := e in match assoc_id ws i with Some y => [(p, y)] | None => [] end.
Definition key_writes (t : tree) (ws : list (N * V)) : amap := flat_map (kw1 ws) (entries_id t).

(** what a designator means in the state [m] *)
Definition resolve (m : pmap) (o : op) : xop :=
  match o with
  | OWrite ws => XWrite (key_writes (root m) ws)
  | OViewSet pa x =>
    match subtree (root m) pa with
    | Node _ p _ _ _ => XBase (OInsert p x)
    | Leaf => XSkip
    end
  | OViewRemove pa =>
    match subtree (root m) pa with
    | Node _ p (Some _) _ _ => XBase (ORemoveKeepTree p)
    | _ => XSkip
    end
  | _ => XBase o
  end.

(** what the concrete call returns: [Refine.c_out], plus the previous value returned by
    [TrieViewMut::set] ([Ok(old)]) and the value returned by [TrieViewMut::remove] *)
Definition c_out_full (m : pmap) (o : op) : option V :=
  match o with
  | OViewSet pa x =>
    match snd (vm_set (root m) (mkvmut pa None) x) with inl v => v | inr _ => None end
  | OViewRemove pa => snd (vm_remove (root m) (mkvmut pa None))
  | _ => c_out m o
  end.

(** the complete alphabet: valid arguments; the [retain] closure is pure and total (as in
    [Refine.refinable]); no other restriction *)
Definition admissible (o : op) : Prop :=
  op_ok o /\
  match o with
  | ORetain f => forall n p x, f n p x = f 0 p x /\ f n p x <> None
  | _ => True
  end.

(** the abstract history of a concrete history: designators resolved in the state they are used in *)
Fixpoint elab (m : pmap) (ops : list op) : list xop :=
  match ops with
  | [] => []
  | o :: ops' => resolve m o :: elab (step m o) ops'
  end.

Definition x_run_from (A : amap) (xs : list xop) : amap := fold_left (fun A xo => fst (x_step A xo)) xs A.
Definition x_run (xs : list xop) : amap := x_run_from [] xs.

Fixpoint x_outs (A : amap) (xs : list xop) : list (option V) :=
  match xs with
  | [] => []
  | xo :: xs' => snd (x_step A xo) :: x_outs (fst (x_step A xo)) xs'
  end.

Fixpoint c_outs_full (m : pmap) (ops : list op) : list (option V) :=
  match ops with
  | [] => []
  | o :: ops' => c_out_full m o :: c_outs_full (step m o) ops'
  end.

(** the same function as [TrieWf.own] *)
Definition own (p : pfx) (v : option V) : list (pfx * V) :=
  match v with Some x => [(p, x)] | None => [] end.

Lemma own_map i p v : map drop_id (own_id i p v) = own p v.
Proof. destruct v; reflexivity. Qed.

Lemma mid_keys (P : list (pfx * V)) e Q :
  StronglySorted key_lt (P ++ e :: Q) -> forall a, In a P \/ In a Q -> key a <> key e.
Proof.
  intros Hs a Ha E. destruct (sorted_mid _ P e Q Hs) as [H1 H2].
  destruct Ha as [Ha|Ha]; [apply H1 in Ha | apply H2 in Ha]; unfold TrieWf.key_lt in Ha;
    rewrite E in Ha; eapply lex_lt_irrefl; exact Ha.
Qed.

Lemma node_ctx (T : tree) pa i p v l r v' :
  wf_root T -> subtree T pa = Node i p v l r ->
  exists P Q,
    entries T = P ++ own p v ++ Q /\
    entries (subst T pa (set_tval (subtree T pa) v')) = P ++ own p v' ++ Q /\
    wf_root (subst T pa (set_tval (subtree T pa) v')).
Proof.
  intros Hr Hs.
  destruct (subst_set_tval_entries_id pfx V T pa i p v l r v' Hs) as [pre [post [E1 E2]]].
  destruct (entries_of_ctx pfx V _ _ pre post _ _ E1 E2) as [F1 F2].
  exists (map drop_id pre), (map drop_id post). rewrite !own_map in F1, F2.
  split; [exact F1|]. split; [exact F2|]. apply (subst_set_wf_root pfx V bits ok). exact Hr.
Qed.

Lemma ctx_other_keys (T' : tree) P Q p x :
  wf_root T' -> entries T' = P ++ own p (Some x) ++ Q ->
  forall a, In a P \/ In a Q -> key a <> bits p.
Proof.
  intros Hr E a Ha. pose proof (wf_sorted T' Hr) as Hs. rewrite E in Hs. cbn [own app] in Hs.
  exact (mid_keys P (p, x) Q Hs a Ha).
Qed.

Theorem write_step_entries m ws :
  entries (root (step m (OWrite ws)))
  = map (fun e : N * pfx * V => let '(i, p, x) := e in
                                (p, match assoc_id ws i with Some y => y | None => x end))
        (entries_id (root m)).
Proof.
  cbn [History.step root]. rewrite <- (entries_id_entries pfx V), (write_ids_entries_id_upd pfx V), map_map.
  apply map_ext. intros [[i p] x]. reflexivity.
Qed.

Lemma NoDup_map_inj {X Y} (f : X -> Y) (l : list X) a b :
  NoDup (map f l) -> In a l -> In b l -> f a = f b -> a = b.
Proof.
  induction l as [|c l IH]; intros Hnd Ha Hb E; [destruct Ha|].
  cbn [map] in Hnd. inversion Hnd as [|? ? Hc Hl]; subst.
  destruct Ha as [<-|Ha], Hb as [<-|Hb].
  - reflexivity.
  - exfalso. apply Hc. rewrite E. apply in_map. exact Hb.
  - exfalso. apply Hc. rewrite <- E. apply in_map. exact Ha.
  - apply IH; assumption.
Qed.

Lemma a_get_cons_ne (A : amap) p y q : bits p <> bits q -> a_get ((p, y) :: A) q = a_get A q.
Proof.
  intros H. unfold Refine.a_get. cbn [find].
  assert (B : beq (akey (p, y)) (bits q) = false) by (apply Refine.beq_key_false; exact H).
  rewrite B. reflexivity.
Qed.

Lemma a_get_cons_eq (A : amap) p y q : bits p = bits q -> a_get ((p, y) :: A) q = Some y.
Proof.
  intros H. unfold Refine.a_get. cbn [find].
  assert (B : beq (akey (p, y)) (bits q) = true) by (apply Refine.beq_key; exact H).
  rewrite B. reflexivity.
Qed.

Lemma a_get_key_writes ws : forall L : list (N * pfx * V),
  NoDup (map (fun e => akey (drop_id e)) L) ->
  forall i p x, In (i, p, x) L -> a_get (flat_map (kw1 ws) L) p = assoc_id ws i.
Proof.
  induction L as [|[[j pj] xj] L IH]; intros Hnd i p x Hin; [destruct Hin|].
  cbn [map] in Hnd. inversion Hnd as [|? ? Hj HL]; subst. cbn [flat_map kw1].
  destruct Hin as [E|Hin].
  - inversion E; subst. destruct (assoc_id ws i) as [y|] eqn:Ea; cbn [app].
    + apply a_get_cons_eq. reflexivity.
    + apply Refine.a_get_none. intros e He Ek. apply in_flat_map in He.
      destruct He as [[[i0 p0] x0] [H0 He]]. cbn [kw1] in He.
      destruct (assoc_id ws i0) as [y0|]; [|destruct He]. destruct He as [<-|[]].
      apply Hj. apply in_map_iff. exists (i0, p0, x0). split; [|exact H0].
      unfold Refine.akey. cbn. exact Ek.
  - assert (Hne : bits pj <> bits p).
    { intros Ek. apply Hj. apply in_map_iff. exists (i, p, x). split; [|exact Hin].
      unfold Refine.akey. cbn. symmetry. exact Ek. }
    destruct (assoc_id ws j) as [y|]; cbn [app].
    + rewrite (a_get_cons_ne _ pj y p Hne). exact (IH HL i p x Hin).
    + exact (IH HL i p x Hin).
Qed.

Theorem write_step_refines m ws :
  wf_root (root m) ->
  entries (root (step m (OWrite ws))) = a_write (entries (root m)) (key_writes (root m) ws).
Proof.
  intros Hr. rewrite write_step_entries. unfold a_write, key_writes.
  rewrite <- (entries_id_entries pfx V (root m)), map_map. apply map_ext_in.
  intros [[i p] x] Hin. cbn [Lookup2.drop_id fst].
  rewrite (a_get_key_writes ws (entries_id (root m))) with (i := i) (x := x); [| |exact Hin].
  - destruct (assoc_id ws i); reflexivity.
  - rewrite <- map_map, (entries_id_entries pfx V). apply (TrieWf.sorted_nodup_keys pfx V bits).
    apply wf_sorted. exact Hr.
Qed.

Lemma in_a_write (A kw : amap) e :
  In e (a_write A kw) <->
  exists e0, In e0 A /\ fst e = fst e0 /\
             snd e = match a_get kw (fst e0) with Some y => y | None => snd e0 end.
Proof.
  unfold a_write. rewrite in_map_iff. split.
  - intros [e0 [E Hin]]. exists e0. split; [exact Hin|]. subst e.
    destruct (a_get kw (fst e0)); cbn [fst snd]; auto.
  - intros [e0 [Hin [E1 E2]]]. exists e0. split; [|exact Hin]. destruct e as [p y]. cbn [fst snd] in *.
    subst p y. destruct (a_get kw (fst e0)); [reflexivity | apply surjective_pairing].
Qed.

Lemma a_write_keys (A kw : amap) : map fst (a_write A kw) = map fst A.
Proof.
  unfold a_write. rewrite map_map. apply map_ext. intros e. destruct (a_get kw (fst e)); reflexivity.
Qed.

Lemma sorted_a_write (A kw : amap) : StronglySorted key_lt A -> StronglySorted key_lt (a_write A kw).
Proof.
  unfold a_write. apply (Refine.sorted_map_key pfx V bits). intros e.
  destruct (a_get kw (fst e)); reflexivity.
Qed.

Lemma step_view_set_root m pa x :
  root (step m (OViewSet pa x)) = subst (root m) pa (set_tval (subtree (root m) pa) (Some x)).
Proof. reflexivity. Qed.

Lemma step_view_remove_root m pa :
  root (step m (OViewRemove pa)) = subst (root m) pa (set_tval (subtree (root m) pa) None).
Proof. reflexivity. Qed.

Theorem view_step_leaf m pa :
  subtree (root m) pa = Leaf ->
  (forall x, step m (OViewSet pa x) = m) /\ step m (OViewRemove pa) = m.
Proof.
  intros Hs.
  destruct (vm_write_leaf pfx V (root m) (mkvmut pa None) Hs) as [E1 [E2 _]].
  destruct m as [T a]. cbn [History.step root al] in *. split; [intros x; rewrite E2 | rewrite E1]; reflexivity.
Qed.

Theorem view_set_step m pa x i p v l r :
  wf_root (root m) -> subtree (root m) pa = Node i p v l r ->
  entries (root (step m (OViewSet pa x))) = a_insert (entries (root m)) p x /\
  c_out_full m (OViewSet pa x) = v /\
  a_get (entries (root m)) p = v /\
  exists P Q, entries (root m) = P ++ own p v ++ Q /\
              entries (root (step m (OViewSet pa x))) = P ++ (p, x) :: Q.
Proof.
  intros Hr Hs. rewrite step_view_set_root.
  destruct (node_ctx (root m) pa i p v l r (Some x) Hr Hs) as [P [Q [E1 [E2 Hr']]]].
  pose proof (ctx_other_keys _ P Q p x Hr' E2) as Hoth.
  assert (Hown : forall e, In e (own p v) -> key e = bits p).
  { intros e He. destruct v; [|destruct He]. destruct He as [<-|[]]. reflexivity. }
  split; [|split; [|split]].
  - apply (Refine.insert_ext pfx V pzero bits ok); [exact Hr | exact Hr'|].
    intros e. rewrite E1, E2. cbn [own]. rewrite !in_app_iff. cbn [In]. split.
    + intros [H|[[H|[]]|H]]; [right | left; symmetry; exact H | right];
        (split; [tauto | apply Hoth; tauto]).
    + intros [H|[[H|[H|H]] Hk]]; [right; left; left; symmetry; exact H | tauto | | tauto].
      exfalso. apply Hk. apply Hown. exact H.
  - cbn [c_out_full vm_set Views.mvirt snd Views.mpath]. unfold vm_tree. cbn [Views.mpath]. rewrite Hs. reflexivity.
  - destruct v as [y|].
    + apply (Refine.a_get_spec pfx V bits); [apply wf_sorted; exact Hr|].
      exists p. split; [|reflexivity]. rewrite E1. cbn [own]. apply in_or_app. right. left. reflexivity.
    + apply Refine.a_get_none. intros e He. apply Hoth. rewrite E1 in He. cbn [own app] in He.
      apply in_app_iff in He. exact He.
  - exists P, Q. split; [exact E1 | exact E2].
Qed.

Theorem view_remove_step m pa i p v l r :
  wf_root (root m) -> subtree (root m) pa = Node i p v l r ->
  c_out_full m (OViewRemove pa) = v /\
  (exists P Q, entries (root m) = P ++ own p v ++ Q /\
               entries (root (step m (OViewRemove pa))) = P ++ Q) /\
  (forall y, v = Some y ->
     entries (root (step m (OViewRemove pa))) = a_without (entries (root m)) p /\
     a_get (entries (root m)) p = Some y).
Proof.
  intros Hr Hs. rewrite step_view_remove_root.
  destruct (node_ctx (root m) pa i p v l r None Hr Hs) as [P [Q [E1 [E2 Hr']]]].
  cbn [own app] in E2.
  split; [|split].
  - cbn [c_out_full vm_remove Views.mvirt snd Views.mpath]. unfold vm_tree. cbn [Views.mpath]. rewrite Hs. reflexivity.
  - exists P, Q. split; [exact E1 | exact E2].
  - intros y ->. cbn [own] in E1.
    assert (Hoth : forall a, In a P \/ In a Q -> key a <> bits p).
    { apply (ctx_other_keys (root m) P Q p y Hr). exact E1. }
    split.
    + apply (sorted_ext pfx V bits);
        [apply wf_sorted; exact Hr' | apply (Refine.sorted_a_without pfx V bits); apply wf_sorted; exact Hr|].
      intros e. rewrite (Refine.in_a_without pfx V bits), E1, E2. rewrite !in_app_iff. cbn [In]. split.
      * intros H. split; [tauto | apply Hoth; tauto].
      * intros [[H|[[H|[]]|H]] Hk]; [tauto | | tauto]. exfalso. apply Hk. subst e. reflexivity.
    + apply (Refine.a_get_spec pfx V bits); [apply wf_sorted; exact Hr|].
      exists p. split; [|reflexivity]. rewrite E1. apply in_or_app. right. left. reflexivity.
Qed.

Lemma admissible_ok o : admissible o -> op_ok o.
Proof. intros [H _]. exact H. Qed.

Lemma refinable_admissible o : refinable o -> admissible o.
Proof. intros [H1 H2]. split; [exact H1|]. destruct o; try exact I. exact H2. Qed.

Lemma step_wf' m o : admissible o -> wf_root (root m) -> wf_root (root (step m o)).
Proof.
  intros Ho. apply (step_wf pfx V peq contains is_bit_set plen lcp pzero mcmp bits ok LAWS).
  apply admissible_ok. exact Ho.
Qed.

Theorem step_refines_full m o :
  wf_root (root m) -> admissible o ->
  entries (root (step m o)) = fst (x_step (entries (root m)) (resolve m o)) /\
  c_out_full m o = snd (x_step (entries (root m)) (resolve m o)).
Proof.
  intros Hr [Hok Hadm].
  assert (Hbase : forall o', refinable o' ->
            entries (root (step m o')) = fst (a_step (entries (root m)) o') /\
            c_out m o' = snd (a_step (entries (root m)) o')).
  { intros o' Ho'.
    exact (step_refines pfx V peq contains is_bit_set plen lcp pzero mcmp bits ok LAWS m o' Hr Ho'). }
  destruct o; cbn [resolve x_step c_out_full];
    try (apply Hbase; split; [exact Hok | exact Hadm]).
  - (* write *) split; [apply write_step_refines; exact Hr | reflexivity].
  - (* view set *)
    destruct (subtree (root m) pa) as [|i p v l r] eqn:Hs.
    + destruct (view_step_leaf m pa Hs) as [E _]. rewrite E. cbn [x_step fst snd]. split; [reflexivity|].
      cbn [vm_set Views.mvirt snd Views.mpath]. unfold vm_tree. cbn [Views.mpath]. rewrite Hs. reflexivity.
    + destruct (view_set_step m pa x i p v l r Hr Hs) as [S1 [S2 [S3 _]]].
      cbn [x_step Refine.a_step fst snd]. split; [exact S1|].
      cbn [c_out_full] in S2. rewrite S2, S3. reflexivity.
  - (* view remove *)
    destruct (subtree (root m) pa) as [|i p v l r] eqn:Hs.
    + destruct (view_step_leaf m pa Hs) as [_ E]. rewrite E. cbn [x_step fst snd]. split; [reflexivity|].
      cbn [vm_remove Views.mvirt snd Views.mpath]. unfold vm_tree. cbn [Views.mpath]. rewrite Hs. reflexivity.
    + destruct (view_remove_step m pa i p v l r Hr Hs) as [S1 [[P [Q [E1 E2]]] S2]].
      cbn [c_out_full] in S1. rewrite S1. destruct v as [y|].
      * destruct (S2 y eq_refl) as [S4 S5]. cbn [x_step Refine.a_step fst snd].
        split; [exact S4 | symmetry; exact S5].
      * cbn [x_step fst snd]. split; [rewrite E1, E2; reflexivity | reflexivity].
Qed.

Lemma resolve_refinable m o : refinable o -> resolve m o = XBase o /\ c_out_full m o = c_out m o.
Proof. intros [_ H]. destruct o; try contradiction; split; reflexivity. Qed.

Lemma x_step_sorted A xo : StronglySorted key_lt A -> StronglySorted key_lt (fst (x_step A xo)).
Proof.
  intros HA. destruct xo as [o|kw|]; cbn [x_step fst].
  - apply (Refine.a_step_sorted pfx V bits). exact HA.
  - apply sorted_a_write. exact HA.
  - exact HA.
Qed.

Lemma x_run_from_sorted xs A : StronglySorted key_lt A -> StronglySorted key_lt (x_run_from A xs).
Proof. apply (fold_left_keeps _ (StronglySorted key_lt)). intros A' xo. apply x_step_sorted. Qed.

Theorem x_run_sorted xs : StronglySorted key_lt (x_run xs).
Proof. apply x_run_from_sorted. constructor. Qed.

Theorem x_run_keys_NoDup xs : NoDup (map akey (x_run xs)).
Proof. apply (TrieWf.sorted_nodup_keys pfx V bits). apply x_run_sorted. Qed.

Lemma fold_refines_full ops : forall m A,
  wf_root (root m) -> entries (root m) = A -> Forall admissible ops ->
  entries (root (fold_left step ops m)) = x_run_from A (elab m ops) /\
  c_outs_full m ops = x_outs A (elab m ops).
Proof.
  unfold x_run_from.
  induction ops as [|o ops IH]; intros m A Hr EA Hall; cbn [fold_left c_outs_full x_outs elab].
  - split; [exact EA | reflexivity].
  - inversion Hall as [|? ? Ho Hops]; subst.
    destruct (step_refines_full m o Hr Ho) as [S1 S2].
    destruct (IH (step m o) _ (step_wf' m o Ho Hr) S1 Hops) as [I1 I2].
    split; [exact I1|]. rewrite S2, I2. reflexivity.
Qed.

Theorem run_refines_full ops :
  Forall admissible ops -> entries (root (run ops)) = x_run (elab empty ops).
Proof. intros Hall. exact (proj1 (fold_refines_full ops empty [] empty_wf eq_refl Hall)). Qed.

Theorem outs_refine_full ops :
  Forall admissible ops -> c_outs_full empty ops = x_outs [] (elab empty ops).
Proof. intros Hall. exact (proj2 (fold_refines_full ops empty [] empty_wf eq_refl Hall)). Qed.

(* over [admissible]; [Refine.run_wf] is the same statement over [refinable] *)
Lemma run_wf ops : Forall admissible ops -> wf_root (root (run ops)).
Proof.
  intros Hall. apply (reachable_wf pfx V peq contains is_bit_set plen lcp pzero mcmp bits ok LAWS), (Forall_impl _ admissible_ok), Hall.
Qed.

Lemma elab_app ops1 : forall m ops2,
  elab m (ops1 ++ ops2) = elab m ops1 ++ elab (fold_left step ops1 m) ops2.
Proof.
  induction ops1 as [|o ops1 IH]; intros m ops2; cbn [app elab fold_left]; [reflexivity|].
  rewrite IH. reflexivity.
Qed.

Corollary reachable_step_refines_full ops o :
  Forall admissible ops -> admissible o ->
  wf_root (root (run ops)) /\
  entries (root (run ops)) = x_run (elab empty ops) /\
  entries (root (run (ops ++ [o]))) = fst (x_step (x_run (elab empty ops)) (resolve (run ops) o)) /\
  c_out_full (run ops) o = snd (x_step (x_run (elab empty ops)) (resolve (run ops) o)).
Proof.
  intros Hall Ho. pose proof (run_wf ops Hall) as Hr. split; [exact Hr|].
  split; [apply run_refines_full; exact Hall|].
  rewrite <- (run_refines_full ops Hall).
  rewrite (run_app pfx V peq contains is_bit_set plen lcp pzero). cbn [fold_left].
  apply step_refines_full; assumption.
Qed.

Corollary reachable_step_write ops ws :
  Forall admissible ops ->
  entries (root (step (run ops) (OWrite ws)))
  = map (fun e : N * pfx * V => let '(i, p, x) := e in
                                (p, match assoc_id ws i with Some y => y | None => x end))
        (entries_id (root (run ops))) /\
  entries (root (step (run ops) (OWrite ws)))
  = a_write (x_run (elab empty ops)) (key_writes (root (run ops)) ws).
Proof.
  intros Hall. split; [apply write_step_entries|].
  rewrite <- (run_refines_full ops Hall). apply write_step_refines. apply run_wf. exact Hall.
Qed.

Corollary reachable_step_view_set ops pa x :
  Forall admissible ops ->
  match subtree (root (run ops)) pa with
  | Leaf => step (run ops) (OViewSet pa x) = run ops
  | Node _ p v _ _ =>
    entries (root (step (run ops) (OViewSet pa x))) = a_insert (x_run (elab empty ops)) p x /\
    c_out_full (run ops) (OViewSet pa x) = v /\
    a_get (x_run (elab empty ops)) p = v /\
    exists P Q, entries (root (run ops)) = P ++ own p v ++ Q /\
                entries (root (step (run ops) (OViewSet pa x))) = P ++ (p, x) :: Q
  end.
Proof.
  intros Hall. destruct (subtree (root (run ops)) pa) as [|i p v l r] eqn:Hs.
  - apply view_step_leaf. exact Hs.
  - rewrite <- (run_refines_full ops Hall). apply (view_set_step _ pa x i p v l r); [|exact Hs].
    apply run_wf. exact Hall.
Qed.

Corollary reachable_step_view_remove ops pa :
  Forall admissible ops ->
  match subtree (root (run ops)) pa with
  | Leaf => step (run ops) (OViewRemove pa) = run ops
  | Node _ p v _ _ =>
    c_out_full (run ops) (OViewRemove pa) = v /\
    (exists P Q, entries (root (run ops)) = P ++ own p v ++ Q /\
                 entries (root (step (run ops) (OViewRemove pa))) = P ++ Q) /\
    (forall y, v = Some y ->
       entries (root (step (run ops) (OViewRemove pa))) = a_without (x_run (elab empty ops)) p /\
       a_get (x_run (elab empty ops)) p = Some y)
  end.
Proof.
  intros Hall. destruct (subtree (root (run ops)) pa) as [|i p v l r] eqn:Hs.
  - apply view_step_leaf. exact Hs.
  - rewrite <- (run_refines_full ops Hall).
    exact (view_remove_step _ pa i p v l r (run_wf ops Hall) Hs).
Qed.

Lemma elab_refinable ops : forall m, Forall refinable ops -> elab m ops = map XBase ops.
Proof.
  induction ops as [|o ops IH]; intros m Hall; cbn [elab map]; [reflexivity|].
  inversion Hall as [|? ? Ho Hops]; subst. rewrite (proj1 (resolve_refinable m o Ho)), IH by exact Hops.
  reflexivity.
Qed.

Theorem x_run_refinable ops : Forall refinable ops -> x_run (elab empty ops) = a_run ops.
Proof.
  intros Hall. rewrite (elab_refinable ops empty Hall). unfold x_run, x_run_from, Refine.a_run.
  generalize (@nil (pfx * V)) as A. induction ops as [|o ops IH]; intros A; cbn [map fold_left]; [reflexivity|].
  inversion Hall as [|? ? Ho Hops]; subst. apply IH. exact Hops.
Qed.

Lemma entry_get m q : h_get m (entry m q) = get (root m) q.
Proof.
  unfold Trie.h_get, Trie.entry, Trie.get.
  destruct (Trie.get_node pfx V peq contains is_bit_set plen (root m) q) as [[[i p] [x|]]|] eqn:G;
    cbn [hkind_ hkey]; [|reflexivity|reflexivity].
  unfold Trie.get. rewrite G. reflexivity.
Qed.

Lemma entry_key m q :
  h_key m (entry m q) = match get_key_value (root m) q with Some e => fst e | None => q end.
Proof.
  unfold Trie.h_key, Trie.entry, Trie.get_key_value.
  destruct (Trie.get_node pfx V peq contains is_bit_set plen (root m) q) as [[[i p] [x|]]|] eqn:G;
    cbn [hkind_ hkey fst]; [|reflexivity|reflexivity].
  rewrite G. reflexivity.
Qed.

Theorem observers_refine m q :
  wf_root (root m) -> ok q ->
  let A := entries (root m) in
  let hit := find (fun e => beq (akey e) (bits q)) A in
  get (root m) q = a_get A q /\
  get_key_value (root m) q = hit /\
  contains_key (root m) q = is_some (a_get A q) /\
  h_get m (entry m q) = a_get A q /\
  h_key m (entry m q) = match hit with Some e => fst e | None => q end.
Proof.
  intros Hr Hq A hit.
  pose proof (Refine.get_refines pfx V peq contains is_bit_set plen lcp pzero mcmp bits ok LAWS (root m) q Hr Hq) as G.
  pose proof (Refine.get_key_value_refines pfx V peq contains is_bit_set plen lcp pzero mcmp bits ok LAWS (root m) q Hr Hq) as K.
  split; [exact G|]. split; [exact K|]. split; [rewrite (Refine.contains_key_get pfx V peq contains is_bit_set plen), G; reflexivity|].
  split; [rewrite entry_get; exact G | rewrite entry_key, K; reflexivity].
Qed.

Corollary observers_run_full ops q :
  Forall admissible ops -> ok q ->
  let A := x_run (elab empty ops) in
  let hit := find (fun e => beq (akey e) (bits q)) A in
  get (root (run ops)) q = a_get A q /\
  get_key_value (root (run ops)) q = hit /\
  contains_key (root (run ops)) q = is_some (a_get A q) /\
  h_get (run ops) (entry (run ops) q) = a_get A q /\
  h_key (run ops) (entry (run ops) q) = match hit with Some e => fst e | None => q end.
Proof.
  intros Hall Hq. rewrite <- (run_refines_full ops Hall). apply observers_refine; [|exact Hq].
  apply run_wf. exact Hall.
Qed.

(** two calls have the same effect on the contents and return the same *)
Definition same_effect (m : pmap) (o o' : op) : Prop :=
  entries (root (step m o)) = entries (root (step m o')) /\ c_out_full m o = c_out_full m o'.

(** two inserting calls return the same and produce the same contents except that each stores the
    representation it was given: either both leave the contents as they are (or_insert on an
    occupied entry), or the two results are [A1 ++ (q, x) :: A2] and [A1 ++ (q', x) :: A2] with
    [A1], [A2] entries of the old map under other keys *)
Definition same_upto_repr (m : pmap) (o o' : op) (q q' : pfx) (x : V) : Prop :=
  c_out_full m o = c_out_full m o' /\
  ((entries (root (step m o)) = entries (root m) /\ entries (root (step m o')) = entries (root m)) \/
   exists A1 A2,
     entries (root (step m o)) = A1 ++ (q, x) :: A2 /\
     entries (root (step m o')) = A1 ++ (q', x) :: A2 /\
     forall e, In e A1 \/ In e A2 -> In e (entries (root m)) /\ key e <> bits q).

(** every call but [retain] and the three that name their target by a slot or a path.  Used by
    [step_key_only] alone; the refinement theorems are over [Refine.refinable], which also admits a
    pure total [retain] *)
Definition key_addressed (o : op) : Prop :=
  match o with OWrite _ | OViewSet _ _ | OViewRemove _ | ORetain _ => False | _ => True end.

Lemma base_adm (o : op) : op_ok o -> key_addressed o -> refinable o.
Proof. intros H1 H2. split; [exact H1|]. destruct o; try contradiction; exact I. Qed.

Theorem step_key_only m q q' :
  wf_root (root m) -> ok q -> ok q' -> bits q = bits q' ->
  (get (root m) q = get (root m) q' /\
   get_key_value (root m) q = get_key_value (root m) q' /\
   contains_key (root m) q = contains_key (root m) q' /\
   h_get m (entry m q) = h_get m (entry m q')) /\
  (same_effect m (ORemove q) (ORemove q') /\
   same_effect m (ORemoveKeepTree q) (ORemoveKeepTree q') /\
   same_effect m (OOccRemove q) (OOccRemove q') /\
   same_effect m (ORemoveChildren q) (ORemoveChildren q') /\
   forall g, same_effect m (OUpdate q g) (OUpdate q' g)) /\
  (forall x,
   same_upto_repr m (OInsert q x) (OInsert q' x) q q' x /\
   same_upto_repr m (OEntryInsert q x) (OEntryInsert q' x) q q' x /\
   same_upto_repr m (OOrInsert q x) (OOrInsert q' x) q q' x).
Proof.
  (* both sides are moved to the abstract list [A] ([observers_refine], [step_refines]), where the
     operations read [bits q] only ([Refine.key_only]) *)
  intros Hr Hq Hq' E. set (A := entries (root m)).
  destruct (observers_refine m q Hr Hq) as [G1 [K1 [C1 [H1 _]]]].
  destruct (observers_refine m q' Hr Hq') as [G2 [K2 [C2 [H2 _]]]].
  destruct (Refine.key_only pfx V bits A q q' E) as [KA [KF [KW [KR [KU KI]]]]].
  fold A in G1, G2, K1, K2, C1, C2, H1, H2.
  assert (SR : forall o, op_ok o -> key_addressed o ->
            entries (root (step m o)) = fst (a_step A o) /\ c_out_full m o = snd (a_step A o)).
  { intros o Ho Hk. pose proof (base_adm o Ho Hk) as Hb.
    destruct (resolve_refinable m o Hb) as [_ Ec]. rewrite Ec.
    exact (step_refines pfx V peq contains is_bit_set plen lcp pzero mcmp bits ok LAWS m o Hr Hb). }
  assert (SE : forall o o', op_ok o -> op_ok o' -> key_addressed o -> key_addressed o' ->
            a_step A o = a_step A o' -> same_effect m o o').
  { intros o o' Ho Ho' Hk Hk' Ea. destruct (SR o Ho Hk) as [S1 S2]. destruct (SR o' Ho' Hk') as [S1' S2'].
    split; [rewrite S1, S1', Ea | rewrite S2, S2', Ea]; reflexivity. }
  destruct (Refine.key_only_outputs pfx V bits A q q' E) as [_ [_ [_ [O1 [O2 [O3 [O4 O5]]]]]]].
  split; [|split].
  - split; [rewrite G1, G2; exact KA|]. split; [rewrite K1, K2; exact KF|].
    split; [rewrite C1, C2, KA; reflexivity | rewrite H1, H2; exact KA].
  - split; [exact (SE (ORemove q) (ORemove q') Hq Hq' I I O2)|].
    split; [exact (SE (ORemoveKeepTree q) (ORemoveKeepTree q') Hq Hq' I I O3)|].
    split; [exact (SE (OOccRemove q) (OOccRemove q') Hq Hq' I I O1)|].
    split; [exact (SE (ORemoveChildren q) (ORemoveChildren q') Hq Hq' I I O4)|].
    intros g. exact (SE (OUpdate q g) (OUpdate q' g) Hq Hq' I I (O5 g)).
  - intros x. destruct (KI x) as [_ [_ [_ [A1 [A2 [I1 [I2 I3]]]]]]]. cbn [Refine.a_step fst] in I1, I2.
    assert (I3' : forall e, In e A1 \/ In e A2 -> In e A /\ key e <> bits q).
    { intros e He. destruct (I3 e He) as [X Y]. split; [exact X | exact Y]. }
    assert (HU : forall o o', op_ok o -> op_ok o' -> key_addressed o -> key_addressed o' ->
              a_step A o = a_step A (OInsert q x) -> a_step A o' = a_step A (OInsert q' x) ->
              same_upto_repr m o o' q q' x).
    { intros o o' Ho Ho' Hk Hk' Ea Ea'. destruct (SR o Ho Hk) as [S1 S2]. destruct (SR o' Ho' Hk') as [S1' S2'].
      split; [rewrite S2, S2', Ea, Ea'; exact KA|].
      right. exists A1, A2. rewrite S1, S1', Ea, Ea'. auto. }
    split; [exact (HU (OInsert q x) (OInsert q' x) Hq Hq' I I eq_refl eq_refl)|].
    split; [exact (HU (OEntryInsert q x) (OEntryInsert q' x) Hq Hq' I I eq_refl eq_refl)|].
    destruct (SR (OOrInsert q x) Hq I) as [S1 S2]. destruct (SR (OOrInsert q' x) Hq' I) as [S1' S2'].
    split; [rewrite S2, S2'; cbn [Refine.a_step snd]; rewrite KA; reflexivity|].
    rewrite S1, S1'. cbn [Refine.a_step fst]. rewrite <- KA.
    destruct (a_get A q); [left; split; reflexivity|]. right. exists A1, A2. auto.
Qed.

Theorem insert_stores_repr_full m q q' x :
  wf_root (root m) -> ok q -> ok q' -> bits q' = bits q ->
  get_key_value (root (step m (OInsert q x))) q' = Some (q, x) /\
  get_key_value (root (step m (OEntryInsert q x))) q' = Some (q, x) /\
  get_key_value (root (step m (OOrInsert q x))) q'
  = match get_key_value (root m) q' with Some e => Some e | None => Some (q, x) end.
Proof.
  intros Hr Hq Hq' E. set (A := entries (root m)).
  pose proof (wf_sorted _ Hr) as HsA. fold A in HsA.
  assert (SR : forall o, refinable o ->
            get_key_value (root (step m o)) q' = find (fun e => beq (akey e) (bits q')) (fst (a_step A o))).
  { intros o Ho.
    exact (proj2 (Refine.step_observers pfx V peq contains is_bit_set plen lcp pzero mcmp bits ok LAWS m o q' Hr Ho Hq')). }
  pose proof (proj1 (Refine.a_insert_stores pfx V bits A q q' x HsA E)) as St.
  split; [|split].
  - rewrite (SR (OInsert q x) (conj Hq I)). exact St.
  - rewrite (SR (OEntryInsert q x) (conj Hq I)). exact St.
  - rewrite (SR (OOrInsert q x) (conj Hq I)). cbn [Refine.a_step fst].
    rewrite (Refine.get_key_value_refines pfx V peq contains is_bit_set plen lcp pzero mcmp bits ok LAWS (root m) q' Hr Hq').
    fold A. unfold Refine.a_get. rewrite <- E.
    destruct (find (fun e => beq (akey e) (bits q')) A) as [e|] eqn:F; cbn [option_map].
    + exact F.
    + exact St.
Qed.

Theorem step_repr_origin m o p v :
  wf_root (root m) -> admissible o -> In (p, v) (entries (root (step m o))) ->
  (exists v0, In (p, v0) (entries (root m))) \/
  (o = OInsert p v \/ o = OEntryInsert p v \/ (o = OOrInsert p v /\ get (root m) p = None)) \/
  (exists pa i l r, o = OViewSet pa v /\ subtree (root m) pa = Node i p None l r).
Proof.
  (* the entries after the call are those of the resolved abstract step ([step_refines_full]);
     operation by operation, [Refine.repr_stable] says where its members come from *)
  intros Hr Ho Hin. set (A := entries (root m)).
  destruct (Refine.repr_stable pfx V bits A) as [R1 [R2 [R3 [R4 R5]]]].
  assert (Hold : forall e0, In e0 A -> fst e0 = p -> exists v0, In (p, v0) A).
  { intros [p0 v0] H0 E0. cbn [fst] in E0. subst p0. exists v0. exact H0. }
  assert (Hins : forall q x, In (p, v) (a_insert A q x) -> (exists v0, In (p, v0) A) \/ (p = q /\ v = x)).
  { intros q x H. destruct (R5 q x _ H) as [E|[H1 _]]; [right; inversion E; auto | left; exists v; exact H1]. }
  destruct (step_refines_full m o Hr Ho) as [S _]. fold A in S. rewrite S in Hin. clear S.
  destruct Ho as [Hok Hadm].
  destruct o; cbn [resolve x_step Refine.a_step fst] in Hin.
  - (* OInsert *) destruct (Hins _ _ Hin) as [H|[-> ->]]; [left; exact H | right; left; left; reflexivity].
  - (* OEntryInsert *) destruct (Hins _ _ Hin) as [H|[-> ->]]; [left; exact H | right; left; right; left; reflexivity].
  - (* OOrInsert *) cbn [History.op_ok] in Hok.
    pose proof (Refine.get_refines pfx V peq contains is_bit_set plen lcp pzero mcmp bits ok LAWS (root m) q Hr Hok) as G0.
    fold A in G0. rewrite <- G0 in Hin. clear G0.
    destruct (get (root m) q) as [y|] eqn:G; [left; exists v; exact Hin|].
    destruct (Hins _ _ Hin) as [H|[-> ->]]; [left; exact H|]. right. left. right. right. auto.
  - (* OOccRemove *) left. exists v. exact (R1 _ _ Hin).
  - (* OUpdate *) left. destruct (R4 _ _ _ Hin) as [e0 [H0 E0]]. apply (Hold e0 H0). symmetry. exact E0.
  - (* ORemove *) left. exists v. exact (R1 _ _ Hin).
  - (* ORemoveKeepTree *) left. exists v. exact (R1 _ _ Hin).
  - (* ORemoveChildren *) left. exists v. exact (R2 _ _ Hin).
  - (* ORetain *) left. exists v. exact (R3 _ _ Hin).
  - (* OClear *) destruct Hin.
  - (* OCollect *) left. exists v. exact Hin.
  - (* OWrite *) left. apply in_a_write in Hin. destruct Hin as [e0 [H0 [E0 _]]]. apply (Hold e0 H0). symmetry. exact E0.
  - (* OViewSet *) destruct (subtree (root m) pa) as [|i p0 v0 l r] eqn:Hs; cbn [x_step Refine.a_step fst] in Hin;
      [left; exists v; exact Hin|].
    destruct (Hins _ _ Hin) as [H|[-> ->]]; [left; exact H|].
    destruct v0 as [y|].
    + left. exists y. destruct (view_set_step m pa x i p0 (Some y) l r Hr Hs) as [_ [_ [_ [P [Q [E1 _]]]]]].
      fold A in E1. rewrite E1. cbn [own]. apply in_or_app. right. left. reflexivity.
    + right. right. exists pa, i, l, r. auto.
  - (* OViewRemove *) destruct (subtree (root m) pa) as [|i p0 [y|] l r] eqn:Hs; cbn [x_step Refine.a_step fst] in Hin.
    + left. exists v. exact Hin.
    + left. exists v. exact (R1 _ _ Hin).
    + left. exists v. exact Hin.
Qed.

Theorem step_repr_stable m o p0 v0 p v :
  wf_root (root m) -> admissible o ->
  In (p0, v0) (entries (root m)) -> In (p, v) (entries (root (step m o))) -> bits p = bits p0 ->
  p = p0 \/ o = OInsert p v \/ o = OEntryInsert p v.
Proof.
  intros Hr Ho H0 Hin E.
  assert (Hinj : forall v1, In (p, v1) (entries (root m)) -> p = p0).
  { intros v1 H1.
    assert (X : (p, v1) = (p0, v0)) by (apply (sorted_key_inj pfx V bits _ _ _ (wf_sorted _ Hr) H1 H0); exact E).
    inversion X. reflexivity. }
  destruct (step_repr_origin m o p v Hr Ho Hin) as [[v1 H1]|[[H|[H|[H G]]]|[pa [i [l [r [Eo Hs]]]]]]].
  - left. exact (Hinj v1 H1).
  - right. left. exact H.
  - right. right. exact H.
  - exfalso. subst o. destruct Ho as [Hok _]. cbn [History.op_ok] in Hok.
    rewrite (Refine.get_refines pfx V peq contains is_bit_set plen lcp pzero mcmp bits ok LAWS (root m) p Hr Hok) in G.
    rewrite Refine.a_get_none in G. apply (G _ H0). symmetry. exact E.
  - exfalso. destruct (view_set_step m pa v i p None l r Hr Hs) as [_ [_ [G _]]].
    rewrite Refine.a_get_none in G. apply (G _ H0). symmetry. exact E.
Qed.

(** whole histories: every representation stored in a reachable state was passed by an inserting
    call of the history, or is the prefix of a value-less node to which a [TrieViewMut::set] of the
    history gave a value *)
Definition passed (ops : list op) (p : pfx) : Prop :=
  exists x, In (OInsert p x) ops \/ In (OEntryInsert p x) ops \/ In (OOrInsert p x) ops.

Theorem repr_provenance ops p v :
  Forall admissible ops -> In (p, v) (entries (root (run ops))) ->
  passed ops p \/
  exists ops1 pa x ops2 i l r,
    ops = ops1 ++ OViewSet pa x :: ops2 /\ subtree (root (run ops1)) pa = Node i p None l r.
Proof.
  revert p v. induction ops as [|o ops IH] using rev_ind; intros p v Hall Hin.
  - destruct Hin.
  - apply Forall_app in Hall. destruct Hall as [Hall Ho]. inversion Ho as [|? ? Ho' _]; subst.
    rewrite (run_app pfx V peq contains is_bit_set plen lcp pzero) in Hin. cbn [fold_left] in Hin.
    assert (Hmono : passed ops p -> passed (ops ++ [o]) p).
    { intros [x H]. exists x. clear - H. rewrite !in_app_iff. tauto. }
    assert (Hlast : forall x, o = OInsert p x \/ o = OEntryInsert p x \/ o = OOrInsert p x -> passed (ops ++ [o]) p).
    { intros x H. exists x. clear - H. rewrite !in_app_iff. cbn [In]. destruct H as [ -> | [ -> | -> ] ]; tauto. }
    destruct (step_repr_origin (run ops) o p v (run_wf ops Hall) Ho' Hin)
      as [[v1 H1]|[[H|[H|[H _]]]|[pa [i [l [r [Eo Hs]]]]]]].
    + destruct (IH p v1 Hall H1) as [H|[ops1 [pa [x [ops2 [i [l [r [E Hs]]]]]]]]]; [left; apply Hmono; exact H|].
      right. exists ops1, pa, x, (ops2 ++ [o]), i, l, r. split; [|exact Hs].
      rewrite E, <- app_assoc. reflexivity.
    + left. apply (Hlast v). auto.
    + left. apply (Hlast v). auto.
    + left. apply (Hlast v). auto.
    + right. exists ops, pa, v, [], i, l, r. split; [rewrite Eo; reflexivity | exact Hs].
Qed.

(** a lookup reports the stored representation, never the query's *)
Theorem lookup_reports_stored m q p x :
  wf_root (root m) -> ok q ->
  (get_key_value (root m) q = Some (p, x) <-> In (p, x) (entries (root m)) /\ bits p = bits q).
Proof. exact (Lookup.get_key_value_spec_root pfx V peq contains is_bit_set plen lcp pzero mcmp bits ok LAWS (root m) q p x). Qed.

Theorem wf_keys_NoDup (t : tree) : wf_root t -> NoDup (map akey (entries t)).
Proof. intros Hr. apply (TrieWf.sorted_nodup_keys pfx V bits). apply wf_sorted. exact Hr. Qed.

End R2.

Print Assumptions write_step_entries.
Print Assumptions write_step_refines.
Print Assumptions view_step_leaf.
Print Assumptions view_set_step.
Print Assumptions view_remove_step.
Print Assumptions step_refines_full.
Print Assumptions x_run_sorted.
Print Assumptions x_run_keys_NoDup.
Print Assumptions run_refines_full.
Print Assumptions outs_refine_full.
Print Assumptions reachable_step_refines_full.
Print Assumptions reachable_step_write.
Print Assumptions reachable_step_view_set.
Print Assumptions reachable_step_view_remove.
Print Assumptions x_run_refinable.
Print Assumptions observers_refine.
Print Assumptions observers_run_full.
Print Assumptions step_key_only.
Print Assumptions insert_stores_repr_full.
Print Assumptions step_repr_origin.
Print Assumptions step_repr_stable.
Print Assumptions repr_provenance.
Print Assumptions lookup_reports_stored.
Print Assumptions wf_keys_NoDup.
