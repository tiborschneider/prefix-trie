(** The exact-match descent against the entry list of the tree; what a longest-prefix match is, that
    it is unique, and that the three copies of its loop compute the same (its specification comes
    from the cover list: Lookup2.v, with shortest-prefix match and children).  All statements hold
    for every well-formed subtree whose root covers the query — in particular for a whole map and
    every query. *)
From Coq Require Import List NArith ZArith Bool Arith Lia Sorted.
From PT Require Import Bits BitsThm Laws Trie TrieWf.
Import ListNotations.

Section LK.
Variables (pfx V : Type).
Variables (peq contains : pfx -> pfx -> bool) (is_bit_set : pfx -> N -> bool)
          (plen : pfx -> N) (lcp : pfx -> pfx -> pfx) (pzero : pfx)
          (mcmp : pfx -> pfx -> comparison).
Variable bits : pfx -> list bool.
Variable ok : pfx -> Prop.
Hypothesis LAWS : prefix_laws pfx peq contains is_bit_set plen lcp pzero mcmp bits ok.

Notation tree := (tree pfx V).
Notation to_right := (to_right pfx is_bit_set plen).
Notation wf_under := (wf_under pfx V bits ok).
Notation wf_root := (wf_root pfx V bits ok).
Notation key := (key pfx V bits).
Notation get_node := (get_node pfx V peq contains is_bit_set plen).
Notation get := (get pfx V peq contains is_bit_set plen).
Notation get_key_value := (get_key_value pfx V peq contains is_bit_set plen).
Notation contains_key := (contains_key pfx V peq contains is_bit_set plen).
Notation lpm_walk := (lpm_walk pfx V peq contains is_bit_set plen).
Notation lpmp_walk := (lpmp_walk pfx V peq contains is_bit_set plen).
Notation lpmm_walk := (lpmm_walk pfx V peq contains is_bit_set plen).
Notation step := (step pfx V peq contains is_bit_set plen).
Notation step_ind := (step_ind pfx V peq contains is_bit_set plen).
Local Notation step_cover := (step_cover pfx V peq contains is_bit_set plen lcp pzero mcmp bits ok LAWS).

(** the root of the (sub)tree covers the query *)
Definition root_covers (t : tree) (q : pfx) : Prop :=
  match t with Leaf => True | Node _ p _ _ _ => prefix_of (bits p) (bits q) end.

Lemma wf_root_covers t q : wf_root t -> root_covers t q.
Proof. destruct t as [|i p v l r]; [intros []|]. intros [E _]. cbn. rewrite E. apply prefix_of_nil. Qed.

Lemma root_covers_child cp ci cv cl cr q :
  ok cp -> ok q -> contains cp q = true -> root_covers (Node ci cp cv cl cr) q.
Proof. intros. cbn. eapply contains_true; eauto. Qed.

Lemma step_enter {b i p v l r q c} :
  wf_under b (Node i p v l r) -> ok q -> step (Node i p v l r) q = Some c ->
  wf_under (bits p ++ [to_right p q]) c /\ root_covers c q /\
  incl (entries c) (entries (Node i p v l r)).
Proof.
  intros Hwf Hq S.
  assert (Hc : wf_under (bits p ++ [to_right p q]) c) by (eapply step_wf; eassumption).
  split; [exact Hc|]. split; [|eapply step_incl; exact S].
  apply step_inv in S. destruct S as (_ & _ & C).
  destruct c as [|ci cp cv cl cr]; [contradiction|]. eapply root_covers_child; eauto. apply Hc.
Qed.

Lemma get_node_unfold i p v l r q :
  get_node (Node i p v l r) q =
  if peq p q then Some (i, p, v) else
  match step (Node i p v l r) q with Some c => get_node c q | None => None end.
Proof.
  rewrite <- (descend_step pfx V peq contains is_bit_set plen i p v l r q None (fun c => get_node c q)).
  cbn [Trie.get_node]. destruct (peq p q); reflexivity.
Qed.

Lemma get_node_sound t : forall b q i p v,
  wf_under b t -> ok q -> get_node t q = Some (i, p, v) ->
  bits p = bits q /\ (forall x, v = Some x -> In (p, x) (entries t)).
Proof.
  intros b q. revert b. induction t as [t IH] using (step_ind q).
  intros b i p v Hwf Hq H. destruct t as [|i0 p0 v0 l r]; [discriminate|].
  rewrite get_node_unfold in H. destruct (peq p0 q) eqn:E.
  - injection H as -> -> ->. split; [eapply peq_true; eauto; apply Hwf|].
    intros x ->. apply in_entries_own.
  - destruct (step _ q) as [c|] eqn:S; [|discriminate].
    destruct (step_enter Hwf Hq S) as (Hc & _ & Hsub).
    destruct (IH c eq_refl _ _ _ _ Hc Hq H) as [A B]. split; [exact A|].
    intros x Hx. apply Hsub, B, Hx.
Qed.

Lemma get_node_complete t : forall b q p x,
  wf_under b t -> ok q -> root_covers t q -> In (p, x) (entries t) -> bits p = bits q ->
  exists i, get_node t q = Some (i, p, Some x).
Proof.
  intros b q. revert b. induction t as [t IH] using (step_ind q).
  intros b p x Hwf Hq Hrc Hin Hk. destruct t as [|i0 p0 v0 l r]; [contradiction|].
  pose proof Hwf as [Hp0 _]. rewrite get_node_unfold.
  assert (Hcv : prefix_of (key (p, x)) (bits q)).
  { unfold TrieWf.key. cbn [fst]. rewrite Hk. apply prefix_of_refl. }
  destruct (step_cover Hwf Hq Hrc Hin Hcv) as [H|(c & S & H)].
  - (* the stored entry with this key is the node's own *)
    apply in_own in H. cbn [fst snd] in H. destruct H as [-> ->].
    erewrite peq_refl_bits by eauto. exists i0. reflexivity.
  - destruct (step_inv pfx V peq contains is_bit_set plen _ _ _ _ _ _ _ S) as (-> & _). rewrite S.
    destruct (step_enter Hwf Hq S) as (Hc & Hrcc & _).
    exact (IH c S _ _ _ Hc Hq Hrcc H Hk).
Qed.

Theorem get_key_value_spec b t q p x :
  wf_under b t -> ok q -> root_covers t q ->
  (get_key_value t q = Some (p, x) <-> In (p, x) (entries t) /\ bits p = bits q).
Proof.
  intros Hwf Hq Hrc. unfold Trie.get_key_value. split.
  - destruct (get_node t q) as [[[i p'] [x'|]]|] eqn:G; try discriminate.
    intros H. inversion H; subst.
    destruct (get_node_sound _ _ _ _ _ _ Hwf Hq G) as [A B]. split; [apply B; reflexivity | exact A].
  - intros [Hin Hk]. destruct (get_node_complete _ _ _ _ _ Hwf Hq Hrc Hin Hk) as [i ->]. reflexivity.
Qed.

Theorem get_spec b t q x :
  wf_under b t -> ok q -> root_covers t q ->
  (get t q = Some x <-> exists p, In (p, x) (entries t) /\ bits p = bits q).
Proof.
  intros Hwf Hq Hrc. unfold Trie.get. split.
  - destruct (get_node t q) as [[[i p'] v]|] eqn:G; [|discriminate].
    intros ->. destruct (get_node_sound _ _ _ _ _ _ Hwf Hq G) as [A B]. exists p'. split; [apply B; reflexivity | exact A].
  - intros [p [Hin Hk]]. destruct (get_node_complete _ _ _ _ _ Hwf Hq Hrc Hin Hk) as [i ->]. reflexivity.
Qed.

Theorem contains_key_spec b t q :
  wf_under b t -> ok q -> root_covers t q ->
  (contains_key t q = true <-> exists e, In e (entries t) /\ key e = bits q).
Proof.
  intros Hwf Hq Hrc. unfold Trie.contains_key. split.
  - destruct (get_node t q) as [[[i p'] [x|]]|] eqn:G; try discriminate.
    intros _. destruct (get_node_sound _ _ _ _ _ _ Hwf Hq G) as [A B].
    exists (p', x). split; [apply B; reflexivity | exact A].
  - intros [[p x] [Hin Hk]]. destruct (get_node_complete _ _ _ _ _ Hwf Hq Hrc Hin Hk) as [i ->]. reflexivity.
Qed.

Corollary get_key_value_spec_root t q p x :
  wf_root t -> ok q ->
  (get_key_value t q = Some (p, x) <-> In (p, x) (entries t) /\ bits p = bits q).
Proof.
  intros Hwf Hq.
  exact (get_key_value_spec [] t q p x (wf_root_under _ _ _ _ t Hwf) Hq (wf_root_covers t q Hwf)).
Qed.

Corollary get_spec_root t q x :
  wf_root t -> ok q -> (get t q = Some x <-> exists p, In (p, x) (entries t) /\ bits p = bits q).
Proof.
  intros Hwf Hq. exact (get_spec [] t q x (wf_root_under _ _ _ _ t Hwf) Hq (wf_root_covers t q Hwf)).
Qed.

(** [e] is the most specific entry of [es] covering [q] *)
Definition is_lpm (es : list (pfx * V)) (q : pfx) (e : pfx * V) : Prop :=
  In e es /\ prefix_of (key e) (bits q) /\
  forall e', In e' es -> prefix_of (key e') (bits q) -> length (key e') <= length (key e).
Definition no_cover (es : list (pfx * V)) (q : pfx) : Prop :=
  forall e, In e es -> ~ prefix_of (key e) (bits q).

(** result of a walk given the best match found above: either the subtree holds a covering entry
    and the result is its most specific one, or it holds none and the result is the inherited one *)
Definition lpm_result (t : tree) (q : pfx) (best res : option (pfx * V)) : Prop :=
  (exists e, res = Some e /\ is_lpm (entries t) q e) \/ (no_cover (entries t) q /\ res = best).

Lemma lpm_walk_unfold i p v l r q best :
  lpm_walk (Node i p v l r) q best =
  match step (Node i p v l r) q with
  | Some c => lpm_walk c q (match v with Some x => Some (p, x) | None => best end)
  | None => match v with Some x => Some (p, x) | None => best end
  end.
Proof. apply (descend_step pfx V peq contains is_bit_set plen i p v l r q _ (fun c => lpm_walk c q _)). Qed.

Lemma is_lpm_unique b t q e1 e2 :
  wf_under b t -> is_lpm (entries t) q e1 -> is_lpm (entries t) q e2 -> e1 = e2.
Proof.
  intros Hwf [H1 [C1 M1]] [H2 [C2 M2]].
  eapply (entries_key_inj pfx V bits ok); eauto.
  pose proof (M1 _ H2 C2). pose proof (M2 _ H1 C1).
  destruct (prefix_of_comparable _ _ _ C1 C2) as [Hc|Hc]; [|symmetry]; apply prefix_of_same_len; auto.
Qed.

Lemma lpm_answer_unique b t q (o1 o2 : option (pfx * V)) :
  wf_under b t ->
  match o1 with Some e => is_lpm (entries t) q e | None => no_cover (entries t) q end ->
  match o2 with Some e => is_lpm (entries t) q e | None => no_cover (entries t) q end ->
  o1 = o2.
Proof.
  intros Hwf H1 H2. destruct o1 as [e1|], o2 as [e2|].
  - f_equal. exact (is_lpm_unique b t q e1 e2 Hwf H1 H2).
  - destruct H1 as (Hin & Hc & _). destruct (H2 e1 Hin Hc).
  - destruct H2 as (Hin & Hc & _). destruct (H1 e2 Hin Hc).
  - reflexivity.
Qed.

(** the two other copies of the loop compute projections of the same answer *)
Lemma lpmp_walk_eq t : forall q best bestp,
  bestp = option_map fst best -> lpmp_walk t q bestp = option_map fst (lpm_walk t q best).
Proof.
  intros q. induction t as [t IH] using (step_ind q).
  intros best bestp ->. destruct t as [|i p v l r]; [reflexivity|].
  rewrite lpm_walk_unfold.
  etransitivity; [apply (descend_step pfx V peq contains is_bit_set plen i p v l r q _ (fun c => lpmp_walk c q _))|].
  destruct (step _ q) as [c|] eqn:S; [apply (IH c eq_refl)|]; destruct v; reflexivity.
Qed.

Theorem get_lpm_prefix_eq t q :
  Trie.get_lpm_prefix pfx V peq contains is_bit_set plen t q =
  option_map fst (Trie.get_lpm pfx V peq contains is_bit_set plen t q).
Proof. unfold Trie.get_lpm_prefix, Trie.get_lpm. apply lpmp_walk_eq. reflexivity. Qed.

(** an item without its slot number.  [Lookup2.drop_id] is the same function: the statements about
    [get_lpm_mut] (here, C02) are written with this name, those about iteration with that one. *)
Definition drop_slot (x : N * pfx * V) : pfx * V := let '(_, p, v) := x in (p, v).

Lemma lpmm_walk_unfold i p v l r q best :
  lpmm_walk (Node i p v l r) q best =
  match step (Node i p v l r) q with
  | Some c => lpmm_walk c q (match v with Some x => Some (i, p, x) | None => best end)
  | None => match v with Some x => Some (i, p, x) | None => best end
  end.
Proof. apply (descend_step pfx V peq contains is_bit_set plen i p v l r q _ (fun c => lpmm_walk c q _)). Qed.

Lemma lpmm_walk_eq t : forall q best bestm,
  best = option_map drop_slot bestm -> option_map drop_slot (lpmm_walk t q bestm) = lpm_walk t q best.
Proof.
  intros q. induction t as [t IH] using (step_ind q).
  intros best bestm ->. destruct t as [|i p v l r]; [reflexivity|].
  rewrite lpmm_walk_unfold, lpm_walk_unfold.
  destruct (step _ q) as [c|] eqn:S; [apply (IH c eq_refl)|]; destruct v; reflexivity.
Qed.

Theorem get_lpm_mut_eq t q :
  option_map drop_slot (Trie.get_lpm_mut pfx V peq contains is_bit_set plen t q) =
  Trie.get_lpm pfx V peq contains is_bit_set plen t q.
Proof. unfold Trie.get_lpm_mut, Trie.get_lpm. apply lpmm_walk_eq. reflexivity. Qed.

Lemma step_incl_id t q c : step t q = Some c -> incl (entries_id c) (entries_id t).
Proof.
  destruct t as [|i p v l r]; [discriminate|]. intros S e He.
  apply step_inv in S. destruct S as (_ & -> & _).
  cbn [entries_id]. rewrite !in_app_iff. destruct (to_right p q); auto.
Qed.

Lemma lpmm_walk_slot t : forall q bestm i p x,
  lpmm_walk t q bestm = Some (i, p, x) -> In (i, p, x) (entries_id t) \/ bestm = Some (i, p, x).
Proof.
  intros q. induction t as [t IH] using (step_ind q).
  intros bestm i p x H. destruct t as [|i0 p0 v0 l r]; [right; exact H|].
  rewrite lpmm_walk_unfold in H.
  assert (Hb1 : match v0 with Some x => Some (i0, p0, x) | None => bestm end = Some (i, p, x) ->
                In (i, p, x) (entries_id (Node i0 p0 v0 l r)) \/ bestm = Some (i, p, x)).
  { destruct v0; intros E; [left; inversion E; subst; cbn; left; reflexivity | right; exact E]. }
  destruct (step _ q) as [c|] eqn:S; [|apply Hb1; exact H].
  destruct (IH c eq_refl _ _ _ _ H) as [Hin|E]; [|apply Hb1; exact E].
  left. exact (step_incl_id _ _ _ S _ Hin).
Qed.

Theorem get_lpm_mut_slot t q i p x :
  Trie.get_lpm_mut pfx V peq contains is_bit_set plen t q = Some (i, p, x) -> In (i, p, x) (entries_id t).
Proof.
  unfold Trie.get_lpm_mut. intros H.
  destruct (lpmm_walk_slot t q None i p x H) as [Hin|E]; [exact Hin|discriminate].
Qed.

End LK.
