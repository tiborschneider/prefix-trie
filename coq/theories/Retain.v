(** [retain] / [_retain]: well-formedness for every outcome (also when the closure panics), the
    predicate is evaluated exactly once per stored entry, and the result holds exactly the entries
    that were not (yet) rejected. *)
From Coq Require Import List NArith ZArith Bool Arith Lia Sorted Permutation.
From PT Require Import Trie TrieWf Mutate.
Import ListNotations.

(** * The nine ways a call of [_retain] ends, as the graph of [ret] *)
Section G.
Variables (pfx V : Type) (f : nat -> pfx -> V -> option bool).
Notation tree := (tree pfx V).
Notation rstate := (rstate pfx V).
Notation ret := (Trie.ret pfx V).

Inductive ret_graph : bool -> tree -> rstate -> tree -> rstat -> rstate -> Prop :=
| RG_leaf hp s : ret_graph hp Leaf s Leaf (RDone false) s
| RG_panic_l hp i p v l r s l' s1 :
    ret_graph true l s l' RPanic s1 ->
    ret_graph hp (Node i p v l r) s (Node i p v l' r) RPanic s1
| RG_collapse_l i p l r s l' s1 t' st s' :
    ret_graph true l s l' (RDone true) s1 ->
    ret_graph true r (push_free i (fst s1), snd s1) t' st s' ->
    ret_graph true (Node i p None l r) s t' st s'
| RG_panic_r hp i p v l r s fl l' s1 r' s2 :
    fl && (hp && is_none v) = false ->
    ret_graph true l s l' (RDone fl) s1 -> ret_graph true r s1 r' RPanic s2 ->
    ret_graph hp (Node i p v l r) s (Node i p v l' r') RPanic s2
| RG_collapse_r i p l r s l' s1 r' s2 :
    ret_graph true l s l' (RDone false) s1 -> ret_graph true r s1 r' (RDone true) s2 ->
    ret_graph true (Node i p None l r) s l' (RDone false) (push_free i (fst s2), snd s2)
| RG_valueless hp i p l r s fl l' s1 fr r' s2 :
    fl && hp = false -> fr && hp = false ->
    ret_graph true l s l' (RDone fl) s1 -> ret_graph true r s1 r' (RDone fr) s2 ->
    ret_graph hp (Node i p None l r) s (Node i p None l' r') (RDone false) s2
| RG_own_panic hp i p x l r s fl l' s1 fr r' s2 :
    ret_graph true l s l' (RDone fl) s1 -> ret_graph true r s1 r' (RDone fr) s2 ->
    f (length (snd s2)) p x = None ->
    ret_graph hp (Node i p (Some x) l r) s (Node i p (Some x) l' r') RPanic s2
| RG_accept hp i p x l r s fl l' s1 fr r' s2 :
    ret_graph true l s l' (RDone fl) s1 -> ret_graph true r s1 r' (RDone fr) s2 ->
    f (length (snd s2)) p x = Some true ->
    ret_graph hp (Node i p (Some x) l r) s (Node i p (Some x) l' r') (RDone false) (fst s2, (p, x) :: snd s2)
| RG_reject hp i p x l r s fl l' s1 fr r' s2 t' fl' a' :
    ret_graph true l s l' (RDone fl) s1 -> ret_graph true r s1 r' (RDone fr) s2 ->
    f (length (snd s2)) p x = Some false ->
    remove_self pfx V hp i p (Some x) l' r' (fst s2) = (t', fl', a') ->
    ret_graph hp (Node i p (Some x) l r) s t' (RDone fl') (a', (p, x) :: snd s2).

Lemma ret_graph_sound t : forall hp s t' st s', ret f hp t s = (t', st, s') -> ret_graph hp t s t' st s'.
Proof.
  induction t as [|i p v l IHl r IHr]; intros hp s t' st s' H; cbn [Trie.ret] in H.
  { inversion H; subst. constructor. }
  destruct (ret f true l s) as [[l' sl] s1] eqn:RL. apply IHl in RL.
  destruct sl as [fl|]; [|inversion H; subst; apply RG_panic_l; exact RL].
  destruct (fl && (hp && is_none v)) eqn:B1.
  { apply andb_prop in B1 as [-> B1]. apply andb_prop in B1 as [-> B1]. destruct v; [discriminate|].
    eapply RG_collapse_l; [exact RL | apply IHr; exact H]. }
  destruct (ret f true r s1) as [[r' sr] s2] eqn:RR. apply IHr in RR.
  destruct sr as [fr|]; [|inversion H; subst; eapply RG_panic_r; eassumption].
  destruct (fr && (hp && is_none v)) eqn:B2.
  { apply andb_prop in B2 as [-> B2]. apply andb_prop in B2 as [-> B2]. destruct v; [discriminate|].
    cbn in B1. rewrite andb_true_r in B1. subst fl. inversion H; subst. eapply RG_collapse_r; eassumption. }
  destruct v as [x|].
  - destruct (f (length (snd s2)) p x) as [[|]|] eqn:F.
    + inversion H; subst. eapply RG_accept; eassumption.
    + destruct (remove_self pfx V hp i p (Some x) l' r' (fst s2)) as [[t1 fl1] a1] eqn:RS.
      inversion H; subst. eapply RG_reject; eassumption.
    + inversion H; subst. eapply RG_own_panic; eassumption.
  - cbn [is_none] in B1, B2. rewrite andb_true_r in B1, B2. inversion H; subst t' st s'.
    apply (RG_valueless hp i p l r s fl l' s1 fr r' s2); assumption.
Qed.

Lemma ret_graph_complete hp t s t' st s' : ret_graph hp t s t' st s' -> ret f hp t s = (t', st, s').
Proof.
  induction 1 as [hp s
    | hp i p v l r s l' s1 HL IHl
    | i p l r s l' s1 t' st s' HL IHl HR IHr
    | hp i p v l r s fl l' s1 r' s2 B HL IHl HR IHr
    | i p l r s l' s1 r' s2 HL IHl HR IHr
    | hp i p l r s fl l' s1 fr r' s2 B1 B2 HL IHl HR IHr
    | hp i p x l r s fl l' s1 fr r' s2 HL IHl HR IHr F
    | hp i p x l r s fl l' s1 fr r' s2 HL IHl HR IHr F
    | hp i p x l r s fl l' s1 fr r' s2 t' fl' a' HL IHl HR IHr F RS]; cbn [Trie.ret]; [reflexivity|rewrite IHl..].
  - reflexivity.
  - exact IHr.
  - rewrite B, IHr. reflexivity.
  - cbn [andb is_none]. rewrite IHr. reflexivity.
  - cbn [is_none]. rewrite IHr, !andb_true_r, B1, B2. reflexivity.
  - cbn [is_none]. rewrite IHr, !andb_false_r, F. reflexivity.
  - cbn [is_none]. rewrite IHr, !andb_false_r, F. reflexivity.
  - cbn [is_none]. rewrite IHr, !andb_false_r, F, RS. reflexivity.
Qed.
End G.

Lemma missed_length {E} (X c : list E) e : incl c X -> NoDup c -> In e X -> ~ In e c -> length c < length X.
Proof.
  intros I N He Hn. assert (Hl : length (e :: c) <= length X).
  { apply NoDup_incl_length; [constructor; assumption|]. intros e' [<-|He']; [exact He | apply I; exact He']. }
  cbn in Hl. lia.
Qed.

(** * The run of [_retain] with an arbitrary closure *)
Section Run.
Variables (pfx V : Type).
Notation tree := (tree pfx V).
Notation ret_graph := (ret_graph pfx V).
Notation shr := (Mutate.shr pfx V).
Notation own := (TrieWf.own pfx V).

(** the post-order list of stored entries: the order in which [_retain] visits them *)
Fixpoint post (t : tree) : list (pfx * V) :=
  match t with
  | Leaf => []
  | Node _ p v l r => post l ++ post r ++ (match v with Some x => [(p, x)] | None => [] end)
  end.

Lemma post_perm (t : tree) : Permutation (post t) (entries t).
Proof.
  induction t as [|i p v l IHl r IHr]; [constructor|]. cbn [post entries].
  rewrite app_assoc. eapply Permutation_trans; [apply Permutation_app_comm|].
  apply Permutation_app_head. apply Permutation_app; assumption.
Qed.

Variable f : nat -> pfx -> V -> option bool.

(** the invocations that returned, each with its verdict, from invocation [n] on *)
Fixpoint ran (n : nat) (cv : list (pfx * V * bool)) : Prop :=
  match cv with
  | [] => True
  | (e, c) :: cv' => f n (fst e) (snd e) = Some c /\ ran (S n) cv'
  end.
Definition called (cv : list (pfx * V * bool)) : list (pfx * V) := map fst cv.
Definition rejected (cv : list (pfx * V * bool)) : list (pfx * V) := map fst (filter (fun x => negb (snd x)) cv).

Lemma ran_app n c1 c2 : ran n c1 -> ran (length c1 + n) c2 -> ran n (c1 ++ c2).
Proof.
  revert n. induction c1 as [|[e c] c1 IH]; intros n H1 H2; [exact H2|]. destruct H1 as [H0 H1].
  split; [exact H0|]. apply IH; [exact H1|]. cbn [length] in H2. rewrite Nat.add_succ_r. exact H2.
Qed.

Lemma ran_nth n cv : ran n cv -> forall k e c, nth_error cv k = Some (e, c) -> f (n + k) (fst e) (snd e) = Some c.
Proof.
  revert n. induction cv as [|[e0 c0] cv IH]; intros n H k e c Hk; [destruct k; discriminate|].
  destruct H as [H0 H]. destruct k as [|k]; cbn in Hk.
  - inversion Hk; subst. rewrite Nat.add_0_r. exact H0.
  - rewrite Nat.add_succ_r. exact (IH (S n) H k e c Hk).
Qed.

(** [g] gives the verdicts that were returned *)
Definition agrees (g : pfx -> V -> bool) (cv : list (pfx * V * bool)) : Prop :=
  Forall (fun x => snd x = g (fst (fst x)) (snd (fst x))) cv.

Lemma rejected_agrees g cv : agrees g cv ->
  forall e, In e (rejected cv) <-> In e (called cv) /\ g (fst e) (snd e) = false.
Proof.
  induction cv as [|[e c] cv IH]; intros A e'; [cbn; tauto|]. inversion A as [|? ? Hc A']; subst. cbn [fst snd] in Hc.
  specialize (IH A' e'). unfold rejected, called in *. cbn [filter map snd fst]. subst c.
  destruct (g (fst e) (snd e)) eqn:G; cbn [negb map fst In]; rewrite IH; [|intuition congruence].
  split; [tauto|]. intros [[<-|H1] H2]; [congruence | tauto].
Qed.

(** the calls of the left subtree, of the right subtree and on the own entry, in this order *)
Lemma run3 (log log1 log2 : list (pfx * V)) cl cr co :
  log1 = rev (called cl) ++ log -> log2 = rev (called cr) ++ log1 ->
  ran (length log) cl -> ran (length log1) cr -> ran (length log2) co ->
  rev (called co) ++ log2 = rev (called (cl ++ cr ++ co)) ++ log /\ ran (length log) (cl ++ cr ++ co) /\
  rejected (cl ++ cr ++ co) = (rejected cl ++ rejected cr) ++ rejected co.
Proof.
  intros -> -> Rl Rr Ro. unfold called, rejected in *. rewrite !filter_app, !map_app, !rev_app_distr, <- !app_assoc.
  split; [reflexivity|]. split; [|reflexivity]. rewrite !app_length, !rev_length, !map_length in *.
  apply ran_app; [exact Rl|]. apply ran_app; [exact Rr | exact Ro].
Qed.

Lemma valued_stays (fl hp : bool) (x : V) : fl && (hp && is_none (Some x)) = false.
Proof. destruct fl, hp; reflexivity. Qed.

(** Whatever the closure answers: the invocations that return are a prefix of the post-order entry
    list ([rest] is what was not visited: nothing unless the closure panicked, and then it starts
    with the entry the closure panicked on); the tree changes by removal steps that take out
    exactly the rejected entries. *)
Lemma ret_run {hp t s t' st s'} : ret_graph f hp t s t' st s' ->
  exists cv rest,
    shr hp t (fst s) t' (match st with RDone fl => fl | RPanic => false end) (fst s') (rejected cv) /\
    post t = called cv ++ rest /\ snd s' = rev (called cv) ++ snd s /\ ran (length (snd s)) cv /\
    (st <> RPanic -> rest = []) /\
    (st = RPanic -> exists e rest', rest = e :: rest' /\ f (length (snd s')) (fst e) (snd e) = None).
Proof.
  induction 1 as [hp s
    | hp i p v l r s l' s1 HL (cl & rl & Sl & Pl & Ll & Rl & Dl & Nl)
    | i p l r s l' s1 t' st s' HL (cl & rl & Sl & Pl & Ll & Rl & Dl & Nl) HR (cr & rr & Sr & Pr & Lr & Rr & Dr & Nr)
    | hp i p v l r s fl l' s1 r' s2 B HL (cl & rl & Sl & Pl & Ll & Rl & Dl & Nl) HR (cr & rr & Sr & Pr & Lr & Rr & Dr & Nr)
    | i p l r s l' s1 r' s2 HL (cl & rl & Sl & Pl & Ll & Rl & Dl & Nl) HR (cr & rr & Sr & Pr & Lr & Rr & Dr & Nr)
    | hp i p l r s fl l' s1 fr r' s2 B1 B2 HL (cl & rl & Sl & Pl & Ll & Rl & Dl & Nl) HR (cr & rr & Sr & Pr & Lr & Rr & Dr & Nr)
    | hp i p x l r s fl l' s1 fr r' s2 HL (cl & rl & Sl & Pl & Ll & Rl & Dl & Nl) HR (cr & rr & Sr & Pr & Lr & Rr & Dr & Nr) F
    | hp i p x l r s fl l' s1 fr r' s2 HL (cl & rl & Sl & Pl & Ll & Rl & Dl & Nl) HR (cr & rr & Sr & Pr & Lr & Rr & Dr & Nr) F
    | hp i p x l r s fl l' s1 fr r' s2 t' fl' a' HL (cl & rl & Sl & Pl & Ll & Rl & Dl & Nl) HR (cr & rr & Sr & Pr & Lr & Rr & Dr & Nr) F RS];
    cbn [post fst snd] in *.
  { exists [], []. repeat split; try reflexivity; [apply shr_refl | discriminate]. }
  { (* panic in the left subtree: the rest was not visited *)
    exists cl, (rl ++ post r ++ own p v).
    split; [exact (shr_kid pfx V hp i p v l r false l' false _ _ _ Sl eq_refl)|].
    split; [rewrite Pl, <- app_assoc; reflexivity|]. split; [exact Ll|]. split; [exact Rl|].
    split; [intros N; congruence|]. intros _. destruct (Nl eq_refl) as (e & rest' & -> & Fe).
    exists e, (rest' ++ post r ++ own p v). auto. }
  all: rewrite (Dl ltac:(discriminate)), app_nil_r in Pl; rewrite Pl; clear Dl Nl.
  all: assert (Q : called cl ++ called cr = called (cl ++ cr)) by (unfold called; rewrite map_app; reflexivity).
  (* the log, the answered calls and the rejected ones at the node: those of the two subtrees, then the
     call on the own entry, if one was made and returned *)
  1-5: destruct (run3 _ _ _ cl cr [] Ll Lr Rl Rr I) as (L3 & R3 & J3).
  6: destruct (run3 _ _ _ cl cr [(p, x, true)] Ll Lr Rl Rr (conj F I)) as (L3 & R3 & J3).
  7: destruct (run3 _ _ _ cl cr [(p, x, false)] Ll Lr Rl Rr (conj F I)) as (L3 & R3 & J3).
  all: cbn [rejected called filter map snd negb fst rev app] in L3, J3;
    repeat rewrite app_nil_r in L3; repeat rewrite app_nil_r in R3; repeat rewrite app_nil_r in J3.
  2: { (* panic in the right subtree *)
    exists (cl ++ cr), (rr ++ own p v). rewrite J3.
    split; [exact (shr_kids pfx V hp i p v l r l' r' fl false _ _ _ _ _ Sl Sr B eq_refl)|].
    split; [rewrite Pr, <- Q, <- !app_assoc; reflexivity|].
    split; [exact L3|]. split; [exact R3|]. split; [intros N; congruence|].
    intros _. destruct (Nr eq_refl) as (e & rest' & -> & Fe). exists e, (rest' ++ own p v). auto. }
  1: { (* collapsed by the removal of the left child: the right child now stands here, and its
          outcome is the node's *)
    exists (cl ++ cr), rr. rewrite J3.
    split; [eapply shr_trans; [|exact Sr]; exact (shr_child pfx V true i p None l r false l' true _ _ _ _ _ Sl eq_refl)|].
    split; [rewrite Pr, <- Q, <- !app_assoc, app_nil_r; reflexivity|].
    split; [exact L3|]. split; [exact R3|]. split; [exact Dr | exact Nr]. }
  all: rewrite (Dr ltac:(discriminate)), app_nil_r in Pr; rewrite Pr; clear Dr Nr.
  all: [> exists (cl ++ cr), [] | exists (cl ++ cr), [] | exists (cl ++ cr), [(p, x)]
        | exists (cl ++ cr ++ [(p, x, true)]), [] | exists (cl ++ cr ++ [(p, x, false)]), []].
  all: rewrite J3; split;
    [|split; [unfold called; rewrite ?map_app, ?app_nil_r, <- ?app_assoc; reflexivity|];
      split; [exact L3|]; split; [exact R3|];
      split; [intros N; first [reflexivity | congruence] | intros N; first [discriminate N | eauto]]].
  - (* collapsed by the removal of the right child *)
    eapply shr_trans; [exact (shr_kid pfx V true i p None l r false l' false _ _ _ Sl eq_refl)|].
    exact (shr_child pfx V true i p None l' r true r' true _ _ _ _ _ Sr eq_refl).
  - apply (shr_kids pfx V hp i p None l r l' r' fl fr _ _ _ _ _ Sl Sr); cbn [is_none]; rewrite andb_true_r; assumption.
  - (* the closure panicked on the node's own entry *)
    exact (shr_kids pfx V hp i p (Some x) l r l' r' fl fr _ _ _ _ _ Sl Sr (valued_stays _ _ _) (valued_stays _ _ _)).
  - exact (shr_kids pfx V hp i p (Some x) l r l' r' fl fr _ _ _ _ _ Sl Sr (valued_stays _ _ _) (valued_stays _ _ _)).
  - (* rejected: both children are done, then the node gives up its value *)
    eapply shr_trans; [|exact (shr_self pfx V hp i p (Some x) l' r' _ _ _ _ RS)].
    exact (shr_kids pfx V hp i p (Some x) l r l' r' fl fr _ _ _ _ _ Sl Sr (valued_stays _ _ _) (valued_stays _ _ _)).
Qed.

End Run.

Section RT.
Variables (pfx V : Type).
Variable bits : pfx -> list bool.
Variable ok : pfx -> Prop.

Notation tree := (tree pfx V).
Notation wf_under := (wf_under pfx V bits ok).
Notation wf_root := (wf_root pfx V bits ok).
Notation ret := (Trie.ret pfx V).
Notation retain := (Trie.retain pfx V).
Notation ret_graph := (ret_graph pfx V).

Lemma ret_graph_wf {f : nat -> pfx -> V -> option bool} {hp t s t' st s'} :
  ret_graph f hp t s t' st s' -> forall b, wf_under b t ->
  wf_under b t' /\
  (hp = false -> forall i p v l r, t = Node i p v l r -> exists v' l' r', t' = Node i p v' l' r') /\
  (st = RDone true -> t' = Leaf).
Proof.
  intros H b Hwf. destruct (ret_run pfx V f H) as (cv & rest & S & _).
  split; [exact (shr_wf pfx V bits ok S b Hwf)|]. split; [exact (shr_root pfx V S)|].
  intros ->. exact (shr_flag pfx V S eq_refl).
Qed.

(** for an arbitrary closure: [_retain] preserves well-formedness whatever the outcome;
    a node without parent stays in place; a subtree reported as "removed as a leaf" is gone *)
Theorem ret_wf (f : nat -> pfx -> V -> option bool) b hp t s t' st s' :
  wf_under b t -> ret f hp t s = (t', st, s') ->
  wf_under b t' /\
  (hp = false -> forall i p v l r, t = Node i p v l r -> exists v' l' r', t' = Node i p v' l' r') /\
  (st = RDone true -> t' = Leaf).
Proof. intros Hwf H. exact (ret_graph_wf (ret_graph_sound _ _ f _ _ _ _ _ _ H) b Hwf). Qed.

Theorem retain_wf (f : nat -> pfx -> V -> option bool) m m' panicked calls :
  wf_root (root m) -> retain f m = (m', panicked, calls) -> wf_root (root m').
Proof.
  unfold Trie.retain. intros Hwf H.
  destruct (ret f false (root m) (al m, [])) as [[t' st] [a' log']] eqn:E.
  inversion H; subst. cbn [root].
  destruct (root m) as [|i p v l r] eqn:R; [destruct Hwf|]. destruct Hwf as [Hb Hwf].
  destruct (ret_wf f _ _ _ _ _ _ _ Hwf E) as [W [N _]].
  destruct (N eq_refl _ _ _ _ _ eq_refl) as [v' [l' [r' ->]]].
  split; [exact Hb | exact W].
Qed.

(** [ret_run] read under well-formedness: keys are unique, so that membership can be read off the
    two list equations; [g] is any function that gives the verdicts returned on this run *)
Lemma ret_run_entries (f : nat -> pfx -> V -> option bool) {b hp t s t' st s'} :
  wf_under b t -> ret_graph f hp t s t' st s' ->
  exists cv,
    snd s' = rev (called pfx V cv) ++ snd s /\ ran pfx V f (length (snd s)) cv /\
    incl (called pfx V cv) (entries t) /\ NoDup (map (key pfx V bits) (called pfx V cv)) /\
    (st <> RPanic -> Permutation (called pfx V cv) (entries t)) /\
    (st = RPanic -> exists e, In e (entries t) /\ ~ In e (called pfx V cv) /\
                              f (length (snd s')) (fst e) (snd e) = None) /\
    forall g, agrees pfx V g cv ->
      (forall e, In e (entries t') <->
                 In e (entries t) /\ ~ (In e (called pfx V cv) /\ g (fst e) (snd e) = false)) /\
      (st <> RPanic -> entries t' = filter (fun e => g (fst e) (snd e)) (entries t)).
Proof.
  intros Hwf H. destruct (ret_run pfx V f H) as (cv & rest & S & P & L & R & D & N). exists cv.
  pose proof (entries_sorted pfx V bits ok _ _ Hwf) as St. pose proof (sorted_nodup pfx V bits _ St) as Nt.
  pose proof (post_perm pfx V t) as Pp. rewrite P in Pp.
  destruct (nodup_app_inv _ _ (Permutation_NoDup (Permutation_sym Pp) Nt)) as (_ & _ & Dc).
  pose proof (Permutation_NoDup (Permutation_map (key pfx V bits) (Permutation_sym Pp)) (sorted_nodup_keys pfx V bits _ St)) as Nk.
  rewrite map_app in Nk. apply nodup_app_inv in Nk. destruct Nk as (Nc & _).
  pose proof (shr_perm pfx V S) as Pe.
  destruct (nodup_app_inv _ _ (Permutation_NoDup Pe Nt)) as (_ & _ & De).
  assert (Pdone : st <> RPanic -> Permutation (called pfx V cv) (entries t))
    by (intros Hst; rewrite (D Hst), app_nil_r in Pp; exact Pp).
  split; [exact L|]. split; [exact R|].
  split; [intros e He; apply (Permutation_in _ Pp), in_or_app; auto|]. split; [exact Nc|]. split; [exact Pdone|]. split.
  - intros Hst. destruct (N Hst) as (e & rest' & -> & Fe). exists e.
    split; [apply (Permutation_in _ Pp), in_or_app; right; left; reflexivity|]. split; [|exact Fe].
    intros He. apply (Dc e He). left. reflexivity.
  - intros g Ag.
    assert (K : forall e, In e (entries t') <->
                In e (entries t) /\ ~ (In e (called pfx V cv) /\ g (fst e) (snd e) = false)).
    { intros e. rewrite <- (rejected_agrees pfx V g cv Ag e). split.
      - intros He. split; [apply (Permutation_in _ (Permutation_sym Pe)), in_or_app; auto | exact (De e He)].
      - intros [He Hn]. apply (Permutation_in _ Pe), in_app_or in He. destruct He as [He|He]; [exact He | destruct (Hn He)]. }
    split; [exact K|]. intros Hst.
    apply (filter_char pfx V bits); [exact St | eapply entries_sorted, (shr_wf pfx V bits ok S), Hwf|].
    intros e. rewrite (K e). split; intros [H1 H2]; (split; [exact H1|]).
    + destruct (g (fst e) (snd e)); [reflexivity|].
      destruct H2. split; [exact (Permutation_in _ (Permutation_sym (Pdone Hst)) H1) | reflexivity].
    + intros [_ H3]. congruence.
Qed.

Section F.
Variable f : nat -> pfx -> V -> option bool.
Variable g : pfx -> V -> bool.
(** the verdict of a non-panicking invocation does not depend on the invocation count *)
Hypothesis Hf : forall n p x c, f n p x = Some c -> c = g p x.

(** the invocation counter: every call made was answered by [g] at the index it was made with *)
Fixpoint answered (n : nat) (calls : list (pfx * V)) : Prop :=
  match calls with
  | [] => True
  | e :: c => f n (fst e) (snd e) = Some (g (fst e) (snd e)) /\ answered (S n) c
  end.

Lemma answered_nth n (calls : list (pfx * V)) : answered n calls ->
  forall k e, nth_error calls k = Some e -> f (n + k) (fst e) (snd e) = Some (g (fst e) (snd e)).
Proof.
  revert n. induction calls as [|c calls IH]; intros n H k e Hk; [destruct k; discriminate|].
  cbn in H. destruct H as [H0 H]. destruct k as [|k]; cbn in Hk.
  - inversion Hk; subst. rewrite Nat.add_0_r. exact H0.
  - rewrite Nat.add_succ_r. apply (IH (S n) H k e Hk).
Qed.

Lemma answered_app n c1 c2 : answered n c1 -> answered (n + length c1) c2 -> answered n (c1 ++ c2).
Proof.
  revert n. induction c1 as [|e c1 IH]; intros n H1 H2; cbn [app length answered] in *.
  - rewrite Nat.add_0_r in H2. exact H2.
  - destruct H1 as [H0 H1]. split; [exact H0|]. apply IH; [exact H1|]. rewrite Nat.add_succ_r in H2. exact H2.
Qed.

Lemma ran_answered cv : forall n, ran pfx V f n cv -> answered n (called pfx V cv) /\ agrees pfx V g cv.
Proof.
  induction cv as [|[e c] cv IH]; intros n H; [split; [exact I | constructor]|]. destruct H as [H0 H].
  destruct (IH _ H) as [A B]. pose proof (Hf _ _ _ _ H0) as ->. split; [split; [exact H0 | exact A]|].
  constructor; [reflexivity | exact B].
Qed.

Lemma ret_answers t : forall hp a log t' st a' log',
  ret f hp t (a, log) = (t', st, (a', log')) ->
  exists calls, log' = rev calls ++ log /\ answered (length log) calls.
Proof.
  intros hp a log t' st a' log' H. apply ret_graph_sound in H.
  destruct (ret_run pfx V f H) as (cv & _ & _ & _ & L & R & _). exists (called pfx V cv).
  split; [exact L | exact (proj1 (ran_answered cv _ R))].
Qed.

Definition keep (e : pfx * V) : bool := g (fst e) (snd e).

Theorem ret_calls b hp t a log t' st a' log' :
  wf_under b t -> ret f hp t (a, log) = (t', st, (a', log')) ->
  exists calls,
    log' = rev calls ++ log /\
    length log' = length log + length calls /\
    answered (length log) calls /\
    incl calls (entries t) /\ NoDup calls /\
    (forall e, In e (entries t') <-> In e (entries t) /\ ~ (In e calls /\ g (fst e) (snd e) = false)) /\
    (forall fl, st = RDone fl ->
       Permutation calls (entries t) /\
       (forall e, In e (entries t') <-> In e (entries t) /\ g (fst e) (snd e) = true) /\
       entries t' = filter keep (entries t)) /\
    (st = RPanic ->
       exists e, In e (entries t) /\ ~ In e calls /\ f (length log') (fst e) (snd e) = None).
Proof.
  intros Hwf H. apply ret_graph_sound in H.
  destruct (ret_run_entries f Hwf H) as (cv & L & R & Pincl & Pnd & Pperm & Ppan & G). cbn [snd] in *.
  destruct (ran_answered cv _ R) as [A Ag]. destruct (G g Ag) as [K Fl]. exists (called pfx V cv).
  split; [exact L|]. split; [rewrite L, app_length, rev_length; lia|].
  split; [exact A|]. split; [exact Pincl|]. split; [exact (NoDup_map_inv _ _ Pnd)|].
  split; [exact K|]. split; [|exact Ppan].
  intros fl ->. split; [apply Pperm; discriminate|]. split; [|apply Fl; discriminate].
  intros e. rewrite Fl, filter_In by discriminate. reflexivity.
Qed.

Theorem retain_spec m m' panicked calls :
  wf_root (root m) -> retain f m = (m', panicked, calls) ->
  wf_root (root m') /\
  answered 0 calls /\
  incl calls (entries (root m)) /\ NoDup calls /\
  (forall e, In e (entries (root m')) <->
             In e (entries (root m)) /\ ~ (In e calls /\ g (fst e) (snd e) = false)) /\
  (panicked = false ->
     entries (root m') = filter keep (entries (root m)) /\
     Permutation calls (entries (root m)) /\
     (forall e, In e (entries (root m')) <-> In e (entries (root m)) /\ g (fst e) (snd e) = true)) /\
  (panicked = true ->
     exists e, In e (entries (root m)) /\ ~ In e calls /\ f (length calls) (fst e) (snd e) = None).
Proof.
  intros Hwf H. split; [eapply retain_wf; eassumption|].
  unfold Trie.retain in H.
  destruct (ret f false (root m) (al m, [])) as [[t' st] [a' log']] eqn:E.
  inversion H; subst. cbn [root]. clear H.
  pose proof (wf_root_under pfx V bits ok _ Hwf) as Hwf0.
  destruct (ret_calls _ _ _ _ _ _ _ _ _ Hwf0 E) as [calls [Plog [Plen [Pans [Pincl [Pnd [Pkept [Pdone Ppan]]]]]]]].
  rewrite app_nil_r in Plog. subst log'. rewrite rev_involutive. rewrite rev_length in *.
  split; [exact Pans|]. split; [exact Pincl|]. split; [exact Pnd|]. split; [exact Pkept|]. split.
  - intros Hp. destruct st as [fl|]; [|discriminate Hp].
    destruct (Pdone fl eq_refl) as [A [B C]]. auto.
  - intros Hp. destruct st as [fl|]; [discriminate Hp|]. apply Ppan. reflexivity.
Qed.

End F.

(** * The closure of the test scripts: invocation [k] panics iff [panics k]; otherwise the verdict
      is [g] *)
Section P.
Variable panics : nat -> bool.
Variable g : pfx -> V -> bool.

Definition pf (n : nat) (p : pfx) (x : V) : option bool := if panics n then None else Some (g p x).

Lemma pf_ok : forall n p x c, pf n p x = Some c -> c = g p x.
Proof. unfold pf. intros n p x c. destruct (panics n); [discriminate|]. intros H. inversion H. reflexivity. Qed.

Lemma pf_none n p x : pf n p x = None -> panics n = true.
Proof. unfold pf. destruct (panics n); [reflexivity | discriminate]. Qed.

Lemma answered_pf n calls : answered pf g n calls -> forall k, k < length calls -> panics (n + k) = false.
Proof.
  revert n. induction calls as [|e c IH]; intros n H k Hk; cbn in *; [lia|].
  destruct H as [H0 H]. destruct k as [|k].
  - rewrite Nat.add_0_r. unfold pf in H0. destruct (panics n); [discriminate|reflexivity].
  - rewrite Nat.add_succ_r. apply (IH (S n) H k). lia.
Qed.

Theorem ret_pf_spec b hp t a log t' st a' log' :
  wf_under b t -> ret pf hp t (a, log) = (t', st, (a', log')) ->
  wf_under b t' /\
  (hp = false -> forall i p v l r, t = Node i p v l r -> exists v' l' r', t' = Node i p v' l' r') /\
  (st = RDone true -> t' = Leaf) /\
  exists calls,
    log' = rev calls ++ log /\
    length log' = length log + length calls /\
    (forall k, k < length calls -> panics (length log + k) = false) /\
    incl calls (entries t) /\ NoDup calls /\
    (forall e, In e (entries t') <-> In e (entries t) /\ ~ (In e calls /\ g (fst e) (snd e) = false)) /\
    (forall fl, st = RDone fl ->
       Permutation calls (entries t) /\
       (forall e, In e (entries t') <-> In e (entries t) /\ g (fst e) (snd e) = true) /\
       entries t' = filter (fun e => g (fst e) (snd e)) (entries t)) /\
    (st = RPanic -> panics (length log') = true /\ length calls < length (entries t)).
Proof.
  intros Hwf H.
  destruct (ret_wf pf _ _ _ _ _ _ _ Hwf H) as [W [N L]].
  split; [exact W|]. split; [exact N|]. split; [exact L|].
  destruct (ret_calls pf g pf_ok _ _ _ _ _ _ _ _ _ Hwf H)
    as [calls [Plog [Plen [Pans [Pincl [Pnd [Pkept [Pdone Ppan]]]]]]]].
  exists calls.
  split; [exact Plog|]. split; [exact Plen|]. split; [apply answered_pf; exact Pans|].
  split; [exact Pincl|]. split; [exact Pnd|]. split; [exact Pkept|]. split; [exact Pdone|].
  intros Hst. destruct (Ppan Hst) as [e [He [Hne Hpan]]].
  split; [eapply pf_none; exact Hpan | eapply missed_length; eassumption].
Qed.

(** [retain] with the scripted closure.  The closure panics iff one of the first [n] invocations
    is scripted to panic ([n] = number of stored entries); the number of invocations that returned
    is the index of the first panicking one. *)
Theorem retain_pf_spec m m' panicked calls :
  wf_root (root m) -> retain pf m = (m', panicked, calls) ->
  wf_root (root m') /\
  (forall k, k < length calls -> panics k = false) /\
  incl calls (entries (root m)) /\ NoDup calls /\
  (forall e, In e (entries (root m')) <->
             In e (entries (root m)) /\ ~ (In e calls /\ g (fst e) (snd e) = false)) /\
  (panicked = false ->
     entries (root m') = filter (fun e => g (fst e) (snd e)) (entries (root m)) /\
     Permutation calls (entries (root m)) /\
     (forall e, In e (entries (root m')) <-> In e (entries (root m)) /\ g (fst e) (snd e) = true)) /\
  (panicked = true -> panics (length calls) = true /\ length calls < length (entries (root m))) /\
  (panicked = false <-> forall k, k < length (entries (root m)) -> panics k = false).
Proof.
  intros Hwf H.
  destruct (retain_spec pf g pf_ok _ _ _ _ Hwf H) as [W [Pans [Pincl [Pnd [Pkept [Pdone Ppan]]]]]].
  assert (Pk : forall k, k < length calls -> panics k = false).
  { intros k Hk. apply (answered_pf 0 calls Pans k Hk). }
  assert (Pp : panicked = true -> panics (length calls) = true /\ length calls < length (entries (root m))).
  { intros Hp. destruct (Ppan Hp) as [e [He [Hne Hpan]]].
    split; [eapply pf_none; exact Hpan | eapply missed_length; eassumption]. }
  split; [exact W|]. split; [exact Pk|]. split; [exact Pincl|]. split; [exact Pnd|].
  split; [exact Pkept|]. split; [exact Pdone|]. split; [exact Pp|].
  split.
  - intros Hp k Hk. apply Pk. destruct (Pdone Hp) as [_ [Perm _]].
    rewrite (Permutation_length Perm). exact Hk.
  - intros Hall. destruct panicked; [|reflexivity]. destruct (Pp eq_refl) as [A B].
    rewrite (Hall _ B) in A. discriminate A.
Qed.

End P.

End RT.

Print Assumptions answered_nth.
Print Assumptions ret_wf.
Print Assumptions retain_wf.
Print Assumptions ret_calls.
Print Assumptions retain_spec.
Print Assumptions ret_pf_spec.
Print Assumptions retain_pf_spec.
