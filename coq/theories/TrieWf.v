(** Well-formedness of the trie, the entry list and its order, and the facts every descent uses. *)
From Coq Require Import List NArith ZArith Bool Arith Lia Sorted.
From PT Require Import Bits BitsThm Laws Trie.
Import ListNotations.

Lemma nodup_app_inv {A} (a b : list A) :
  NoDup (a ++ b) -> NoDup a /\ NoDup b /\ (forall x, In x a -> ~ In x b).
Proof.
  induction a as [|x a IH]; cbn [app]; intros H.
  - split; [constructor|]. split; [exact H|]. intros x [].
  - inversion H as [|x' l' Hx Hab]; subst. destruct (IH Hab) as [Ha [Hb Hd]].
    split; [|split; [exact Hb|]].
    + constructor; [|exact Ha]. intros Hin. apply Hx. apply in_app_iff. left. exact Hin.
    + intros y [<-|Hy] Hyb; [|exact (Hd y Hy Hyb)]. apply Hx. apply in_app_iff. right. exact Hyb.
Qed.

Lemma nodup_app_intro {A} (a b : list A) :
  NoDup a -> NoDup b -> (forall x, In x a -> ~ In x b) -> NoDup (a ++ b).
Proof.
  intros Ha Hb Hd. induction Ha as [|x a Hx Ha IH]; [exact Hb|].
  cbn [app]. constructor.
  - rewrite in_app_iff. intros [H|H]; [exact (Hx H)|]. apply (Hd x); [left; reflexivity | exact H].
  - apply IH. intros y Hy. apply Hd. right. exact Hy.
Qed.

Lemma sorted_mid {A} (R : A -> A -> Prop) (l1 : list A) a l2 :
  StronglySorted R (l1 ++ a :: l2) -> (forall b, In b l1 -> R b a) /\ (forall b, In b l2 -> R a b).
Proof.
  induction l1 as [|x l1 IH]; intros Hs; cbn [app] in Hs; inversion Hs as [|? ? Hs' Hf]; subst.
  - split; [intros b []|]. rewrite Forall_forall in Hf. exact Hf.
  - destruct (IH Hs') as [I1 I2]. split; [|exact I2].
    rewrite Forall_forall in Hf. intros b [<-|Hb]; [|apply I1; exact Hb].
    apply Hf. apply in_or_app. right. left. reflexivity.
Qed.

Lemma option_ext {A} (o o' : option A) : (forall x, o = Some x <-> o' = Some x) -> o = o'.
Proof.
  intros H. destruct o as [x|]; [symmetry; apply H; reflexivity|].
  destruct o' as [y|]; [apply H|]; reflexivity.
Qed.

Lemma sorted_filter {A} (R : A -> A -> Prop) (f : A -> bool) (l : list A) :
  StronglySorted R l -> StronglySorted R (filter f l).
Proof.
  induction 1 as [|x l Hs IH Hf]; cbn [filter]; [constructor|].
  destruct (f x); [|exact IH]. constructor; [exact IH|].
  rewrite Forall_forall in *. intros y Hy. apply filter_In in Hy. apply Hf. tauto.
Qed.

Section WF.
Variables (pfx V : Type).
Variables (peq contains : pfx -> pfx -> bool) (is_bit_set : pfx -> N -> bool)
          (plen : pfx -> N) (lcp : pfx -> pfx -> pfx) (pzero : pfx)
          (mcmp : pfx -> pfx -> comparison).
Variable bits : pfx -> list bool.
Variable ok : pfx -> Prop.
Hypothesis LAWS : prefix_laws pfx peq contains is_bit_set plen lcp pzero mcmp bits ok.

Notation tree := (tree pfx V).
Notation to_right := (to_right pfx is_bit_set plen).

(** every node's key extends the bound given by its parent's key and the branch bit *)
Fixpoint wf_under (b : list bool) (t : tree) : Prop :=
  match t with
  | Leaf => True
  | Node _ p _ l r =>
    ok p /\ prefix_of b (bits p) /\ wf_under (bits p ++ [false]) l /\ wf_under (bits p ++ [true]) r
  end.

(** a whole map: the root is the zero-length prefix *)
Definition wf_root (t : tree) : Prop :=
  match t with
  | Leaf => False
  | Node _ p _ _ _ => bits p = [] /\ wf_under [] t
  end.

Definition key (e : pfx * V) : list bool := bits (fst e).
Definition key_lt (e1 e2 : pfx * V) : Prop := lex_lt (key e1) (key e2).
Definition covers (a b : pfx) : Prop := prefix_of (bits a) (bits b).

(** what a node itself contributes to the entry list *)
Definition own (p : pfx) (v : option V) : list (pfx * V) :=
  match v with Some x => [(p, x)] | None => [] end.

Lemma entries_node i p v (l r : tree) : entries (Node i p v l r) = own p v ++ entries l ++ entries r.
Proof. reflexivity. Qed.

Lemma in_own p v (e : pfx * V) : In e (own p v) <-> v = Some (snd e) /\ fst e = p.
Proof.
  destruct e as [p' x], v as [y|]; cbn; split.
  - intros [H|[]]. inversion H. auto.
  - intros [H ->]. inversion H. auto.
  - intros [].
  - intros [H _]. discriminate.
Qed.

Lemma wf_weaken b b' t : prefix_of b' b -> wf_under b t -> wf_under b' t.
Proof.
  destruct t as [|i p v l r]; [trivial|]. cbn. intros H [H0 [H1 H2]].
  split; [exact H0|]. split; [eapply prefix_of_trans; eassumption | exact H2].
Qed.

Lemma wf_node_inv b i p v l r :
  wf_under b (Node i p v l r) ->
  ok p /\ prefix_of b (bits p) /\ wf_under (bits p ++ [false]) l /\ wf_under (bits p ++ [true]) r.
Proof. cbn. tauto. Qed.

Lemma entries_wf b t e : wf_under b t -> In e (entries t) -> ok (fst e) /\ prefix_of b (key e).
Proof.
  revert b. induction t as [|i p v l IHl r IHr]; intros b Hwf Hin; [contradiction|].
  destruct Hwf as (Hok & Hb & Hl & Hr).
  rewrite entries_node, !in_app_iff, in_own in Hin. destruct Hin as [[_ E]|[Hin|Hin]].
  - unfold key. rewrite E. auto.
  - destruct (IHl _ Hl Hin) as [A B]. split; [exact A|].
    eapply prefix_of_trans; [exact Hb | eapply below_prefix, B].
  - destruct (IHr _ Hr Hin) as [A B]. split; [exact A|].
    eapply prefix_of_trans; [exact Hb | eapply below_prefix, B].
Qed.

Lemma entries_under b t e : wf_under b t -> In e (entries t) -> prefix_of b (key e).
Proof. intros Hwf Hin. apply (entries_wf b t e Hwf Hin). Qed.

Lemma entries_ok b t e : wf_under b t -> In e (entries t) -> ok (fst e).
Proof. intros Hwf Hin. apply (entries_wf b t e Hwf Hin). Qed.

Lemma Forall_key_lt_app (x : pfx * V) l1 l2 :
  Forall (key_lt x) l1 -> Forall (key_lt x) l2 -> Forall (key_lt x) (l1 ++ l2).
Proof. intros. apply Forall_app. split; assumption. Qed.

Lemma sorted_app (l1 l2 : list (pfx * V)) :
  StronglySorted key_lt l1 -> StronglySorted key_lt l2 ->
  (forall a b, In a l1 -> In b l2 -> key_lt a b) ->
  StronglySorted key_lt (l1 ++ l2).
Proof.
  induction l1 as [|x l1 IH]; intros H1 H2 H; cbn; [exact H2|].
  inversion H1 as [|? ? Hs Hf]; subst. constructor.
  - apply IH; [exact Hs | exact H2 | intros a b Ha Hb; apply H; [right; exact Ha | exact Hb]].
  - apply Forall_app. split; [exact Hf|]. apply Forall_forall. intros b Hb. apply H; [left; reflexivity | exact Hb].
Qed.

Theorem entries_sorted b t : wf_under b t -> StronglySorted key_lt (entries t).
Proof.
  revert b. induction t as [|i p v l IHl r IHr]; intros b Hwf; cbn [entries]; [constructor|].
  destruct Hwf as [_ [Hb [Hl Hr]]].
  assert (Hlr : StronglySorted key_lt (entries l ++ entries r)).
  { apply sorted_app; [eapply IHl; exact Hl | eapply IHr; exact Hr|].
    intros a c Ha Hc. unfold key_lt. eapply lex_lt_branches.
    - apply (entries_under _ _ _ Hl Ha).
    - apply (entries_under _ _ _ Hr Hc). }
  destruct v as [x|]; cbn [app]; [|exact Hlr].
  constructor; [exact Hlr|]. apply Forall_forall. intros e He.
  unfold key_lt, key. cbn [fst].
  rewrite in_app_iff in He. destruct He as [He|He].
  - eapply lex_lt_below, (entries_under _ _ _ Hl He).
  - eapply lex_lt_below, (entries_under _ _ _ Hr He).
Qed.

Lemma sorted_key_inj (l : list (pfx * V)) e1 e2 :
  StronglySorted key_lt l -> In e1 l -> In e2 l -> key e1 = key e2 -> e1 = e2.
Proof.
  induction l as [|x l IH]; intros Hs H1 H2 E; [contradiction|].
  inversion Hs as [|? ? Hs' Hf]; subst. rewrite Forall_forall in Hf.
  destruct H1 as [<-|H1]; destruct H2 as [<-|H2].
  - reflexivity.
  - exfalso. specialize (Hf _ H2). unfold key_lt in Hf. rewrite E in Hf. eapply lex_lt_irrefl; exact Hf.
  - exfalso. specialize (Hf _ H1). unfold key_lt in Hf. rewrite E in Hf. eapply lex_lt_irrefl; exact Hf.
  - apply IH; assumption.
Qed.

Lemma sorted_nodup_keys (l : list (pfx * V)) : StronglySorted key_lt l -> NoDup (map key l).
Proof.
  induction 1 as [|a l Hs IH Hf]; cbn [map]; constructor; [|exact IH].
  rewrite Forall_forall in Hf. intros Hin. apply in_map_iff in Hin. destruct Hin as [e [Ek He]].
  specialize (Hf e He). unfold key_lt in Hf. rewrite Ek in Hf. eapply lex_lt_irrefl; exact Hf.
Qed.

Lemma sorted_nodup (l : list (pfx * V)) : StronglySorted key_lt l -> NoDup l.
Proof. intros Hs. apply (NoDup_map_inv key). apply sorted_nodup_keys. exact Hs. Qed.

Theorem entries_key_inj b t e1 e2 :
  wf_under b t -> In e1 (entries t) -> In e2 (entries t) -> key e1 = key e2 -> e1 = e2.
Proof. intros Hwf. apply sorted_key_inj. eapply entries_sorted; exact Hwf. Qed.

Lemma sorted_ext (l1 l2 : list (pfx * V)) :
  StronglySorted key_lt l1 -> StronglySorted key_lt l2 ->
  (forall e, In e l1 <-> In e l2) -> l1 = l2.
Proof.
  revert l2. induction l1 as [|x l1 IH]; intros l2 H1 H2 H.
  - destruct l2 as [|y l2]; [reflexivity|]. exfalso. apply (H y). left; reflexivity.
  - destruct l2 as [|y l2]; [exfalso; apply (H x); left; reflexivity|].
    inversion H1 as [|? ? Hs1 Hf1]; subst. inversion H2 as [|? ? Hs2 Hf2]; subst.
    rewrite Forall_forall in Hf1, Hf2.
    assert (x = y).
    { destruct (proj1 (H x) (or_introl eq_refl)) as [E|Hx]; [symmetry; exact E|].
      destruct (proj2 (H y) (or_introl eq_refl)) as [E|Hy]; [exact E|].
      exfalso. pose proof (Hf1 _ Hy) as A. pose proof (Hf2 _ Hx) as B.
      unfold key_lt in *. eapply lex_lt_irrefl. eapply lex_lt_trans; eassumption. }
    subst y. f_equal. apply IH; [exact Hs1 | exact Hs2|].
    intros e. split; intros He.
    + destruct (proj1 (H e) (or_intror He)) as [E|?]; [|assumption].
      subst e. exfalso. specialize (Hf1 _ He). unfold key_lt in Hf1. eapply lex_lt_irrefl; exact Hf1.
    + destruct (proj2 (H e) (or_intror He)) as [E|?]; [|assumption].
      subst e. exfalso. specialize (Hf2 _ He). unfold key_lt in Hf2. eapply lex_lt_irrefl; exact Hf2.
Qed.

Lemma filter_char (f : pfx * V -> bool) (l l' : list (pfx * V)) :
  StronglySorted key_lt l -> StronglySorted key_lt l' ->
  (forall e, In e l' <-> In e l /\ f e = true) -> l' = filter f l.
Proof.
  intros H1 H2 H. apply sorted_ext; [exact H2 | apply sorted_filter; exact H1|].
  intros e. rewrite filter_In. apply H.
Qed.

Lemma wf_root_under t : wf_root t -> wf_under [] t.
Proof. destruct t; [intros [] | intros [_ H]; exact H]. Qed.

Lemma wf_root_sorted t : wf_root t -> StronglySorted key_lt (entries t).
Proof. intros H. eapply entries_sorted, wf_root_under, H. Qed.

Lemma to_right_spec p q : ok p -> ok q -> to_right p q = nth (length (bits p)) (bits q) false.
Proof.
  intros Hp Hq. unfold Trie.to_right. rewrite (bit_spec _ _ _ _ _ _ _ _ _ _ LAWS) by exact Hq.
  rewrite (plen_bits _ _ _ _ _ _ _ _ _ _ LAWS) by exact Hp. rewrite Nat2N.id. reflexivity.
Qed.

Lemma peq_true p q : ok p -> ok q -> peq p q = true -> bits p = bits q.
Proof. intros Hp Hq. apply (peq_spec _ _ _ _ _ _ _ _ _ _ LAWS); assumption. Qed.
Lemma peq_false p q : ok p -> ok q -> peq p q = false -> bits p <> bits q.
Proof.
  intros Hp Hq H E. apply (peq_spec _ _ _ _ _ _ _ _ _ _ LAWS) in E; [|assumption..]. congruence.
Qed.
Lemma peq_refl_bits p q : ok p -> ok q -> bits p = bits q -> peq p q = true.
Proof. intros Hp Hq. apply (peq_spec _ _ _ _ _ _ _ _ _ _ LAWS); assumption. Qed.
Lemma contains_true p q : ok p -> ok q -> contains p q = true -> prefix_of (bits p) (bits q).
Proof. intros Hp Hq. apply (contains_spec _ _ _ _ _ _ _ _ _ _ LAWS); assumption. Qed.
Lemma contains_false p q : ok p -> ok q -> contains p q = false -> ~ prefix_of (bits p) (bits q).
Proof.
  intros Hp Hq H E. apply (contains_spec _ _ _ _ _ _ _ _ _ _ LAWS) in E; [|assumption..]. congruence.
Qed.
Lemma contains_intro p q : ok p -> ok q -> prefix_of (bits p) (bits q) -> contains p q = true.
Proof. intros Hp Hq. apply (contains_spec _ _ _ _ _ _ _ _ _ _ LAWS); assumption. Qed.

Lemma descent_side p q :
  ok p -> ok q -> prefix_of (bits p) (bits q) -> peq p q = false ->
  prefix_of (bits p ++ [to_right p q]) (bits q).
Proof.
  intros Hp Hq Hc Hne. rewrite to_right_spec by assumption.
  apply proper_ext; [exact Hc|]. intros E. eapply (peq_false p q); [exact Hp | exact Hq | exact Hne | symmetry; exact E].
Qed.

Lemma branch_incomparable (a : list bool) s k q :
  prefix_of (a ++ [s]) q -> prefix_of (a ++ [negb s]) k -> ~ prefix_of k q /\ ~ prefix_of q k.
Proof.
  intros Hq Hk. split; intros H.
  - assert (H' : prefix_of (a ++ [negb s]) q) by (eapply prefix_of_trans; eassumption).
    destruct s; cbn in *; eapply sides_disjoint; eauto.
  - assert (H' : prefix_of (a ++ [s]) k) by (eapply prefix_of_trans; eassumption).
    destruct s; cbn in *; eapply sides_disjoint; eauto.
Qed.

Definition child_of (l r : tree) (s : bool) : tree := if s then r else l.

(** Induction along the descent towards [q] that every lookup and every mutator of [Trie.v] performs
    (inner.rs [get_direction]): stop at [q], stop above a missing or non-covering child, or enter the
    child on [q]'s side.  The unfold equations of a walk [X] in this form are [X_node] (with
    [X_reached]/[X_stop]/[X_enter]) in Mutate.v and Lookup2.v; those for [step_ind] below are
    [X_unfold] in Lookup.v and Lookup2.v. *)
Lemma descent_ind (q : pfx) (P : tree -> Prop) :
  P Leaf ->
  (forall i p v l r, peq p q = true -> P (Node i p v l r)) ->
  (forall i p v l r, peq p q = false ->
     match child_of l r (to_right p q) with Leaf => True | Node _ cp _ _ _ => contains cp q = false end ->
     P (Node i p v l r)) ->
  (forall i p v l r ci cp cv cl cr, peq p q = false ->
     child_of l r (to_right p q) = Node ci cp cv cl cr -> contains cp q = true ->
     P (Node ci cp cv cl cr) -> P (Node i p v l r)) ->
  forall t, P t.
Proof.
  intros HL HR HS HE. induction t as [|i p v l IHl r IHr]; [exact HL|].
  destruct (peq p q) eqn:E; [apply HR; exact E|].
  destruct (child_of l r (to_right p q)) as [|ci cp cv cl cr] eqn:Ec.
  - apply HS; [exact E|]. rewrite Ec. exact I.
  - destruct (contains cp q) eqn:C.
    + apply (HE _ _ _ _ _ _ _ _ _ _ E Ec C). rewrite <- Ec. unfold child_of.
      destruct (to_right p q); assumption.
    + apply HS; [exact E|]. rewrite Ec. exact C.
Qed.

(** one step of that descent: the child it enters, if it goes on.  Proofs that treat every way the
    descent ends alike go along [step_ind], with one induction hypothesis (lpm, cover, and
    [Lookup.get_node_sound]/[get_node_complete]); walks whose result is built differently in each
    outcome (children, every mutator) along [descent_ind]. *)
Definition step (t : tree) (q : pfx) : option tree :=
  match t with
  | Leaf => None
  | Node _ p _ l r =>
    if peq p q then None else
    match child_of l r (to_right p q) with
    | Leaf => None
    | Node _ cp _ _ _ as c => if contains cp q then Some c else None
    end
  end.

Lemma step_ind (q : pfx) (P : tree -> Prop) :
  (forall t, (forall c, step t q = Some c -> P c) -> P t) -> forall t, P t.
Proof.
  intros H. induction t as [|i p v l IHl r IHr]; apply H; cbn [step]; [discriminate|].
  intros c. destruct (peq p q); [discriminate|].
  assert (IHc : P (child_of l r (to_right p q))) by (destruct (to_right p q); assumption).
  destruct (child_of l r (to_right p q)) as [|ci cp cv cl cr]; [discriminate|].
  destruct (contains cp q); [|discriminate]. intros [= <-]. exact IHc.
Qed.

Lemma step_inv i p v l r q c :
  step (Node i p v l r) q = Some c ->
  peq p q = false /\ c = child_of l r (to_right p q) /\
  match c with Leaf => False | Node _ cp _ _ _ => contains cp q = true end.
Proof.
  cbn [step]. destruct (peq p q); [discriminate|].
  destruct (child_of l r (to_right p q)) as [|ci cp cv cl cr]; [discriminate|].
  destruct (contains cp q) eqn:C; [|discriminate]. intros [= <-]. auto.
Qed.

(** a walk that answers [stop] wherever the descent ends and [go c] where it enters [c] *)
Lemma descend_step {A} i p v l r q (stop : A) (go : tree -> A) :
  (if peq p q then stop else
   let c := if to_right p q then r else l in
   match c with Node _ cp _ _ _ => if contains cp q then go c else stop | Leaf => stop end) =
  match step (Node i p v l r) q with Some c => go c | None => stop end.
Proof.
  cbn [step]. unfold child_of. destruct (peq p q); [reflexivity|]. cbv zeta.
  destruct (if to_right p q then r else l) as [|ci cp cv cl cr]; [reflexivity|].
  destruct (contains cp q); reflexivity.
Qed.

Lemma wf_child b i p v l r s :
  wf_under b (Node i p v l r) -> wf_under (bits p ++ [s]) (child_of l r s).
Proof. intros [_ [_ [Hl Hr]]]. destruct s; assumption. Qed.

Lemma other_side_incomparable b i p v l r q e :
  wf_under b (Node i p v l r) -> ok q -> prefix_of (bits p) (bits q) -> peq p q = false ->
  In e (entries (child_of l r (negb (to_right p q)))) ->
  ~ prefix_of (key e) (bits q) /\ ~ prefix_of (bits q) (key e).
Proof.
  intros Hwf Hq Hc Hne Hin.
  pose proof (wf_node_inv _ _ _ _ _ _ Hwf) as [Hp _].
  eapply branch_incomparable.
  - apply descent_side; eassumption.
  - eapply entries_under; [eapply wf_child; exact Hwf | exact Hin].
Qed.

Lemma in_entries_node i p v l r s (e : pfx * V) :
  In e (entries (Node i p v l r)) <->
  (v = Some (snd e) /\ fst e = p) \/ In e (entries (child_of l r s)) \/ In e (entries (child_of l r (negb s))).
Proof.
  rewrite entries_node, !in_app_iff, in_own.
  destruct s; cbn [child_of negb]; [rewrite (or_comm (In e (entries l)))|]; reflexivity.
Qed.

Lemma wf_self b i p v l r : wf_under b (Node i p v l r) -> wf_under (bits p) (Node i p v l r).
Proof. cbn. intros [? [? [? ?]]]. repeat split; try assumption. apply prefix_of_refl. Qed.

Lemma in_entries_child i p v l r s (e : pfx * V) : In e (entries (child_of l r s)) -> In e (entries (Node i p v l r)).
Proof. intros H. apply (in_entries_node i p v l r s). auto. Qed.
Lemma in_entries_own i (p : pfx) (x : V) (l r : tree) : In (p, x) (entries (Node i p (Some x) l r)).
Proof. left. reflexivity. Qed.

Lemma subtree_no_cover b t q e :
  wf_under b t -> ok q ->
  match t with Leaf => True | Node _ cp _ _ _ => contains cp q = false end ->
  In e (entries t) -> ~ prefix_of (key e) (bits q).
Proof.
  intros Hwf Hq Hc Hin Hcov. destruct t as [|ci cp cv cl cr]; [contradiction|].
  pose proof (wf_node_inv _ _ _ _ _ _ Hwf) as [Hcp _].
  eapply contains_false; [exact Hcp | exact Hq | exact Hc|].
  eapply prefix_of_trans; [|exact Hcov].
  apply (entries_under (bits cp) (Node ci cp cv cl cr) e); [|exact Hin].
  apply wf_self with (b := b). exact Hwf.
Qed.

Lemma step_incl {t q c} : step t q = Some c -> incl (entries c) (entries t).
Proof.
  destruct t as [|i p v l r]; [discriminate|]. intros S e He.
  destruct (step_inv _ _ _ _ _ _ _ S) as (_ & -> & _).
  apply (in_entries_node i p v l r (to_right p q)). auto.
Qed.

Lemma step_wf b i p v l r q c :
  wf_under b (Node i p v l r) -> step (Node i p v l r) q = Some c ->
  wf_under (bits p ++ [to_right p q]) c.
Proof. intros Hwf S. destruct (step_inv _ _ _ _ _ _ _ S) as (_ & -> & _). eapply wf_child, Hwf. Qed.

Lemma entries_towards {b i p v l r q e} :
  wf_under b (Node i p v l r) -> ok q -> prefix_of (bits p) (bits q) -> peq p q = false ->
  In e (entries (Node i p v l r)) -> prefix_of (key e) (bits q) \/ prefix_of (bits q) (key e) ->
  In e (own p v) \/ In e (entries (child_of l r (to_right p q))).
Proof.
  intros Hwf Hq Hc Hne Hin Hcmp. apply (in_entries_node i p v l r (to_right p q)) in Hin.
  rewrite <- in_own in Hin. destruct Hin as [H|[H|H]]; auto.
  destruct (other_side_incomparable _ _ _ _ _ _ _ _ Hwf Hq Hc Hne H). tauto.
Qed.

Lemma covered_below b i p v l r q e :
  wf_under b (Node i p v l r) -> ok q -> prefix_of (bits p) (bits q) -> peq p q = false ->
  (In e (entries (Node i p v l r)) /\ prefix_of (bits q) (key e) <->
   In e (entries (child_of l r (to_right p q))) /\ prefix_of (bits q) (key e)).
Proof.
  intros Hwf Hq Hc Hne. split; intros [Hin Hcv]; (split; [|exact Hcv]).
  - destruct (entries_towards Hwf Hq Hc Hne Hin (or_intror Hcv)) as [H|H];
      [exfalso|exact H].
    apply in_own in H. destruct H as [_ H]. unfold key in Hcv. rewrite H in Hcv.
    eapply peq_false; [apply Hwf | exact Hq | exact Hne | apply prefix_of_antisym; assumption].
  - apply (in_entries_node i p v l r (to_right p q)). auto.
Qed.

Lemma step_cover {b i p v l r q e} :
  wf_under b (Node i p v l r) -> ok q -> prefix_of (bits p) (bits q) ->
  In e (entries (Node i p v l r)) -> prefix_of (key e) (bits q) ->
  In e (own p v) \/ exists c, step (Node i p v l r) q = Some c /\ In e (entries c).
Proof.
  intros Hwf Hq Hc Hin Hcv. pose proof Hwf as [Hp _]. cbn [step].
  destruct (peq p q) eqn:E.
  - (* whatever lies below [p] is longer than [q] *)
    left. apply peq_true in E; [|assumption..].
    apply (in_entries_node i p v l r false) in Hin. rewrite <- in_own in Hin. destruct Hin as [H|H]; [exact H|exfalso].
    assert (exists s, prefix_of (bits p ++ [s]) (key e)) as [s Hs].
    { destruct Hwf as (_ & _ & Hl & Hr).
      destruct H as [H|H]; eexists; (eapply entries_under; [|exact H]); eassumption. }
    eapply below_not_above; [exact Hs|]. rewrite E. exact Hcv.
  - destruct (entries_towards Hwf Hq Hc E Hin (or_introl Hcv)) as [H|H];
      [left; exact H|right].
    pose proof (wf_child _ _ _ _ _ _ (to_right p q) Hwf) as Hwc.
    destruct (child_of l r (to_right p q)) as [|ci cp cv cl cr]; [contradiction|].
    rewrite (contains_intro cp q); [eauto | apply Hwc | exact Hq|].
    eapply prefix_of_trans; [|exact Hcv]. exact (entries_under _ _ _ (wf_self _ _ _ _ _ _ Hwc) H).
Qed.

End WF.
