(** C01 at full strength about the ARENA transcription: refinement of arena-level histories to the
    abstract map.

    The abstract map is [Refine.amap] — a list of (prefix, value) pairs strictly sorted by the keys' bit
    strings — with [a_insert] / [a_without] / [a_update] / [a_remove_children] / [a_retain] as the
    abstract operations ([Refine.a_step]).  Here: every step of the arena-level code
    ([Arena2.a_step2]: insert, remove, remove_keep_tree, clear, remove_children, retain with a pure
    total closure ([Refine.refinable]), [entry().insert()], [OccupiedEntry::remove], [and_modify],
    [get_mut]+write) on a reachable arena returns [Ok] of an arena whose iteration is EXACTLY the abstract operation applied to the previous
    iteration — so after any history the arena iterates what the abstract map holds.  (The three
    writes through a [TrieViewMut] — [set], [remove], and a write through [value_mut] — address their
    target by a path; they are covered at tree level by [Refine2.step_refines_full] via [resolve]
    ([OViewSet], [OViewRemove]; the third as an [OWrite], [MutTravExtra.vm_value_mut_write]) and are
    excluded here by [nonview].) *)
From Coq Require Import List ZArith Bool.
From PT Require Import Laws Trie TrieWf Slots History Refine Arena ArenaThm Arena2 Arena2Thm ArenaProps.
Import ListNotations.

Section AR.
Variables (pfx V : Type).
Variables (peq contains : pfx -> pfx -> bool) (is_bit_set : pfx -> N -> bool)
          (plen : pfx -> N) (lcp : pfx -> pfx -> pfx) (pzero : pfx)
          (mcmp : pfx -> pfx -> comparison).
Variable bits : pfx -> list bool.
Variable ok : pfx -> Prop.
Hypothesis LAWS : prefix_laws pfx peq contains is_bit_set plen lcp pzero mcmp bits ok.

Notation areach := (ArenaProps.areach pfx V peq contains is_bit_set plen lcp pzero ok).
Notation aop2_ok := (ArenaProps.aop2_ok pfx V ok).
Notation nonview := (ArenaProps.nonview pfx V).
Notation to_hop := (ArenaProps.to_hop pfx V).
Notation a_entries := (Arena.a_entries pfx V).
Notation a_step2 := (Arena2.a_step2 pfx V peq contains is_bit_set plen lcp pzero).
Notation a_run2 := (Arena2.a_run2 pfx V peq contains is_bit_set plen lcp pzero).
Notation t_step2 := (Arena2.t_step2 pfx V peq contains is_bit_set plen lcp pzero).
Notation t_run2_from := (Arena2.t_run2_from pfx V peq contains is_bit_set plen lcp pzero).
Notation hstep := (History.step pfx V peq contains is_bit_set plen lcp pzero).
Notation refinable := (Refine.refinable pfx V ok).
Notation abs_step := (Refine.a_step pfx V bits).
Notation abs_run := (Refine.a_run pfx V bits).
Notation c_out := (Refine.c_out pfx V peq contains is_bit_set plen lcp).
Notation minv := (Slots.minv pfx V).
Notation wf_root := (TrieWf.wf_root pfx V bits ok).
Notation Rep := (ArenaThm.Rep pfx V).

Lemma t_entry_insert_hstep m q x : Arena2.t_entry_insert pfx V peq contains is_bit_set plen lcp m q x
  = (hstep m (OEntryInsert pfx V q x), c_out m (OEntryInsert pfx V q x)).
Proof.
  unfold Arena2.t_entry_insert. cbn [History.step Refine.c_out]. unfold History.occupied.
  destruct (Trie.get pfx V peq contains is_bit_set plen (root m) q); [apply surjective_pairing|reflexivity].
Qed.

Lemma t_entry_remove_hstep m q : Arena2.t_entry_remove pfx V peq contains is_bit_set plen m q
  = (hstep m (OOccRemove pfx V q), c_out m (OOccRemove pfx V q)).
Proof.
  unfold Arena2.t_entry_remove. cbn [History.step Refine.c_out]. unfold History.occupied.
  destruct (Trie.get pfx V peq contains is_bit_set plen (root m) q); [apply surjective_pairing|reflexivity].
Qed.

Lemma step_entries o m am' : minv m -> wf_root (root m) -> nonview o = true -> refinable (to_hop o) ->
  Rep am' (t_step2 o m) -> a_entries am' = Ok (fst (abs_step (entries (root m)) (to_hop o))).
Proof.
  intros M W NV RF R'.
  rewrite (ArenaThm.entries_sim pfx V peq contains is_bit_set plen lcp pzero am' _ R'
             (Arena2Thm.t_step2_minv pfx V peq contains is_bit_set plen lcp pzero o m M)). f_equal.
  rewrite (ArenaProps.t_step2_hop pfx V peq contains is_bit_set plen lcp pzero o m NV).
  exact (proj1 (Refine.step_refines pfx V peq contains is_bit_set plen lcp pzero mcmp bits ok LAWS m (to_hop o) W RF)).
Qed.

(** [nonview] beside [refinable (to_hop o)]: on the three view writes [to_hop] is a filler, and the
    filler of [AVmMut] is refinable *)
Theorem arena_C01_step_refines am es o : areach am -> aop2_ok o -> nonview o = true ->
  refinable (to_hop o) -> a_entries am = Ok es ->
  exists am', a_step2 o am = Ok am' /\ areach am' /\ a_entries am' = Ok (fst (abs_step es (to_hop o))).
Proof.
  intros H Ho NV RF E.
  destruct (ArenaProps.areach_view pfx V peq contains is_bit_set plen lcp pzero mcmp bits ok LAWS am es H E)
    as (m & R & M & W & ->).
  destruct (ArenaProps.step2_ok_sim pfx V peq contains is_bit_set plen lcp pzero mcmp bits ok LAWS o am m Ho R M W)
    as (am' & ST & R' & _).
  exists am'. split; [exact ST|].
  split; [exact (ArenaProps.areach_step pfx V peq contains is_bit_set plen lcp pzero ok o am am' H Ho ST)|].
  exact (step_entries o m am' M W NV RF R').
Qed.

Lemma t_run2_from_hops : forall ops m, forallb nonview ops = true ->
  t_run2_from ops m = fold_left hstep (map to_hop ops) m.
Proof.
  induction ops as [|o ops IH]; intros m NV; [reflexivity|].
  cbn [forallb] in NV. apply andb_true_iff in NV. destruct NV as [NV1 NV2].
  cbn [Arena2.t_run2_from map fold_left].
  rewrite (ArenaProps.t_step2_hop pfx V peq contains is_bit_set plen lcp pzero o m NV1). apply IH. exact NV2.
Qed.

Theorem arena_C01_run_refines ops : Forall aop2_ok ops -> forallb nonview ops = true ->
  Forall refinable (map to_hop ops) ->
  exists am, a_run2 ops = Ok am /\ areach am /\ a_entries am = Ok (abs_run (map to_hop ops)).
Proof.
  intros OKS NV RF.
  destruct (ArenaProps.run2_ok_sim pfx V peq contains is_bit_set plen lcp pzero mcmp bits ok LAWS ops OKS)
    as (am & E & R & M & W).
  exists am. split; [exact E|]. split; [exists ops; split; assumption|].
  rewrite (ArenaThm.entries_sim pfx V peq contains is_bit_set plen lcp pzero am _ R M). f_equal.
  unfold Arena2.t_run2. rewrite (t_run2_from_hops ops _ NV).
  exact (Refine.run_refines pfx V peq contains is_bit_set plen lcp pzero mcmp bits ok LAWS (map to_hop ops) RF).
Qed.

End AR.

Print Assumptions arena_C01_step_refines.
Print Assumptions arena_C01_run_refines.
