(** The ARENA level, part 3: the READ-ONLY observers, transcribed over the table of [Arena.v]
    ([Vec<Node>] with index links) in the style of [Arena.v] / [Arena2.v]:

    - src/map/mod.rs: [get_key_value], [contains_key], [get_lpm_prefix], [get_lpm_mut], [get_spm],
      [get_spm_prefix];  src/map/iter.rs: [lpm_children_iter_start], [Cover::next];
    - src/trieview/mod.rs: the view location [ViewLoc = Node idx | Virtual prefix idx],
      [TrieView::find / find_exact / find_lpm / left / right / prefix / value / prefix_value] and
      the [TrieViewMut] twins ([Result<Self, Self>]: [None] = [Err(self)]) plus [has_left],
      [has_right], [split];
    - src/trieview/{union,intersection,difference}.rs: the eight simultaneous traversals of TWO
      arenas as stack machines over index pairs ([rrun] = [Machine.run] with [res]-valued
      [expand], because every table access may panic at this level).

    The order of the table reads of the Rust code is kept; an index out of bounds and an
    [unwrap()] on [None] are [Panic]; loops run on fuel ([OutOfFuel]).  Line numbers refer to the
    committed sources (HEAD of /repo).  Definitions only (no proofs); everything reduces with
    [vm_compute] and extracts with [ExtrOcamlBasic].  [Arena3Thm.v] proves that on arenas that
    represent trees of [Trie.v] every observer returns [Ok] of the tree-model result. *)
From Coq Require Import List NArith ZArith Bool.
From PT Require Import Machine Trie Views SetOps Arena Arena2.
Import ListNotations.

(* ------------------------------------------------------------------------------------------ *)
(** * The stack machine of [Machine.v] with a [res]-valued [expand]: one unit of fuel per popped
    entry, exactly as [Machine.run] *)
Section RMachine.
Variables (E I : Type) (expand : E -> res (option I * list E)).

Fixpoint rrun (fuel : nat) (st : list E) : res (list I) :=
  match st with
  | [] => Ok []
  | e :: rest =>
    match fuel with
    | O => OutOfFuel
    | S f =>
      x <- expand e ;;
      out <- rrun f (rev (snd x) ++ rest) ;;
      Ok (opt_cons I (fst x) out)
    end
  end.
End RMachine.

(** monadic [map] (the lazily mapped iterators of [extend_lpm] are drained at once by [extend]) *)
Fixpoint rmap {A B} (f : A -> res B) (l : list A) : res (list B) :=
  match l with
  | [] => Ok []
  | x :: l' => y <- f x ;; ys <- rmap f l' ;; Ok (y :: ys)
  end.

(** [ViewLoc<P>], trieview/mod.rs:73-85 *)
Inductive vloc (pfx : Type) := LNode (idx : N) | LVirt (p : pfx) (idx : N).
Arguments LNode {pfx}.
Arguments LVirt {pfx}.
Definition loc_idx {pfx} (l : vloc pfx) : N := match l with LNode i | LVirt _ i => i end.   (* 80-84 *)

Section A3.
Variables (pfx V : Type).
Variables (peq contains : pfx -> pfx -> bool) (is_bit_set : pfx -> N -> bool)
          (plen : pfx -> N) (lcp : pfx -> pfx -> pfx).

Notation anode := (Arena.anode pfx V).
Notation amap := (Arena.amap pfx V).
Notation rd := (Arena.rd pfx V).
Notation child_of := (Arena.child_of pfx V).
Notation get_child := (Arena.get_child pfx V).
Notation a_direction := (Arena.a_direction pfx V peq contains is_bit_set plen).
Notation a_direction_ins := (Arena.a_direction_ins pfx V peq contains is_bit_set plen lcp).
Notation prefix_value := (Arena.prefix_value pfx V).
Notation to_right := (Trie.to_right pfx is_bit_set plen).
Notation vloc := (vloc pfx).

(* ------------------------------------------------------------------------------------------ *)
(** * src/map/mod.rs: the remaining lookups *)

(** [get_key_value], mod.rs:131-140 *)
Fixpoint a_gkv_loop (fuel : nat) (tb : list anode) (idx : N) (q : pfx) : res (option (pfx * V)) :=
  match fuel with
  | O => OutOfFuel
  | S f =>
    d <- a_direction tb idx q ;;                                        (* 134 *)
    match d with
    | Reached => n <- rd tb idx ;; Ok (prefix_value n)                  (* 135 *)
    | Enter next _ => a_gkv_loop f tb next q                            (* 136 *)
    | Missing => Ok None                                                (* 137 *)
    end
  end.
Definition a_get_key_value (am : amap) (q : pfx) : res (option (pfx * V)) :=
  a_gkv_loop (S (length (tbl am))) (tbl am) 0%N q.                      (* 132 *)

(** [contains_key], mod.rs:227-236 *)
Fixpoint a_ck_loop (fuel : nat) (tb : list anode) (idx : N) (q : pfx) : res bool :=
  match fuel with
  | O => OutOfFuel
  | S f =>
    d <- a_direction tb idx q ;;                                        (* 230 *)
    match d with
    | Reached => n <- rd tb idx ;; Ok (is_some (nval n))                (* 231 *)
    | Enter next _ => a_ck_loop f tb next q                             (* 232 *)
    | Missing => Ok false                                               (* 233 *)
    end
  end.
Definition a_contains_key (am : amap) (q : pfx) : res bool :=
  a_ck_loop (S (length (tbl am))) (tbl am) 0%N q.                       (* 228 *)

(** [get_lpm_prefix], mod.rs:256-269 *)
Fixpoint a_lpmp_loop (fuel : nat) (tb : list anode) (idx : N) (q : pfx) (best : option pfx)
  : res (option pfx) :=
  match fuel with
  | O => OutOfFuel
  | S f =>
    n <- rd tb idx ;;                                                   (* 260 *)
    let best := match option_map fst (prefix_value n) with              (* 261-263: .map().or() *)
                | Some p => Some p | None => best end in
    d <- a_direction tb idx q ;;                                        (* 264 *)
    match d with
    | Enter next _ => a_lpmp_loop f tb next q best                      (* 265 *)
    | _ => Ok best                                                      (* 266 *)
    end
  end.
Definition a_get_lpm_prefix (am : amap) (q : pfx) : res (option pfx) :=
  a_lpmp_loop (S (length (tbl am))) (tbl am) 0%N q None.                (* 257-258 *)

(** [get_lpm_mut], mod.rs:189-208: the loop tracks the INDEX of the best node (192-202) *)
Fixpoint a_lpmm_loop (fuel : nat) (tb : list anode) (idx : N) (q : pfx) (best : option N)
  : res (option N) :=
  match fuel with
  | O => OutOfFuel
  | S f =>
    n <- rd tb idx ;;                                                   (* 193 *)
    let best := if is_some (nval n) then Some idx else best in          (* 193-197 *)
    d <- a_direction tb idx q ;;                                        (* 198 *)
    match d with
    | Enter next _ => a_lpmm_loop f tb next q best                      (* 199 *)
    | _ => Ok best                                                      (* 200 *)
    end
  end.
(** the result: the index of the best node with the [prefix_value_mut] read at it (203-207) *)
Definition a_get_lpm_mut (am : amap) (q : pfx) : res (option (N * pfx * V)) :=
  b <- a_lpmm_loop (S (length (tbl am))) (tbl am) 0%N q None ;;         (* 190-202 *)
  match b with
  | Some idx =>                                                         (* 203 *)
    n <- rd (tbl am) idx ;;                                             (* 204 *)
    Ok (match nval n with Some x => Some (idx, npfx n, x) | None => None end)
  | None => Ok None                                                     (* 206 *)
  end.

(** [get_spm], mod.rs:288-307 *)
Fixpoint a_spm_loop (fuel : nat) (tb : list anode) (idx : N) (q : pfx) : res (option (pfx * V)) :=
  match fuel with
  | O => OutOfFuel
  | S f =>
    d <- a_direction tb idx q ;;                                        (* 295 *)
    match d with
    | Reached => n <- rd tb idx ;; Ok (prefix_value n)                  (* 296 *)
    | Enter next _ =>                                                   (* 297 *)
      n <- rd tb next ;;                                                (* 299 *)
      match prefix_value n with
      | Some x => Ok (Some x)                                           (* 300 *)
      | None => a_spm_loop f tb next q                                  (* 301 *)
      end
    | Missing => Ok None                                                (* 304 *)
    end
  end.
Definition a_get_spm (am : amap) (q : pfx) : res (option (pfx * V)) :=
  n0 <- rd (tbl am) 0%N ;;                                              (* 290 *)
  match prefix_value n0 with
  | Some x => Ok (Some x)                                               (* 291 *)
  | None => a_spm_loop (S (length (tbl am))) (tbl am) 0%N q             (* 293-306 *)
  end.
(** [get_spm_prefix], mod.rs:326-328 *)
Definition a_get_spm_prefix (am : amap) (q : pfx) : res (option pfx) :=
  r <- a_get_spm am q ;; Ok (option_map fst r).                         (* 327 *)

(* ------------------------------------------------------------------------------------------ *)
(** * src/map/iter.rs *)

(** [lpm_children_iter_start], iter.rs:490-514: the initial stack of [children*] *)
Fixpoint a_cs_loop (fuel : nat) (tb : list anode) (idx : N) (cur_p : pfx) (q : pfx) : res (list N) :=
  match fuel with
  | O => OutOfFuel
  | S f =>
    if peq cur_p q then Ok [idx]                                        (* 495-496 *)
    else
      let right := to_right cur_p q in                                  (* 498 *)
      c <- get_child tb idx right ;;                                 (* 499 *)
      match c with
      | Some c =>                                                       (* 500 *)
        cn <- rd tb c ;;                                                (* 501 *)
        let cur_p := npfx cn in
        if contains cur_p q then a_cs_loop f tb c cur_p q               (* 502-504 *)
        else if contains q cur_p then Ok [c]                            (* 505-506 *)
        else Ok []                                                      (* 508 *)
      | None => Ok []                                                   (* 511 *)
      end
  end.
Definition a_children_start_fuel (fuel : nat) (tb : list anode) (q : pfx) : res (list N) :=
  n0 <- rd tb 0%N ;;                                                    (* 491-492 *)
  a_cs_loop fuel tb 0%N (npfx n0) q.
Definition a_children_start (am : amap) (q : pfx) : res (list N) :=
  a_children_start_fuel (S (length (tbl am))) (tbl am) q.
(** [children] (iter.rs:407), drained: [Iter] started on that stack *)
Definition a_children (am : amap) (q : pfx) : res (list (pfx * V)) :=
  st <- a_children_start am q ;; Arena.a_iter pfx V (S (length (tbl am))) (tbl am) st.

(** [Cover::next], iter.rs:543-567; the state is [idx: Option<usize>].  The loop 555-566: returns
    the item and the index the iterator stops at *)
Fixpoint a_cover_loop (fuel : nat) (tb : list anode) (idx : N) (q : pfx)
  : res (option (pfx * V) * N) :=
  match fuel with
  | O => OutOfFuel
  | S f =>
    d <- a_direction tb idx q ;;                                        (* 556-557 *)
    match d with
    | Enter next _ =>                                                   (* 561: self.idx = Some(next) *)
      n <- rd tb next ;;                                                (* 562 *)
      match nval n with
      | Some v => Ok (Some (npfx n, v), next)                           (* 563-564 *)
      | None => a_cover_loop f tb next q
      end
    | _ => Ok (None, idx)                                               (* 558-559 *)
    end
  end.
Definition a_cover_next (fuel : nat) (tb : list anode) (st : option N) (q : pfx)
  : res (option (pfx * V) * option N) :=
  match st with
  | None =>                                                             (* 545-546 *)
    n0 <- rd tb 0%N ;;                                                  (* 547 *)
    match nval n0 with
    | Some v => Ok (Some (npfx n0, v), Some 0%N)                        (* 548-549 *)
    | None => r <- a_cover_loop fuel tb 0%N q ;; Ok (fst r, Some (snd r))
    end
  | Some i => r <- a_cover_loop fuel tb i q ;; Ok (fst r, Some (snd r)) (* 557: unwrap of Some *)
  end.
(** drain the iterator ([n] calls of [next] at most), as [Trie.cover_drain] *)
Fixpoint a_cover_drain (n fuel : nat) (tb : list anode) (st : option N) (q : pfx)
  : res (list (pfx * V)) :=
  match n with
  | O => Ok []
  | S n' =>
    r <- a_cover_next fuel tb st q ;;
    match fst r with
    | Some x => rest <- a_cover_drain n' fuel tb (snd r) q ;; Ok (x :: rest)
    | None => Ok []
    end
  end.
Definition a_cover (am : amap) (q : pfx) : res (list (pfx * V)) :=
  a_cover_drain (S (length (tbl am))) (S (length (tbl am))) (tbl am) None q.

(* ------------------------------------------------------------------------------------------ *)
(** * src/trieview/mod.rs: [TrieView] *)

(** the loop of [TrieView::find], 157-179 *)
Fixpoint a_v_find_loop (fuel : nat) (tb : list anode) (idx : N) (q : pfx) : res (option vloc) :=
  match fuel with
  | O => OutOfFuel
  | S f =>
    d <- a_direction_ins tb idx q ;;                                    (* 158 *)
    match d with
    | IEnter _ next _ => a_v_find_loop f tb next q                      (* 159-161 *)
    | IReached _ => Ok (Some (LNode idx))                               (* 162-167 *)
    | INewChild _ rt _ =>                                            (* 168-174 *)
      c <- get_child tb idx rt ;;                                    (* 172 *)
      c' <- unwrap c ;;                                                 (* 172: unwrap *)
      Ok (Some (LVirt q c'))
    | INewLeaf _ _ => Ok None                                           (* 175-177 *)
    | INewBranch _ _ _ _ => Ok None                                     (* 175-177 *)
    end
  end.
(** [TrieView::find], 147-180 *)
Definition a_v_find_fuel (fuel : nat) (tb : list anode) (l : vloc) (q : pfx) : res (option vloc) :=
  let idx := loc_idx l in                                               (* 148 *)
  n <- rd tb idx ;;                                                     (* 150 *)
  if contains q (npfx n) && negb (peq (npfx n) q)                       (* 151 *)
  then Ok (Some (LVirt q idx))                                          (* 152-155 *)
  else a_v_find_loop fuel tb idx q.
Definition a_v_find (tb : list anode) := a_v_find_fuel (S (length tb)) tb.

(** [TrieView::find_exact], 212-226 *)
Fixpoint a_v_find_exact_fuel (fuel : nat) (tb : list anode) (idx : N) (q : pfx) : res (option vloc) :=
  match fuel with
  | O => OutOfFuel
  | S f =>
    d <- a_direction tb idx q ;;                                        (* 215 *)
    match d with
    | Reached =>                                                        (* 216-221 *)
      n <- rd tb idx ;;                                                 (* 217 *)
      Ok (if is_some (nval n) then Some (LNode idx) else None)          (* 217: then_some *)
    | Enter next _ => a_v_find_exact_fuel f tb next q                   (* 222 *)
    | Missing => Ok None                                                (* 223 *)
    end
  end.
Definition a_v_find_exact (tb : list anode) (l : vloc) (q : pfx) : res (option vloc) :=
  a_v_find_exact_fuel (S (length tb)) tb (loc_idx l) q.                 (* 213 *)

(** [TrieView::find_lpm], 269-290: the loop 276-289 *)
Fixpoint a_v_find_lpm_loop (fuel : nat) (tb : list anode) (idx : N) (q : pfx) (best : option N)
  : res (option vloc) :=
  match fuel with
  | O => OutOfFuel
  | S f =>
    n <- rd tb idx ;;                                                   (* 277 *)
    let best := if is_some (nval n) then Some idx else best in          (* 277-279 *)
    d <- a_direction tb idx q ;;                                        (* 280 *)
    match d with
    | Enter next _ => a_v_find_lpm_loop f tb next q best                (* 281 *)
    | _ => Ok (option_map LNode best)                                   (* 282-287 *)
    end
  end.
Definition a_v_find_lpm_fuel (fuel : nat) (tb : list anode) (l : vloc) (q : pfx) : res (option vloc) :=
  let idx := loc_idx l in                                               (* 270 *)
  n <- rd tb idx ;;                                                     (* 272 *)
  if negb (contains (npfx n) q) then Ok None                            (* 272-274 *)
  else a_v_find_lpm_loop fuel tb idx q None.                            (* 275 *)
Definition a_v_find_lpm (tb : list anode) := a_v_find_lpm_fuel (S (length tb)) tb.

(** [TrieView::left], 321-339 *)
Definition a_v_left (tb : list anode) (l : vloc) : res (option vloc) :=
  match l with
  | LNode idx => n <- rd tb idx ;; Ok (option_map LNode (nleft n))      (* 323-326: [?] *)
  | LVirt p idx =>                                                      (* 327 *)
    n <- rd tb idx ;;                                                   (* 329 *)
    if negb (to_right p (npfx n)) then Ok (Some (LNode idx)) else Ok None   (* 329-336 *)
  end.
(** [TrieView::right], 371-389 *)
Definition a_v_right (tb : list anode) (l : vloc) : res (option vloc) :=
  match l with
  | LNode idx => n <- rd tb idx ;; Ok (option_map LNode (nright n))     (* 373-376 *)
  | LVirt p idx =>
    n <- rd tb idx ;;                                                   (* 379 *)
    if to_right p (npfx n) then Ok (Some (LNode idx)) else Ok None      (* 379-386 *)
  end.
(** [TrieView::prefix], 496-501 *)
Definition a_v_prefix (tb : list anode) (l : vloc) : res pfx :=
  match l with
  | LNode idx => n <- rd tb idx ;; Ok (npfx n)                          (* 498 *)
  | LVirt p _ => Ok p                                                   (* 499 *)
  end.
(** [TrieView::value], 523-528 *)
Definition a_v_value (tb : list anode) (l : vloc) : res (option V) :=
  match l with
  | LNode idx => n <- rd tb idx ;; Ok (nval n)                          (* 525 *)
  | LVirt _ _ => Ok None                                                (* 526 *)
  end.
(** [TrieView::prefix_value], 552-557 *)
Definition a_v_prefix_value (tb : list anode) (l : vloc) : res (option (pfx * V)) :=
  match l with
  | LNode idx => n <- rd tb idx ;; Ok (prefix_value n)                  (* 554 *)
  | LVirt _ _ => Ok None                                                (* 555 *)
  end.

(* ------------------------------------------------------------------------------------------ *)
(** * src/trieview/mod.rs: [TrieViewMut] (hand-duplicated in the Rust sources, so here too);
    [Result<Self, Self>]: [None] = [Err(self)] *)

(** the loop of [TrieViewMut::find], 715-734 *)
Fixpoint a_vm_find_loop (fuel : nat) (tb : list anode) (idx : N) (q : pfx) : res (option vloc) :=
  match fuel with
  | O => OutOfFuel
  | S f =>
    d <- a_direction_ins tb idx q ;;                                    (* 716 *)
    match d with
    | IEnter _ next _ => a_vm_find_loop f tb next q                     (* 717-719 *)
    | IReached _ => Ok (Some (LNode idx))                               (* 720-723 *)
    | INewChild _ rt _ =>                                            (* 724-729 *)
      c <- get_child tb idx rt ;;                                    (* 727 *)
      c' <- unwrap c ;;                                                 (* 727: unwrap *)
      Ok (Some (LVirt q c'))
    | INewLeaf _ _ => Ok None                                           (* 730-732: Err(self) *)
    | INewBranch _ _ _ _ => Ok None                                     (* 730-732 *)
    end
  end.
(** [TrieViewMut::find], 703-735 *)
Definition a_vm_find_fuel (fuel : nat) (tb : list anode) (l : vloc) (q : pfx) : res (option vloc) :=
  let idx := loc_idx l in                                               (* 708 *)
  n <- rd tb idx ;;                                                     (* 710 *)
  if contains q (npfx n) && negb (peq (npfx n) q)                       (* 711 *)
  then Ok (Some (LVirt q idx))                                          (* 712-713 *)
  else a_vm_find_loop fuel tb idx q.
Definition a_vm_find (tb : list anode) := a_vm_find_fuel (S (length tb)) tb.

(** [TrieViewMut::find_exact], 769-787 *)
Fixpoint a_vm_find_exact_fuel (fuel : nat) (tb : list anode) (idx : N) (q : pfx) : res (option vloc) :=
  match fuel with
  | O => OutOfFuel
  | S f =>
    d <- a_direction tb idx q ;;                                        (* 772 *)
    match d with
    | Reached =>                                                        (* 773-782 *)
      n <- rd tb idx ;;                                                 (* 774 *)
      if is_some (nval n) then Ok (Some (LNode idx)) else Ok None       (* 774-781 *)
    | Enter next _ => a_vm_find_exact_fuel f tb next q                  (* 783 *)
    | Missing => Ok None                                                (* 784 *)
    end
  end.
Definition a_vm_find_exact (tb : list anode) (l : vloc) (q : pfx) : res (option vloc) :=
  a_vm_find_exact_fuel (S (length tb)) tb (loc_idx l) q.                (* 770 *)

(** [TrieViewMut::find_lpm], 823-848 *)
Fixpoint a_vm_find_lpm_loop (fuel : nat) (tb : list anode) (idx : N) (q : pfx) (best : option N)
  : res (option vloc) :=
  match fuel with
  | O => OutOfFuel
  | S f =>
    n <- rd tb idx ;;                                                   (* 831 *)
    let best := if is_some (nval n) then Some idx else best in          (* 831-833 *)
    d <- a_direction tb idx q ;;                                        (* 834 *)
    match d with
    | Enter next _ => a_vm_find_lpm_loop f tb next q best               (* 835 *)
    | _ => match best with                                              (* 836-845 *)
           | Some i => Ok (Some (LNode i))                              (* 841 *)
           | None => Ok None                                            (* 843 *)
           end
    end
  end.
Definition a_vm_find_lpm_fuel (fuel : nat) (tb : list anode) (l : vloc) (q : pfx) : res (option vloc) :=
  let idx := loc_idx l in                                               (* 824 *)
  n <- rd tb idx ;;                                                     (* 826 *)
  if negb (contains (npfx n) q) then Ok None                            (* 826-828 *)
  else a_vm_find_lpm_loop fuel tb idx q None.                           (* 829 *)
Definition a_vm_find_lpm (tb : list anode) := a_vm_find_lpm_fuel (S (length tb)) tb.

(** the index computed by [left()] (886-896) / [right()] (944-954) *)
Definition a_vm_side_idx (tb : list anode) (l : vloc) (right : bool) : res (option N) :=
  match l with
  | LNode idx => n <- rd tb idx ;; Ok (child_of n right)                (* 887 / 945 *)
  | LVirt p idx =>
    n <- rd tb idx ;;                                                   (* 890 / 948 *)
    if Bool.eqb (to_right p (npfx n)) right then Ok (Some idx) else Ok None
  end.
(** [TrieViewMut::left], 880-903 *)
Definition a_vm_left (tb : list anode) (l : vloc) : res (option vloc) :=
  i <- a_vm_side_idx tb l false ;; Ok (option_map LNode i).             (* 898-902 *)
(** [TrieViewMut::right], 938-961 *)
Definition a_vm_right (tb : list anode) (l : vloc) : res (option vloc) :=
  i <- a_vm_side_idx tb l true ;; Ok (option_map LNode i).              (* 956-960 *)
(** [has_left], 981-989 *)
Definition a_vm_has_left (tb : list anode) (l : vloc) : res bool :=
  match l with
  | LNode idx => n <- rd tb idx ;; Ok (is_some (nleft n))               (* 983 *)
  | LVirt p idx => n <- rd tb idx ;; Ok (negb (to_right p (npfx n)))    (* 986 *)
  end.
(** [has_right], 1009-1017 *)
Definition a_vm_has_right (tb : list anode) (l : vloc) : res bool :=
  match l with
  | LNode idx => n <- rd tb idx ;; Ok (is_some (nright n))              (* 1011 *)
  | LVirt p idx => n <- rd tb idx ;; Ok (to_right p (npfx n))           (* 1014 *)
  end.
(** [split], 1046-1070 *)
Definition a_vm_split (tb : list anode) (l : vloc) : res (option vloc * option vloc) :=
  match l with
  | LNode idx =>
    n1 <- rd tb idx ;; n2 <- rd tb idx ;;                               (* 1048: two reads *)
    Ok (option_map LNode (nleft n1), option_map LNode (nright n2))      (* 1066-1067 *)
  | LVirt p idx =>
    n <- rd tb idx ;;                                                   (* 1051 *)
    if to_right p (npfx n) then Ok (None, Some (LNode idx))             (* 1052 *)
    else Ok (Some (LNode idx), None)                                    (* 1054 *)
  end.
(** [TrieViewMut::prefix], 1167-1172, and [value], 1194-1199 *)
Definition a_vm_prefix (tb : list anode) (l : vloc) : res pfx :=
  match l with
  | LNode idx => n <- rd tb idx ;; Ok (npfx n)                          (* 1169 *)
  | LVirt p _ => Ok p                                                   (* 1170 *)
  end.
Definition a_vm_value (tb : list anode) (l : vloc) : res (option V) :=
  match l with
  | LNode idx => n <- rd tb idx ;; Ok (nval n)                          (* 1196 *)
  | LVirt _ _ => Ok None                                                (* 1197 *)
  end.

End A3.

(* ------------------------------------------------------------------------------------------ *)
(** * src/trieview/{union,intersection,difference}.rs over TWO arenas *)
Section A3S.
Variables (pfx L R : Type).
Variables (contains : pfx -> pfx -> bool) (is_bit_set : pfx -> N -> bool)
          (plen : pfx -> N) (mcmp : pfx -> pfx -> comparison).

Notation tabL := (list (Arena.anode pfx L)).
Notation tabR := (list (Arena.anode pfx R)).
Notation rdL := (Arena.rd pfx L).
Notation rdR := (Arena.rd pfx R).
Notation pvL := (Arena.prefix_value pfx L).
Notation pvR := (Arena.prefix_value pfx R).
Notation to_right := (Trie.to_right pfx is_bit_set plen).
Notation lpmL := (SetOps.lpmL pfx L).
Notation lpmR := (SetOps.lpmR pfx R).
Notation uitem := (SetOps.uitem pfx L R).
Notation umitem := (SetOps.umitem pfx L R).
Notation imitem := (SetOps.imitem pfx L R).
Notation ditem := (SetOps.ditem pfx L R).
Notation dmitem := (SetOps.dmitem pfx L R).
Notation u_get_next := (SetOps.u_get_next pfx L R).

(** slot + value of a node, for the items of the [*Mut] iterators ([value.as_mut()] at slot [i]) *)
Definition aidval {T} (i : N) (n : Arena.anode pfx T) : option (N * T) :=
  match nval n with Some x => Some (i, x) | None => None end.

(* ---------------------------------------------------------------------------------------- *)
(** ** union.rs *)

(** [UnionIndex], union.rs:123-129 *)
Inductive auidx :=
| AUBoth (l r : N) | AUFirstL (l r : N) | AUFirstR (l r : N) | AUOnlyL (l : N) | AUOnlyR (r : N).
(** [Node<'a, P, L, R>], union.rs:42 *)
Definition auentry := (auidx * lpmL * lpmR)%type.

(** [next_indices], union.rs:536-574 *)
Definition a_u_next_indices (tl : tabL) (tr : tabR) (node_l node_r : option N) : res (list auidx) :=
  match node_l, node_r with
  | None, Some b => Ok [AUOnlyR b]                                      (* 543 *)
  | Some a, None => Ok [AUOnlyL a]                                      (* 544 *)
  | Some a, Some b =>                                                   (* 545 *)
    na <- rdL tl a ;;                                                   (* 546 *)
    nb <- rdR tr b ;;                                                   (* 547 *)
    let p_a := npfx na in let p_b := npfx nb in
    if (plen p_a =? plen p_b)%N then                                    (* 548 *)
      match mcmp p_a p_b with                                           (* 549 *)
      | Lt => Ok [AUOnlyR b; AUOnlyL a]                                 (* 550-552 *)
      | Eq => Ok [AUBoth a b]                                           (* 553-555 *)
      | Gt => Ok [AUOnlyL a; AUOnlyR b]                                 (* 556-558 *)
      end
    else if contains p_a p_b then Ok [AUFirstL a b]                     (* 560-561 *)
    else if contains p_b p_a then Ok [AUFirstR a b]                     (* 562-563 *)
    else match mcmp p_a p_b with                                        (* 565: mask() < mask() *)
         | Lt => Ok [AUOnlyR b; AUOnlyL a]                              (* 566 *)
         | _ => Ok [AUOnlyL a; AUOnlyR b]                               (* 568 *)
         end
  | None, None => Ok []                                                 (* 572 *)
  end.

(** [next_indices_first_l], union.rs:576-600 *)
Definition a_u_next_first_l (tl : tabL) (tr : tabR) (l : N) (ll lr : option N) (r : N)
  : res (list auidx) :=
  match ll, lr with
  | None, None => Ok [AUOnlyR r]                                        (* 585 *)
  | None, Some lr => a_u_next_indices tl tr (Some lr) (Some r)          (* 586 *)
  | Some ll, None => a_u_next_indices tl tr (Some ll) (Some r)          (* 587 *)
  | Some ll, Some lr =>                                                 (* 588 *)
    nl <- rdL tl l ;; nr <- rdR tr r ;;                                 (* 589 *)
    if to_right (npfx nl) (npfx nr) then
      xs <- a_u_next_indices tl tr (Some lr) (Some r) ;;                (* 590 *)
      Ok (xs ++ [AUOnlyL ll])                                           (* 591: push *)
    else
      xs <- a_u_next_indices tl tr (Some ll) (Some r) ;;                (* 594 *)
      Ok (AUOnlyL lr :: xs)                                             (* 595: insert(0, ..) *)
  end.

(** [next_indices_first_r], union.rs:602-626 *)
Definition a_u_next_first_r (tl : tabL) (tr : tabR) (l r : N) (rl rr : option N)
  : res (list auidx) :=
  match rl, rr with
  | None, None => Ok [AUOnlyL l]                                        (* 611 *)
  | None, Some rr => a_u_next_indices tl tr (Some l) (Some rr)          (* 612 *)
  | Some rl, None => a_u_next_indices tl tr (Some l) (Some rl)          (* 613 *)
  | Some rl, Some rr =>                                                 (* 614 *)
    nr <- rdR tr r ;; nl <- rdL tl l ;;                                 (* 615 *)
    if to_right (npfx nr) (npfx nl) then
      xs <- a_u_next_indices tl tr (Some l) (Some rr) ;;                (* 616 *)
      Ok (xs ++ [AUOnlyR rl])                                           (* 617 *)
    else
      xs <- a_u_next_indices tl tr (Some l) (Some rl) ;;                (* 620 *)
      Ok (AUOnlyR rr :: xs)                                             (* 621 *)
  end.

(** [extend_lpm], union.rs:628-642: one element of the mapped iterator *)
Definition a_u_ext1 (tl : tabL) (tr : tabR) (lpm_l : lpmL) (lpm_r : lpmR) (x : auidx) : res auentry :=
  match x with
  | AUBoth l r =>                                                       (* 638 *)
    nl <- rdL tl l ;; nr <- rdR tr r ;;                                 (* 635, 636 *)
    Ok (x, orelse (pvL nl) lpm_l, orelse (pvR nr) lpm_r)
  | AUFirstL l _ | AUOnlyL l =>                                         (* 639 *)
    nl <- rdL tl l ;; Ok (x, orelse (pvL nl) lpm_l, lpm_r)
  | AUFirstR _ r | AUOnlyR r =>                                         (* 640 *)
    nr <- rdR tr r ;; Ok (x, lpm_l, orelse (pvR nr) lpm_r)
  end.
Definition a_u_extend_lpm (tl : tabL) (tr : tabR) (lpm_l : lpmL) (lpm_r : lpmR) (xs : list auidx)
  : res (list auentry) := rmap (a_u_ext1 tl tr lpm_l lpm_r) xs.

(** one iteration of the loop of [Union::next], union.rs:331-436 ([get_next], 299-325, is the
    table-free [SetOps.u_get_next]) *)
Definition a_u_expand (tl : tabL) (tr : tabR) (e : auentry) : res (option uitem * list auentry) :=
  let '(cur, lpm_l, lpm_r) := e in                                      (* 332 *)
  match cur with
  | AUBoth l r =>                                                       (* 334 *)
    nl <- rdL tl l ;;                                                   (* 335 *)
    nr <- rdR tr r ;;                                                   (* 336 *)
    x1 <- a_u_next_indices tl tr (nright nl) (nright nr) ;;             (* 338 *)
    e1 <- a_u_extend_lpm tl tr lpm_l lpm_r x1 ;;                        (* 337-341 *)
    x2 <- a_u_next_indices tl tr (nleft nl) (nleft nr) ;;               (* 343 *)
    e2 <- a_u_extend_lpm tl tr lpm_l lpm_r x2 ;;                        (* 342-346 *)
    let prefix := if is_some (nval nl) then npfx nl else npfx nr in     (* 349-353 *)
    Ok (u_get_next prefix (nval nl) (nval nr) lpm_l lpm_r, e1 ++ e2)    (* 354-362 *)
  | AUFirstL l r =>                                                     (* 364 *)
    nl <- rdL tl l ;;                                                   (* 365 *)
    xs <- a_u_next_first_l tl tr l (nleft nl) (nright nl) r ;;          (* 367-374 *)
    es <- a_u_extend_lpm tl tr lpm_l lpm_r xs ;;                        (* 366-377 *)
    Ok (u_get_next (npfx nl) (nval nl) None lpm_l lpm_r, es)            (* 378-382 *)
  | AUFirstR l r =>                                                     (* 384 *)
    nr <- rdR tr r ;;                                                   (* 385 *)
    xs <- a_u_next_first_r tl tr l r (nleft nr) (nright nr) ;;          (* 387-394 *)
    es <- a_u_extend_lpm tl tr lpm_l lpm_r xs ;;                        (* 386-397 *)
    Ok (u_get_next (npfx nr) None (nval nr) lpm_l lpm_r, es)            (* 398-402 *)
  | AUOnlyL l =>                                                        (* 404 *)
    nl <- rdL tl l ;;                                                   (* 405 *)
    e1 <- match nright nl with                                          (* 406-408 *)
          | Some rgt => a_u_extend_lpm tl tr lpm_l lpm_r [AUOnlyL rgt]
          | None => Ok [] end ;;
    e2 <- match nleft nl with                                           (* 409-411 *)
          | Some lft => a_u_extend_lpm tl tr lpm_l lpm_r [AUOnlyL lft]
          | None => Ok [] end ;;
    Ok (u_get_next (npfx nl) (nval nl) None lpm_l lpm_r, e1 ++ e2)      (* 412-416 *)
  | AUOnlyR r =>                                                        (* 418 *)
    nr <- rdR tr r ;;                                                   (* 419 *)
    e1 <- match nright nr with                                          (* 420-422 *)
          | Some rgt => a_u_extend_lpm tl tr lpm_l lpm_r [AUOnlyR rgt]
          | None => Ok [] end ;;
    e2 <- match nleft nr with                                           (* 423-425 *)
          | Some lft => a_u_extend_lpm tl tr lpm_l lpm_r [AUOnlyR lft]
          | None => Ok [] end ;;
    Ok (u_get_next (npfx nr) None (nval nr) lpm_l lpm_r, e1 ++ e2)      (* 426-430 *)
  end.

(** [TrieView::union], union.rs:188-209, drained; the views are at the slots [il] / [ir]
    ([self.loc.idx()], [other.loc.idx()]) *)
Definition a_union_fuel (fuel : nat) (tl : tabL) (tr : tabR) (il ir : N) : res (list uitem) :=
  xs <- a_u_next_indices tl tr (Some il) (Some ir) ;;                   (* 200-205 *)
  es <- a_u_extend_lpm tl tr None None xs ;;                            (* 193-207: collect *)
  rrun auentry uitem (a_u_expand tl tr) fuel (rev es).                  (* pop = last element *)
Definition a_union (tl : tabL) (tr : tabR) := a_union_fuel (S (length tl + length tr)) tl tr.

(** one iteration of the loop of [UnionMut::next], union.rs:441-533; the items carry the slots of
    the nodes whose [value.as_mut()] is handed out *)
Definition a_um_expand (tl : tabL) (tr : tabR) (cur : auidx) : res (option umitem * list auidx) :=
  match cur with
  | AUBoth l r =>                                                       (* 449 *)
    nl <- rdL tl l ;;                                                   (* 450 *)
    nr <- rdR tr r ;;                                                   (* 451 *)
    x1 <- a_u_next_indices tl tr (nright nl) (nright nr) ;;             (* 452-457 *)
    x2 <- a_u_next_indices tl tr (nleft nl) (nleft nr) ;;               (* 458-463 *)
    nl <- rdL tl l ;;                                                   (* 464: get_mut (bound check) *)
    nr <- rdR tr r ;;                                                   (* 465 *)
    Ok ((if is_some (nval nl) || is_some (nval nr)                      (* 466 *)
         then Some ((if is_some (nval nl) then npfx nl else npfx nr),   (* 468-472 *)
                    aidval l nl, aidval r nr)                           (* 473 *)
         else None), x1 ++ x2)
  | AUFirstL l r =>                                                     (* 476 *)
    nl <- rdL tl l ;;                                                   (* 477 *)
    xs <- a_u_next_first_l tl tr l (nleft nl) (nright nl) r ;;          (* 478-485 *)
    nl <- rdL tl l ;;                                                   (* 486 *)
    Ok ((if is_some (nval nl) then Some (npfx nl, aidval l nl, None) else None), xs)  (* 487-489 *)
  | AUFirstR l r =>                                                     (* 491 *)
    nr <- rdR tr r ;;                                                   (* 492 *)
    xs <- a_u_next_first_r tl tr l r (nleft nr) (nright nr) ;;          (* 493-500 *)
    nr <- rdR tr r ;;                                                   (* 501 *)
    Ok ((if is_some (nval nr) then Some (npfx nr, None, aidval r nr) else None), xs)  (* 502-504 *)
  | AUOnlyL l =>                                                        (* 506 *)
    nl <- rdL tl l ;;                                                   (* 507 *)
    let x1 := match nright nl with Some rgt => [AUOnlyL rgt] | None => [] end in  (* 508-510 *)
    let x2 := match nleft nl with Some lft => [AUOnlyL lft] | None => [] end in     (* 511-513 *)
    Ok ((if is_some (nval nl) then Some (npfx nl, aidval l nl, None) else None), x1 ++ x2)  (* 514-516 *)
  | AUOnlyR r =>                                                        (* 518 *)
    nr <- rdR tr r ;;                                                   (* 519 *)
    let x1 := match nright nr with Some rgt => [AUOnlyR rgt] | None => [] end in  (* 520-522 *)
    let x2 := match nleft nr with Some lft => [AUOnlyR lft] | None => [] end in     (* 523-525 *)
    Ok ((if is_some (nval nr) then Some (npfx nr, None, aidval r nr) else None), x1 ++ x2)  (* 526-528 *)
  end.
(** [TrieViewMut::union_mut], union.rs:266-280, drained *)
Definition a_union_mut_fuel (fuel : nat) (tl : tabL) (tr : tabR) (il ir : N) : res (list umitem) :=
  xs <- a_u_next_indices tl tr (Some il) (Some ir) ;;                   (* 271-276 *)
  rrun auidx umitem (a_um_expand tl tr) fuel (rev xs).
Definition a_union_mut (tl : tabL) (tr : tabR) := a_union_mut_fuel (S (length tl + length tr)) tl tr.

(* ---------------------------------------------------------------------------------------- *)
(** ** intersection.rs *)

(** [IntersectionIndex], intersection.rs:38-42 *)
Inductive aiidx := AIBoth (l r : N) | AIFirstA (l r : N) | AIFirstB (l r : N).

(** [next_indices], intersection.rs:284-311; the [Option] that [nodes.extend] consumes is a list
    of at most one element *)
Definition a_i_next_indices (tl : tabL) (tr : tabR) (node_l node_r : option N) : res (list aiidx) :=
  match node_l, node_r with
  | Some a, Some b =>                                                   (* 293 *)
    na <- rdL tl a ;;                                                   (* 294 *)
    nb <- rdR tr b ;;                                                   (* 295 *)
    let p_a := npfx na in let p_b := npfx nb in
    if (plen p_a =? plen p_b)%N then                                    (* 296 *)
      match mcmp p_a p_b with Eq => Ok [AIBoth a b] | _ => Ok [] end    (* 297-300 *)
    else if contains p_a p_b then Ok [AIFirstA a b]                     (* 301-302 *)
    else if contains p_b p_a then Ok [AIFirstB a b]                     (* 303-304 *)
    else Ok []                                                          (* 306 *)
  | _, _ => Ok []                                                       (* 291, 292, 309 *)
  end.
(** [next_indices_first_a], intersection.rs:313-333 *)
Definition a_i_next_first_a (tl : tabL) (tr : tabR) (l : N) (ll lr : option N) (r : N)
  : res (list aiidx) :=
  match ll, lr with
  | None, None => Ok []                                                 (* 322 *)
  | None, Some lr => a_i_next_indices tl tr (Some lr) (Some r)          (* 323 *)
  | Some ll, None => a_i_next_indices tl tr (Some ll) (Some r)          (* 324 *)
  | Some ll, Some lr =>
    nl <- rdL tl l ;; nr <- rdR tr r ;;                                 (* 326 *)
    if to_right (npfx nl) (npfx nr) then a_i_next_indices tl tr (Some lr) (Some r)  (* 327 *)
    else a_i_next_indices tl tr (Some ll) (Some r)                      (* 329 *)
  end.
(** [next_indices_first_b], intersection.rs:335-355 *)
Definition a_i_next_first_b (tl : tabL) (tr : tabR) (l r : N) (rl rr : option N)
  : res (list aiidx) :=
  match rl, rr with
  | None, None => Ok []                                                 (* 344 *)
  | None, Some rr => a_i_next_indices tl tr (Some l) (Some rr)          (* 345 *)
  | Some rl, None => a_i_next_indices tl tr (Some l) (Some rl)          (* 346 *)
  | Some rl, Some rr =>
    nr <- rdR tr r ;; nl <- rdL tl l ;;                                 (* 348 *)
    if to_right (npfx nr) (npfx nl) then a_i_next_indices tl tr (Some l) (Some rr)  (* 349 *)
    else a_i_next_indices tl tr (Some l) (Some rl)                      (* 351 *)
  end.

(** one iteration of [Intersection::next], intersection.rs:170-219 *)
Definition a_i_expand (tl : tabL) (tr : tabR) (cur : aiidx) : res (option (pfx * L * R) * list aiidx) :=
  match cur with
  | AIBoth l r =>                                                       (* 173 *)
    nl <- rdL tl l ;;                                                   (* 174 *)
    nr <- rdR tr r ;;                                                   (* 175 *)
    x1 <- a_i_next_indices tl tr (nright nl) (nright nr) ;;             (* 176-181 *)
    x2 <- a_i_next_indices tl tr (nleft nl) (nleft nr) ;;               (* 182-187 *)
    Ok (match nval nl, nval nr with                                     (* 188-192 *)
        | Some x, Some y => Some (npfx nl, x, y) | _, _ => None end, x1 ++ x2)
  | AIFirstA l r =>                                                     (* 194 *)
    nl <- rdL tl l ;;                                                   (* 195 *)
    xs <- a_i_next_first_a tl tr l (nleft nl) (nright nl) r ;;          (* 196-203 *)
    Ok (None, xs)
  | AIFirstB l r =>                                                     (* 205 *)
    nr <- rdR tr r ;;                                                   (* 206 *)
    xs <- a_i_next_first_b tl tr l r (nleft nr) (nright nr) ;;          (* 207-214 *)
    Ok (None, xs)
  end.
(** [TrieView::intersection], intersection.rs:82-94, drained *)
Definition a_intersection_fuel (fuel : nat) (tl : tabL) (tr : tabR) (il ir : N)
  : res (list (pfx * L * R)) :=
  xs <- a_i_next_indices tl tr (Some il) (Some ir) ;;                   (* 87-92 *)
  rrun aiidx (pfx * L * R)%type (a_i_expand tl tr) fuel (rev xs).
Definition a_intersection (tl : tabL) (tr : tabR) :=
  a_intersection_fuel (S (length tl + length tr)) tl tr.

(** one iteration of [IntersectionMut::next], intersection.rs:225-281 *)
Definition a_im_expand (tl : tabL) (tr : tabR) (cur : aiidx) : res (option imitem * list aiidx) :=
  match cur with
  | AIBoth l r =>                                                       (* 233 *)
    nl <- rdL tl l ;;                                                   (* 234 *)
    nr <- rdR tr r ;;                                                   (* 235 *)
    x1 <- a_i_next_indices tl tr (nright nl) (nright nr) ;;             (* 236-241 *)
    x2 <- a_i_next_indices tl tr (nleft nl) (nleft nr) ;;               (* 242-247 *)
    nl <- rdL tl l ;;                                                   (* 248: get_mut *)
    nr <- rdR tr r ;;                                                   (* 249 *)
    Ok (match aidval l nl, aidval r nr with                             (* 250-254 *)
        | Some x, Some y => Some (npfx nl, x, y) | _, _ => None end, x1 ++ x2)
  | AIFirstA l r =>                                                     (* 256 *)
    nl <- rdL tl l ;;                                                   (* 257 *)
    xs <- a_i_next_first_a tl tr l (nleft nl) (nright nl) r ;;          (* 258-265 *)
    Ok (None, xs)
  | AIFirstB l r =>                                                     (* 267 *)
    nr <- rdR tr r ;;                                                   (* 268 *)
    xs <- a_i_next_first_b tl tr l r (nleft nr) (nright nr) ;;          (* 269-276 *)
    Ok (None, xs)
  end.
(** [TrieViewMut::intersection_mut], intersection.rs:150-164, drained *)
Definition a_intersection_mut_fuel (fuel : nat) (tl : tabL) (tr : tabR) (il ir : N)
  : res (list imitem) :=
  xs <- a_i_next_indices tl tr (Some il) (Some ir) ;;                   (* 155-160 *)
  rrun aiidx imitem (a_im_expand tl tr) fuel (rev xs).
Definition a_intersection_mut (tl : tabL) (tr : tabR) :=
  a_intersection_mut_fuel (S (length tl + length tr)) tl tr.

(* ---------------------------------------------------------------------------------------- *)
(** ** difference.rs *)

(** [DifferenceIndex], difference.rs:71-76 *)
Inductive adidx := ADBoth (l r : N) | ADFirstL (l r : N) | ADFirstR (l r : N) | ADOnlyL (l : N).

(** [next_indices], difference.rs:682-713 *)
Definition a_d_next_indices (tl : tabL) (tr : tabR) (l r : option N) : res (list adidx) :=
  match l, r with
  | None, _ => Ok []                                                    (* 689, 711 *)
  | Some l, None => Ok [ADOnlyL l]                                      (* 690 *)
  | Some l, Some r =>                                                   (* 691 *)
    nl <- rdL tl l ;;                                                   (* 692 *)
    nr <- rdR tr r ;;                                                   (* 693 *)
    let p_l := npfx nl in let p_r := npfx nr in
    if (plen p_l =? plen p_r)%N then                                    (* 694 *)
      match mcmp p_l p_r with Eq => Ok [ADBoth l r] | _ => Ok [ADOnlyL l] end  (* 695-702 *)
    else if contains p_l p_r then Ok [ADFirstL l r]                     (* 703-704 *)
    else if contains p_r p_l then Ok [ADFirstR l r]                     (* 705-706 *)
    else Ok [ADOnlyL l]                                                 (* 708 *)
  end.
(** [next_indices_first_a], difference.rs:715-739 *)
Definition a_d_next_first_a (tl : tabL) (tr : tabR) (l : N) (ll lr : option N) (r : N)
  : res (list adidx) :=
  match ll, lr with
  | None, None => Ok []                                                 (* 724 *)
  | None, Some lr => a_d_next_indices tl tr (Some lr) (Some r)          (* 725 *)
  | Some ll, None => a_d_next_indices tl tr (Some ll) (Some r)          (* 726 *)
  | Some ll, Some lr =>
    nl <- rdL tl l ;; nr <- rdR tr r ;;                                 (* 728 *)
    if to_right (npfx nl) (npfx nr) then
      xs <- a_d_next_indices tl tr (Some lr) (Some r) ;;                (* 729 *)
      Ok (xs ++ [ADOnlyL ll])                                           (* 730 *)
    else
      xs <- a_d_next_indices tl tr (Some ll) (Some r) ;;                (* 733 *)
      Ok (ADOnlyL lr :: xs)                                             (* 734 *)
  end.
(** [next_indices_first_b], difference.rs:741-761 *)
Definition a_d_next_first_b (tl : tabL) (tr : tabR) (l r : N) (rl rr : option N)
  : res (list adidx) :=
  match rl, rr with
  | None, None => Ok [ADOnlyL l]                                        (* 750 *)
  | None, Some rr => a_d_next_indices tl tr (Some l) (Some rr)          (* 751 *)
  | Some rl, None => a_d_next_indices tl tr (Some l) (Some rl)          (* 752 *)
  | Some rl, Some rr =>
    nr <- rdR tr r ;; nl <- rdL tl l ;;                                 (* 754 *)
    if to_right (npfx nr) (npfx nl) then a_d_next_indices tl tr (Some l) (Some rr)  (* 755 *)
    else a_d_next_indices tl tr (Some l) (Some rl)                      (* 757 *)
  end.
(** [extend_lpm], difference.rs:763-773 *)
Definition a_d_ext1 (tr : tabR) (lpm_r : lpmR) (x : adidx) : res (adidx * lpmR) :=
  match x with
  | ADBoth _ r | ADFirstR _ r => nr <- rdR tr r ;; Ok (x, orelse (pvR nr) lpm_r)   (* 768, 770 *)
  | ADFirstL _ _ | ADOnlyL _ => Ok (x, lpm_r)                           (* 771 *)
  end.
Definition a_d_extend_lpm (tr : tabR) (lpm_r : lpmR) (xs : list adidx) : res (list (adidx * lpmR)) :=
  rmap (a_d_ext1 tr lpm_r) xs.

(** the children pushed for [OnlyL(l)] (390-397 and its three copies) *)
Definition a_d_only_l (nl : Arena.anode pfx L) : list adidx :=
  match nright nl with Some rgt => [ADOnlyL rgt] | None => [] end ++
  match nleft nl with Some lft => [ADOnlyL lft] | None => [] end.

(** one iteration of [Difference::next], difference.rs:331-409 *)
Definition a_d_expand (tl : tabL) (tr : tabR) (e : adidx * lpmR)
  : res (option ditem * list (adidx * lpmR)) :=
  let '(cur, lpm_r) := e in                                             (* 332 *)
  match cur with
  | ADBoth l r =>                                                       (* 334 *)
    nl <- rdL tl l ;;                                                   (* 335 *)
    nr <- rdR tr r ;;                                                   (* 336 *)
    x1 <- a_d_next_indices tl tr (nright nl) (nright nr) ;;             (* 338 *)
    e1 <- a_d_extend_lpm tr lpm_r x1 ;;                                 (* 337-340 *)
    x2 <- a_d_next_indices tl tr (nleft nl) (nleft nr) ;;               (* 342 *)
    e2 <- a_d_extend_lpm tr lpm_r x2 ;;                                 (* 341-344 *)
    Ok (match nval nl with                                              (* 345 *)
        | Some x => if is_none (nval nr) then Some (npfx nl, x, lpm_r) else None   (* 346-351 *)
        | None => None end, e1 ++ e2)
  | ADFirstL l r =>                                                     (* 355 *)
    nl <- rdL tl l ;;                                                   (* 356 *)
    xs <- a_d_next_first_a tl tr l (nleft nl) (nright nl) r ;;          (* 358-365 *)
    es <- a_d_extend_lpm tr lpm_r xs ;;                                 (* 357-367 *)
    Ok (match nval nl with Some x => Some (npfx nl, x, lpm_r) | None => None end, es)  (* 368-374 *)
  | ADFirstR l r =>                                                     (* 376 *)
    nr <- rdR tr r ;;                                                   (* 377 *)
    xs <- a_d_next_first_b tl tr l r (nleft nr) (nright nr) ;;          (* 379-386 *)
    es <- a_d_extend_lpm tr lpm_r xs ;;                                 (* 378-388 *)
    Ok (None, es)
  | ADOnlyL l =>                                                        (* 390 *)
    nl <- rdL tl l ;;                                                   (* 391 *)
    es <- a_d_extend_lpm tr lpm_r (a_d_only_l nl) ;;                    (* 392-397 *)
    Ok (match nval nl with Some x => Some (npfx nl, x, lpm_r) | None => None end, es)  (* 398-404 *)
  end.
(** [TrieView::difference], difference.rs:143-161, drained *)
Definition a_difference_fuel (fuel : nat) (tl : tabL) (tr : tabR) (il ir : N) : res (list ditem) :=
  xs <- a_d_next_indices tl tr (Some il) (Some ir) ;;                   (* 152-157 *)
  es <- a_d_extend_lpm tr None xs ;;                                    (* 148-159 *)
  rrun (adidx * lpmR)%type ditem (a_d_expand tl tr) fuel (rev es).
Definition a_difference (tl : tabL) (tr : tabR) := a_difference_fuel (S (length tl + length tr)) tl tr.

(** one iteration of [DifferenceMut::next], difference.rs:491-576 *)
Definition a_dm_expand (tl : tabL) (tr : tabR) (e : adidx * lpmR)
  : res (option dmitem * list (adidx * lpmR)) :=
  let '(cur, lpm_r) := e in                                             (* 492 *)
  match cur with
  | ADBoth l r =>                                                       (* 499 *)
    nl <- rdL tl l ;;                                                   (* 500 *)
    nr <- rdR tr r ;;                                                   (* 501 *)
    x1 <- a_d_next_indices tl tr (nright nl) (nright nr) ;;             (* 503 *)
    e1 <- a_d_extend_lpm tr lpm_r x1 ;;                                 (* 502-505 *)
    x2 <- a_d_next_indices tl tr (nleft nl) (nleft nr) ;;               (* 507 *)
    e2 <- a_d_extend_lpm tr lpm_r x2 ;;                                 (* 506-509 *)
    nl <- rdL tl l ;;                                                   (* 510: get_mut *)
    Ok (match aidval l nl with                                          (* 511 *)
        | Some x => if is_none (nval nr) then Some (npfx nl, x, lpm_r) else None   (* 512-517 *)
        | None => None end, e1 ++ e2)
  | ADFirstL l r =>                                                     (* 521 *)
    nl <- rdL tl l ;;                                                   (* 522 *)
    xs <- a_d_next_first_a tl tr l (nleft nl) (nright nl) r ;;          (* 524-531 *)
    es <- a_d_extend_lpm tr lpm_r xs ;;                                 (* 523-533 *)
    nl <- rdL tl l ;;                                                   (* 534 *)
    Ok (match aidval l nl with Some x => Some (npfx nl, x, lpm_r) | None => None end, es)  (* 535-541 *)
  | ADFirstR l r =>                                                     (* 543 *)
    nr <- rdR tr r ;;                                                   (* 544 *)
    xs <- a_d_next_first_b tl tr l r (nleft nr) (nright nr) ;;          (* 546-553 *)
    es <- a_d_extend_lpm tr lpm_r xs ;;                                 (* 545-555 *)
    Ok (None, es)
  | ADOnlyL l =>                                                        (* 557 *)
    nl <- rdL tl l ;;                                                   (* 558 *)
    es <- a_d_extend_lpm tr lpm_r (a_d_only_l nl) ;;                    (* 559-564 *)
    Ok (match aidval l nl with Some x => Some (npfx nl, x, lpm_r) | None => None end, es)  (* 565-571 *)
  end.
(** [TrieViewMut::difference_mut], difference.rs:254-275, drained *)
Definition a_difference_mut_fuel (fuel : nat) (tl : tabL) (tr : tabR) (il ir : N) : res (list dmitem) :=
  xs <- a_d_next_indices tl tr (Some il) (Some ir) ;;                   (* 263-268 *)
  es <- a_d_extend_lpm tr None xs ;;                                    (* 259-270 *)
  rrun (adidx * lpmR)%type dmitem (a_dm_expand tl tr) fuel (rev es).
Definition a_difference_mut (tl : tabL) (tr : tabR) :=
  a_difference_mut_fuel (S (length tl + length tr)) tl tr.

(** one iteration of [CoveringDifference::next], difference.rs:415-485 *)
Definition a_cd_expand (tl : tabL) (tr : tabR) (cur : adidx) : res (option (pfx * L) * list adidx) :=
  match cur with
  | ADBoth l r =>                                                       (* 418 *)
    nl <- rdL tl l ;;                                                   (* 419 *)
    nr <- rdR tr r ;;                                                   (* 420 *)
    if is_some (nval nr) then Ok (None, [])                             (* 422-424: continue *)
    else
      x1 <- a_d_next_indices tl tr (nright nl) (nright nr) ;;           (* 425-430 *)
      x2 <- a_d_next_indices tl tr (nleft nl) (nleft nr) ;;             (* 431-436 *)
      Ok (match nval nl with Some x => Some (npfx nl, x) | None => None end, x1 ++ x2)  (* 437-439 *)
  | ADFirstL l r =>                                                     (* 441 *)
    nl <- rdL tl l ;;                                                   (* 442 *)
    xs <- a_d_next_first_a tl tr l (nleft nl) (nright nl) r ;;          (* 443-450 *)
    Ok (match nval nl with Some x => Some (npfx nl, x) | None => None end, xs)  (* 451-453 *)
  | ADFirstR l r =>                                                     (* 455 *)
    nr <- rdR tr r ;;                                                   (* 456 *)
    if is_some (nval nr) then Ok (None, [])                             (* 458-460: continue *)
    else
      xs <- a_d_next_first_b tl tr l r (nleft nr) (nright nr) ;;        (* 461-468 *)
      Ok (None, xs)
  | ADOnlyL l =>                                                        (* 470 *)
    nl <- rdL tl l ;;                                                   (* 471 *)
    Ok (match nval nl with Some x => Some (npfx nl, x) | None => None end, a_d_only_l nl)  (* 472-480 *)
  end.
(** [TrieView::covering_difference], difference.rs:188-203, drained *)
Definition a_covering_difference_fuel (fuel : nat) (tl : tabL) (tr : tabR) (il ir : N)
  : res (list (pfx * L)) :=
  xs <- a_d_next_indices tl tr (Some il) (Some ir) ;;                   (* 196-201 *)
  rrun adidx (pfx * L)%type (a_cd_expand tl tr) fuel (rev xs).
Definition a_covering_difference (tl : tabL) (tr : tabR) :=
  a_covering_difference_fuel (S (length tl + length tr)) tl tr.

(** one iteration of [CoveringDifferenceMut::next], difference.rs:582-659 *)
Definition a_cdm_expand (tl : tabL) (tr : tabR) (cur : adidx)
  : res (option (pfx * (N * L)) * list adidx) :=
  match cur with
  | ADBoth l r =>                                                       (* 590 *)
    nl <- rdL tl l ;;                                                   (* 591 *)
    nr <- rdR tr r ;;                                                   (* 592 *)
    if is_some (nval nr) then Ok (None, [])                             (* 594-596: continue *)
    else
      x1 <- a_d_next_indices tl tr (nright nl) (nright nr) ;;           (* 597-602 *)
      x2 <- a_d_next_indices tl tr (nleft nl) (nleft nr) ;;             (* 603-608 *)
      nl <- rdL tl l ;;                                                 (* 609: get_mut *)
      Ok (match aidval l nl with Some x => Some (npfx nl, x) | None => None end, x1 ++ x2)  (* 610-612 *)
  | ADFirstL l r =>                                                     (* 614 *)
    nl <- rdL tl l ;;                                                   (* 615 *)
    xs <- a_d_next_first_a tl tr l (nleft nl) (nright nl) r ;;          (* 616-623 *)
    nl <- rdL tl l ;;                                                   (* 624 *)
    Ok (match aidval l nl with Some x => Some (npfx nl, x) | None => None end, xs)  (* 625-627 *)
  | ADFirstR l r =>                                                     (* 629 *)
    nr <- rdR tr r ;;                                                   (* 630 *)
    if is_some (nval nr) then Ok (None, [])                             (* 632-634: continue *)
    else
      xs <- a_d_next_first_b tl tr l r (nleft nr) (nright nr) ;;        (* 635-642 *)
      Ok (None, xs)
  | ADOnlyL l =>                                                        (* 644 *)
    nl <- rdL tl l ;;                                                   (* 645 *)
    Ok (match aidval l nl with Some x => Some (npfx nl, x) | None => None end, a_d_only_l nl)  (* 646-654 *)
  end.
(** [TrieViewMut::covering_difference_mut], difference.rs:309-325, drained *)
Definition a_covering_difference_mut_fuel (fuel : nat) (tl : tabL) (tr : tabR) (il ir : N)
  : res (list (pfx * (N * L))) :=
  xs <- a_d_next_indices tl tr (Some il) (Some ir) ;;                   (* 314-319 *)
  rrun adidx (pfx * (N * L))%type (a_cdm_expand tl tr) fuel (rev xs).
Definition a_covering_difference_mut (tl : tabL) (tr : tabR) :=
  a_covering_difference_mut_fuel (S (length tl + length tr)) tl tr.

End A3S.

(* ------------------------------------------------------------------------------------------ *)
(** * Reading a tree-model view back as an arena location (executable; used for testing and in
    the statements of [Arena3Thm.v]): the location of a view is the slot of its real node *)
Definition loc_of {pfx V} (v : view pfx V) : vloc pfx :=
  match v with VNode t => LNode (tid t) | VVirt p t => LVirt p (tid t) end.
Definition mloc_of {pfx V} (T : tree pfx V) (m : vmut pfx) : vloc pfx :=
  match mvirt pfx m with
  | None => LNode (tid (vm_tree T m))
  | Some p => LVirt p (tid (vm_tree T m))
  end.
(** [Machine.run]'s [None] is [OutOfFuel] *)
Definition lift_run {A} (o : option A) : res A := match o with Some a => Ok a | None => OutOfFuel end.

(* ------------------------------------------------------------------------------------------ *)
(** The tests on the 8-bit instance (the arena observers against the tree model) are in [Arena3Test.v]. *)
