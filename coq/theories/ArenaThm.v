(** The arena transcription of [Arena.v] refines the tree model of [Trie.v].

    [rep tb o t]: the link [o] in the table [tb] represents the tree [t] (every node of [t] lives
    in the slot named by its [id], holds the node's prefix and value, and its two links represent
    the two subtrees).  Under [Slots.minv] (the slot ids of the tree and the free list partition
    [0 .. alen-1]) every arena operation returns [Ok] -- never [Panic], never [OutOfFuel] -- and
    its result represents the result of the tree operation.  No law about prefixes is needed:
    the arena code and the tree code ask the same questions in the same order. *)
From Coq Require Import List NArith ZArith Bool Arith Lia ZifyN ZifyBool ZifyNat.
From PT Require Import Trie Slots Arena.
From PT Require TrieWf.
Import ListNotations.

Section AT.
Variables (pfx V : Type).

Notation tree := (Trie.tree pfx V).
Notation pmap := (Trie.pmap pfx V).
Notation anode := (Arena.anode pfx V).
Notation amap := (Arena.amap pfx V).
Notation ids := (Slots.ids pfx V).
Notation minv := (Slots.minv pfx V).
Notation slots_ok := (Slots.slots_ok pfx V).
Notation with_child := (Trie.with_child pfx V).
Notation remove_self := (Trie.remove_self pfx V).
Notation absorb := (Trie.absorb pfx V).

Notation rd := (Arena.rd pfx V).
Notation wr := (Arena.wr pfx V).
Notation child_of := (Arena.child_of pfx V).
Notation with_link := (Arena.with_link pfx V).
Notation get_child := (Arena.get_child pfx V).
Notation set_child := (Arena.set_child pfx V).
Notation clear_child := (Arena.clear_child pfx V).
Notation a_new_node := (Arena.a_new_node pfx V).
Notation a_remove_node := (Arena.a_remove_node pfx V).
Notation a_iter := (Arena.a_iter pfx V).
Notation a_entries := (Arena.a_entries pfx V).

Definition slot (tb : list anode) (i : N) : option anode := nth_error tb (N.to_nat i).

Lemma upd_length {A} (l : list A) : forall n x, length (upd l n x) = length l.
Proof. induction l as [|h t IH]; intros [|n] x; cbn; auto. Qed.

Lemma nth_error_upd {A} (l : list A) : forall n m x,
  nth_error (upd l n x) m
  = if Nat.eqb n m then (match nth_error l n with Some _ => Some x | None => None end)
    else nth_error l m.
Proof.
  induction l as [|h t IH]; intros [|n] [|m] x; cbn [upd nth_error Nat.eqb]; auto;
    destruct (Nat.eqb _ _); reflexivity.
Qed.

Lemma slot_upd_eq tb i n n0 : slot tb i = Some n0 -> slot (upd tb (N.to_nat i) n) i = Some n.
Proof. unfold slot. intros H. rewrite nth_error_upd, Nat.eqb_refl, H. reflexivity. Qed.

Lemma slot_upd_neq tb i j n : i <> j -> slot (upd tb (N.to_nat i) n) j = slot tb j.
Proof.
  unfold slot. intros H. rewrite nth_error_upd.
  destruct (Nat.eqb_spec (N.to_nat i) (N.to_nat j)) as [E|E]; [|reflexivity].
  exfalso. apply H. lia.
Qed.

Lemma slot_lt tb i : (exists n, slot tb i = Some n) <-> (i < N.of_nat (length tb))%N.
Proof.
  unfold slot. split.
  - intros [n H]. assert (nth_error tb (N.to_nat i) <> None) as H' by congruence.
    apply nth_error_Some in H'. lia.
  - intros H. destruct (nth_error tb (N.to_nat i)) eqn:E; [eauto|].
    apply nth_error_None in E. lia.
Qed.

Lemma slot_app_old tb i x : (i < N.of_nat (length tb))%N -> slot (tb ++ [x]) i = slot tb i.
Proof. unfold slot. intros H. apply nth_error_app1. lia. Qed.

Lemma slot_app_new tb x : slot (tb ++ [x]) (N.of_nat (length tb)) = Some x.
Proof. unfold slot. rewrite nth_error_app2 by lia. rewrite Nat2N.id, Nat.sub_diag. reflexivity. Qed.

Lemma rd_ok tb i n : slot tb i = Some n -> rd tb i = Ok n.
Proof. unfold slot, Arena.rd. intros ->. reflexivity. Qed.

Lemma wr_ok {tb i} n {n0} : slot tb i = Some n0 -> wr tb i n = Ok (upd tb (N.to_nat i) n).
Proof. unfold slot, Arena.wr. intros ->. reflexivity. Qed.

Lemma get_child_ok {tb i n} rt : slot tb i = Some n -> get_child tb i rt = Ok (child_of n rt).
Proof. intros H. unfold Arena.get_child. rewrite (rd_ok _ _ _ H). reflexivity. Qed.

Lemma set_child_ok {tb i n} c rt : slot tb i = Some n ->
  set_child tb i c rt = Ok (upd tb (N.to_nat i) (with_link n rt (Some c)), child_of n rt).
Proof.
  intros H. unfold Arena.set_child. rewrite (rd_ok _ _ _ H). cbn [rbind].
  rewrite (wr_ok _ H). reflexivity.
Qed.

Lemma clear_child_ok {tb i n} rt : slot tb i = Some n ->
  clear_child tb i rt = Ok (upd tb (N.to_nat i) (with_link n rt None), child_of n rt).
Proof.
  intros H. unfold Arena.clear_child. rewrite (rd_ok _ _ _ H). cbn [rbind].
  rewrite (wr_ok _ H). reflexivity.
Qed.

Lemma child_with_link_same n rt o : child_of (with_link n rt o) rt = o.
Proof. destruct rt; reflexivity. Qed.
Lemma child_with_link_other n rt o : child_of (with_link n rt o) (negb rt) = child_of n (negb rt).
Proof. destruct rt; reflexivity. Qed.
Lemma npfx_with_link n rt o : npfx (with_link n rt o) = npfx n.
Proof. destruct rt; reflexivity. Qed.
Lemma nval_with_link n rt o : nval (with_link n rt o) = nval n.
Proof. destruct rt; reflexivity. Qed.
Lemma with_link_id n rt : with_link n rt (child_of n rt) = n.
Proof. destruct n, rt; reflexivity. Qed.

Inductive rep (tb : list anode) : option N -> tree -> Prop :=
| rep_leaf : rep tb None Leaf
| rep_node i p v l r ol orr :
    slot tb i = Some (mkanode p v ol orr) -> rep tb ol l -> rep tb orr r ->
    rep tb (Some i) (Node i p v l r).

Definition link (t : tree) : option N :=
  match t with Leaf => None | Node i _ _ _ _ => Some i end.

(** the arena [am] represents the map [m]: the root's tree at slot 0, the same free list in the same
    order, table length = [alen], the same counter *)
Definition Rep (am : amap) (m : pmap) : Prop :=
  rep (tbl am) (Some 0%N) (root m) /\ afree am = free (al m) /\
  N.of_nat (length (tbl am)) = alen (al m) /\ acount am = count (al m).

Lemma rep_link tb o t : rep tb o t -> o = link t.
Proof. intros H. destruct H; reflexivity. Qed.

Lemma rep_node_inv tb o i p v l r : rep tb o (Node i p v l r) ->
  o = Some i /\ slot tb i = Some (mkanode p v (link l) (link r)) /\
  rep tb (link l) l /\ rep tb (link r) r.
Proof.
  intros H. inversion H; subst.
  match goal with H1 : rep tb ?a l, H2 : rep tb ?b r |- _ =>
    pose proof (rep_link _ _ _ H1); pose proof (rep_link _ _ _ H2); subst a b end.
  auto.
Qed.

Lemma rep_some_inv tb i t : rep tb (Some i) t -> exists p v l r, t = Node i p v l r.
Proof. intros H. inversion H; subst. eauto. Qed.

Lemma rep_node_intro tb i p v l r :
  slot tb i = Some (mkanode p v (link l) (link r)) -> rep tb (link l) l -> rep tb (link r) r ->
  rep tb (Some i) (Node i p v l r).
Proof. intros. econstructor; eauto. Qed.

(** the node seen along a direction [rt]: [c] is the child on that side, [s] the sibling *)
Definition csel (rt : bool) (l r : tree) : tree := if rt then r else l.
Definition ssel (rt : bool) (l r : tree) : tree := if rt then l else r.

Lemma link_with_child i p v l r rt c : link (with_child i p v l r rt c) = Some i.
Proof. destruct rt; reflexivity. Qed.

Lemma with_child_csel i p v l r rt : with_child i p v l r rt (csel rt l r) = Node i p v l r.
Proof. destruct rt; reflexivity. Qed.

Lemma rep_node_rt {tb o i p v l r} (rt : bool) : rep tb o (Node i p v l r) ->
  exists n, slot tb i = Some n /\ npfx n = p /\ nval n = v /\
            child_of n rt = link (csel rt l r) /\ child_of n (negb rt) = link (ssel rt l r) /\
            rep tb (link (csel rt l r)) (csel rt l r) /\ rep tb (link (ssel rt l r)) (ssel rt l r).
Proof.
  intros H. apply rep_node_inv in H. destruct H as (_ & Hs & L & R).
  eexists. split; [exact Hs|]. destruct rt; cbn; auto 10.
Qed.

Lemma rep_with_child tb i n p v l r (rt : bool) c :
  slot tb i = Some n -> npfx n = p -> nval n = v ->
  child_of n rt = link c -> child_of n (negb rt) = link (ssel rt l r) ->
  rep tb (link c) c -> rep tb (link (ssel rt l r)) (ssel rt l r) ->
  rep tb (Some i) (with_child i p v l r rt c).
Proof.
  destruct n as [np nv nl nr]. cbn [npfx nval]. intros Hs -> -> C1 C2 R1 R2.
  unfold Trie.with_child. destruct rt; cbn in *; subst; apply rep_node_intro; assumption.
Qed.

Lemma rep_ext tb tb' o t :
  rep tb o t -> (forall j, In j (ids t) -> slot tb' j = slot tb j) -> rep tb' o t.
Proof.
  intros H. induction H as [|i p v l r ol orr Hs Hl IHl Hr IHr]; intros E.
  - constructor.
  - econstructor.
    + rewrite E; [exact Hs|]. cbn. auto.
    + apply IHl. intros j Hj. apply E. cbn. right. apply in_or_app. auto.
    + apply IHr. intros j Hj. apply E. cbn. right. apply in_or_app. auto.
Qed.

Lemma rep_upd tb o t j n : rep tb o t -> ~ In j (ids t) -> rep (upd tb (N.to_nat j) n) o t.
Proof.
  intros H NI. eapply rep_ext; [exact H|]. intros k Hk. apply slot_upd_neq.
  intros ->. contradiction.
Qed.

Lemma rep_bounds tb o t : rep tb o t -> forall j, In j (ids t) -> (j < N.of_nat (length tb))%N.
Proof.
  intros H. induction H as [|i p v l r ol orr Hs Hl IHl Hr IHr]; intros j Hj.
  - destruct Hj.
  - cbn in Hj. destruct Hj as [<-|Hj]; [apply slot_lt; eauto|].
    apply in_app_or in Hj. destruct Hj; auto.
Qed.

Lemma rep_app tb o t x : rep tb o t -> rep (tb ++ [x]) o t.
Proof.
  intros H. eapply rep_ext; [exact H|]. intros j Hj. apply slot_app_old. eapply rep_bounds; eassumption.
Qed.

Lemma ids_node_rt i p v l r (rt : bool) :
  forall j, In j (ids (Node i p v l r)) <-> j = i \/ In j (ids (csel rt l r)) \/ In j (ids (ssel rt l r)).
Proof.
  intros j. cbn [Slots.ids In]. rewrite in_app_iff.
  destruct rt; cbn [csel ssel]; intuition.
Qed.

Lemma nodup_node_rt {i p v l r} (rt : bool) : NoDup (ids (Node i p v l r)) ->
  ~ In i (ids (csel rt l r)) /\ ~ In i (ids (ssel rt l r)) /\
  NoDup (ids (csel rt l r)) /\ NoDup (ids (ssel rt l r)) /\
  (forall j, In j (ids (csel rt l r)) -> ~ In j (ids (ssel rt l r))).
Proof.
  cbn [Slots.ids]. intros H. inversion H as [|? ? NI ND]; subst.
  rewrite in_app_iff in NI.
  destruct (TrieWf.nodup_app_inv _ _ ND) as (NDl & NDr & D).
  destruct rt; cbn [csel ssel]; repeat split; auto.
  intros j Hr Hl. exact (D j Hl Hr).
Qed.

Lemma rep_set_root {tb i p v l r} p' v' :
  rep tb (Some i) (Node i p v l r) -> NoDup (ids (Node i p v l r)) ->
  rep (upd tb (N.to_nat i) (mkanode p' v' (link l) (link r))) (Some i) (Node i p' v' l r).
Proof.
  intros R ND. apply rep_node_inv in R. destruct R as (_ & Hs & Rl & Rr).
  destruct (nodup_node_rt false ND) as (NIl & NIr & _).
  apply rep_node_intro; [eapply slot_upd_eq; exact Hs|apply rep_upd; assumption..].
Qed.

Lemma rep_relink tb tb' i p v l r rt n c' :
  rep tb (Some i) (Node i p v l r) -> slot tb i = Some n ->
  slot tb' i = Some (with_link n rt (link c')) -> rep tb' (link c') c' ->
  (forall j, In j (ids (ssel rt l r)) -> slot tb' j = slot tb j) ->
  rep tb' (Some i) (with_child i p v l r rt c').
Proof.
  intros R Hn Hs' Rc' F.
  destruct (rep_node_rt rt R) as (n0 & Hs & Hp & Hv & _ & Hsib & _ & Rs).
  rewrite Hn in Hs. injection Hs as <-. apply (rep_ext _ tb') in Rs; [|exact F].
  destruct n as [np nv nl nr]. unfold Trie.with_child.
  destruct rt; cbn in *; subst; apply rep_node_intro; assumption.
Qed.

Lemma rep_child_frame tb tb' i p v l r rt c' :
  rep tb (Some i) (Node i p v l r) -> NoDup (ids (Node i p v l r)) ->
  rep tb' (link (csel rt l r)) c' ->
  (forall j, In j (ids (Node i p v l r)) -> ~ In j (ids (csel rt l r)) -> slot tb' j = slot tb j) ->
  rep tb' (Some i) (with_child i p v l r rt c').
Proof.
  intros R ND Rc' F.
  destruct (rep_node_rt rt R) as (n & Hs & _ & _ & Hc & _).
  destruct (nodup_node_rt rt ND) as (NIc & _ & _ & _ & Dcs).
  pose proof (rep_link _ _ _ Rc') as E.
  apply rep_relink with (tb := tb) (n := n); [exact R|exact Hs| |rewrite <- E; exact Rc'|].
  - rewrite <- E, <- Hc, with_link_id, <- Hs. apply F; [cbn; auto|exact NIc].
  - intros j Hj. apply F; [apply (ids_node_rt i p v l r rt); auto|].
    intros Hjc. exact (Dcs j Hjc Hj).
Qed.

(** the fuel a descent needs.  [HistoryExtra.depth] is the same function; of a well-formed map it
    is at most the width + 1 ([HistoryExtra.wf_root_depth]) *)
Fixpoint height (t : tree) : nat :=
  match t with Leaf => 0 | Node _ _ _ l r => S (Nat.max (height l) (height r)) end.

Lemma height_le_ids t : (height t <= length (ids t))%nat.
Proof.
  induction t as [|i p v l IHl r IHr]; cbn [height Slots.ids length]; [lia|].
  rewrite app_length. lia.
Qed.

Lemma height_child rt {i p v l r f} :
  (height (Node i p v l r) <= S f)%nat -> (height (csel rt l r) <= f)%nat.
Proof. destruct rt; cbn [csel height]; lia. Qed.

Lemma with_link_twice (n : anode) rt o1 o2 : with_link (with_link n rt o1) rt o2 = with_link n rt o2.
Proof. destruct n, rt; reflexivity. Qed.

(** [t'] is made of slots of [t], each at most once if so in [t] *)
Definition within (t' t : tree) : Prop :=
  incl (ids t') (ids t) /\ (NoDup (ids t) -> NoDup (ids t')).

Lemma within_refl t : within t t.
Proof. split; [apply incl_refl|auto]. Qed.
Lemma within_trans t1 t2 t3 : within t1 t2 -> within t2 t3 -> within t1 t3.
Proof. intros (A1 & A2) (B1 & B2). split; [eapply incl_tran; eauto|auto]. Qed.
Lemma within_leaf t : within Leaf t.
Proof. split; [intros j []|intros _; constructor]. Qed.

Lemma within_wc i p v l r rt x : within x (csel rt l r) -> within (with_child i p v l r rt x) (Node i p v l r).
Proof.
  intros (A & B). split.
  - intros j Hj. apply (ids_node_rt i p v l r rt).
    destruct rt; cbn [Trie.with_child Slots.ids In csel ssel] in *; rewrite in_app_iff in Hj; intuition.
  - intros ND. destruct (nodup_node_rt rt ND) as (NIc & NIs & NDc & NDs & Dcs).
    assert (NIx : ~ In i (ids x)) by (intros H; apply NIc; auto).
    destruct rt; cbn [Trie.with_child Slots.ids csel ssel] in *;
      (constructor; [rewrite in_app_iff; tauto|apply TrieWf.nodup_app_intro; auto]).
    intros j Hl Hx. exact (Dcs j (A j Hx) Hl).
Qed.

Lemma within_csel i p v l r rt : within (csel rt l r) (Node i p v l r).
Proof.
  split.
  - intros j Hj. apply (ids_node_rt i p v l r rt). auto.
  - intros ND. apply (nodup_node_rt rt ND).
Qed.
Lemma within_ssel i p v l r rt : within (ssel rt l r) (Node i p v l r).
Proof. destruct rt; [exact (within_csel i p v l r false)|exact (within_csel i p v l r true)]. Qed.

Lemma within_node i p v v' l r l' r' : within l' l -> within r' r -> within (Node i p v' l' r') (Node i p v l r).
Proof.
  intros Hl Hr. apply within_trans with (Node i p v' l' r).
  - exact (within_wc i p v' l' r true r' Hr).
  - exact (within_wc i p v l r false l' Hl).
Qed.

(** * The position of a node, and what a removal may do there
    [_remove_node], the loop of [remove] and the frames of [_retain] are specified relative to the
    node they run at.  Of what lies above the node they are given two slots: its holder [h] (the slot
    that links to it, on side [hr]) and the holder's holder [g]; the root has none. *)

(** the slot [h] links to [T] on side [hr], holds the value [hv] and lies outside [T] *)
Definition hangs (tb : list anode) (h : option N) (hr : bool) (hv : option V) (T : tree) : Prop :=
  match h with
  | None => True
  | Some hi => exists hn, slot tb hi = Some hn /\ nval hn = hv /\ child_of hn hr = link T /\ ~ In hi (ids T)
  end.

(** the slot [g] links to the holder [h] on side [gr], differs from it and lies outside [T]; vacuous
    unless both exist *)
Definition ghangs (tb : list anode) (h g : option N) (gr : bool) (T : tree) : Prop :=
  match h, g with
  | Some hi, Some gi =>
    exists gn, slot tb gi = Some gn /\ child_of gn gr = Some hi /\ ~ In gi (ids T) /\ gi <> hi
  | _, _ => True
  end.

Definition hung (tb : list anode) (h : option N) (hr : bool) (hv : option V) (g : option N) (gr : bool)
           (T : tree) : Prop :=
  rep tb (link T) T /\ NoDup (ids T) /\ hangs tb h hr hv T /\ ghangs tb h g gr T.

(** in [tb'] the tree [T'] stands where [T] stood in [tb]: the holder's link has been redirected to it
    (a root keeps its slot) and nothing outside [T] and the holder's slot was written *)
Definition swap (tb tb' : list anode) (h : option N) (hr : bool) (T T' : tree) : Prop :=
  length tb' = length tb /\ rep tb' (link T') T' /\ within T' T /\
  match h with
  | None => link T' = link T
  | Some hi => exists hn, slot tb hi = Some hn /\ slot tb' hi = Some (with_link hn hr (link T'))
  end /\
  (forall j, ~ In j (ids T) -> h <> Some j -> slot tb' j = slot tb j).

(** what a removal at [T] leaves: a [swap], unless ([coll]) [T] was unlinked as a leaf and its
    value-less holder, having a holder of its own, went with it.  The tree model does that one frame
    higher ([Trie.absorb]); the arena has by then redirected [g]'s link to the sibling, the holder's
    slot stays behind with its empty value and its link to the sibling, and [flag] (the result of
    [_remove_node]) tells whether there was a sibling.  In the collapse case [T'] is not constrained:
    the tree model returns [Leaf] there and its caller, [absorb], discards it *)
Definition npost (tb tb' : list anode) (h : option N) (hr : bool) (g : option N) (gr : bool)
           (T T' : tree) (coll flag : bool) : Prop :=
  if coll then
    exists hi hn gi gn, h = Some hi /\ g = Some gi /\ slot tb hi = Some hn /\ slot tb gi = Some gn /\
      length tb' = length tb /\
      slot tb' hi = Some (with_link hn hr None) /\
      slot tb' gi = Some (with_link gn gr (child_of hn (negb hr))) /\
      flag = is_some (child_of hn (negb hr)) /\
      (forall j, ~ In j (ids T) -> j <> hi -> j <> gi -> slot tb' j = slot tb j)
  else swap tb tb' h hr T T' /\ flag = false.

(** the arena's free list is then ahead of the tree's by the holder's slot *)
Definition ahead (coll : bool) (h : option N) (a : alloc) : alloc :=
  match coll, h with true, Some hi => push_free hi a | _, _ => a end.

Lemma ahead_none coll a : ahead coll None a = a.
Proof. destruct coll; reflexivity. Qed.

Lemma swap_refl {tb h hr hv g gr T} : hung tb h hr hv g gr T -> swap tb tb h hr T T.
Proof.
  intros (R & _ & H & _). split; [reflexivity|]. split; [exact R|]. split; [apply within_refl|]. split; [|auto].
  destruct h as [hi|]; [|reflexivity]. destruct H as (hn & Hn & _ & Hc & _).
  exists hn. rewrite <- Hc, with_link_id. auto.
Qed.

(** a change inside [T] that keeps its root slot *)
Lemma swap_inplace {tb tb' h hr hv g gr T T'} :
  hung tb h hr hv g gr T -> length tb' = length tb -> rep tb' (link T') T' -> within T' T -> link T' = link T ->
  (forall j, ~ In j (ids T) -> slot tb' j = slot tb j) -> swap tb tb' h hr T T'.
Proof.
  intros (_ & _ & H & _) L R' S E F. split; [exact L|]. split; [exact R'|]. split; [exact S|]. split; [|auto].
  destruct h as [hi|]; [|exact E]. destruct H as (hn & Hn & _ & Hc & NI).
  exists hn. rewrite E, <- Hc, with_link_id, (F hi NI). auto.
Qed.

Lemma swap_hung {tb tb' h hr hv g gr T T'} :
  hung tb h hr hv g gr T -> swap tb tb' h hr T T' -> hung tb' h hr hv g gr T'.
Proof.
  intros (_ & ND & H & G) (_ & R' & (SI & SN) & K & F).
  split; [exact R'|]. split; [exact (SN ND)|]. split.
  - destruct h as [hi|]; [|exact I]. destruct H as (hn & Hn & Hv & _ & NI). destruct K as (hn' & Hn' & K).
    rewrite Hn in Hn'. injection Hn' as <-.
    exists (with_link hn hr (link T')). rewrite nval_with_link, child_with_link_same.
    split; [exact K|]. split; [exact Hv|]. split; [reflexivity|]. intros X. apply NI. apply SI. exact X.
  - destruct h as [hi|]; [|exact I]. destruct g as [gi|]; [|exact I]. destruct G as (gn & Hg & Gc & NI & Ngh).
    exists gn. rewrite F by (auto; congruence). split; [exact Hg|]. split; [exact Gc|]. split; [|exact Ngh].
    intros X. apply NI. apply SI. exact X.
Qed.

Lemma hung_child {tb h hr hv g gr i p v l r} (rt : bool) :
  hung tb h hr hv g gr (Node i p v l r) -> hung tb (Some i) rt v h hr (csel rt l r).
Proof.
  intros (R & ND & H & _).
  destruct (rep_node_rt rt R) as (n & Hs & _ & Hv & Hc & _ & Rc & _).
  destruct (nodup_node_rt rt ND) as (NIc & _ & NDc & _).
  split; [exact Rc|]. split; [exact NDc|]. split; [exists n; auto|].
  destruct h as [hi|]; [|exact I]. destruct H as (hn & Hn & _ & Hl & NI).
  exists hn. split; [exact Hn|]. split; [exact Hl|]. split.
  - intros X. apply NI. apply (ids_node_rt i p v l r rt). auto.
  - intros ->. apply NI. cbn. auto.
Qed.

Lemma swap_lift {tb tb' h hr hv g gr i p v l r} rt c' :
  hung tb h hr hv g gr (Node i p v l r) -> swap tb tb' (Some i) rt (csel rt l r) c' ->
  swap tb tb' h hr (Node i p v l r) (with_child i p v l r rt c').
Proof.
  intros HU (L & Rc' & S & (n & Hn & Hn') & F). pose proof HU as (R & ND & _).
  destruct (nodup_node_rt rt ND) as (_ & NIs & _ & _ & Dcs).
  apply (swap_inplace HU L).
  - rewrite link_with_child. apply (rep_relink tb tb' i p v l r rt n c' R Hn Hn' Rc').
    intros j Hj. apply F; [intros X; exact (Dcs j X Hj)|]. intros [= ->]. contradiction.
  - apply within_wc. exact S.
  - apply link_with_child.
  - intros j Hj. apply F.
    + intros X. apply Hj. apply (ids_node_rt i p v l r rt). auto.
    + intros [= ->]. apply Hj. cbn. auto.
Qed.

Lemma swap_trans {tb tb1 tb2 h hr T T1 T2} :
  swap tb tb1 h hr T T1 -> swap tb1 tb2 h hr T1 T2 -> swap tb tb2 h hr T T2.
Proof.
  intros (L1 & _ & S1 & K1 & F1) (L2 & R2 & S2 & K2 & F2).
  split; [congruence|]. split; [exact R2|]. split; [exact (within_trans _ _ _ S2 S1)|]. split.
  - destruct h as [hi|]; [|congruence].
    destruct K1 as (hn & Hn & Hn1). destruct K2 as (hn1 & Hn1' & Hn2).
    rewrite Hn1 in Hn1'. injection Hn1' as <-. rewrite with_link_twice in Hn2. eauto.
  - intros j Hj Hh. rewrite F2; [apply F1; assumption| |exact Hh].
    intros X. apply Hj. apply S1. exact X.
Qed.

(** the collapse of [Node i p v l r], reported by the frame of its child on side [rt], is a [swap] of
    the node for its other child; the node's slot stays readable *)
Lemma coll_lift {tb tb' h hr hv g gr i p v l r} rt {flag c'} :
  hung tb h hr hv g gr (Node i p v l r) ->
  npost tb tb' (Some i) rt h hr (csel rt l r) c' true flag ->
  swap tb tb' h hr (Node i p v l r) (ssel rt l r) /\ flag = is_node (ssel rt l r) /\
  exists n, slot tb' i = Some n /\ nval n = v /\ child_of n (negb rt) = link (ssel rt l r).
Proof.
  intros (R & ND & H & _) (i' & n & hi & hn & [= <-] & -> & Hn & Hh & L & Hn' & Hh' & -> & F).
  destruct (rep_node_rt rt R) as (n0 & Hn0 & _ & Hv & _ & Hs & _ & Rs).
  rewrite Hn in Hn0. injection Hn0 as <-. rewrite Hs in *.
  destruct (nodup_node_rt rt ND) as (_ & NIs & _ & _ & Dcs).
  destruct H as (hn0 & Hh0 & _ & _ & NI). rewrite Hh in Hh0. injection Hh0 as <-.
  split; [|split].
  - split; [exact L|]. split.
    { eapply rep_ext; [exact Rs|]. intros j Hj. apply F.
      - intros X. exact (Dcs j X Hj).
      - intros ->. contradiction.
      - intros ->. apply NI. apply (ids_node_rt i p v l r rt). auto. }
    split; [apply within_ssel|]. split; [exists hn; split; [exact Hh|exact Hh']|].
    intros j Hj Hh1. apply F.
    + intros X. apply Hj. apply (ids_node_rt i p v l r rt). auto.
    + intros ->. apply Hj. cbn. auto.
    + congruence.
  - destruct (ssel rt l r); reflexivity.
  - exists (with_link n rt None). split; [exact Hn'|]. rewrite nval_with_link, child_with_link_other. auto.
Qed.

Lemma npost_trans {tb tb1 tb2 h hr hv g gr T T1 T2 coll flag} :
  hung tb h hr hv g gr T -> swap tb tb1 h hr T T1 -> npost tb1 tb2 h hr g gr T1 T2 coll flag ->
  npost tb tb2 h hr g gr T T2 coll flag.
Proof.
  intros HU SW NP. destruct coll; cbn [npost] in *.
  2:{ destruct NP as (SW2 & ->). split; [exact (swap_trans SW SW2)|reflexivity]. }
  destruct NP as (hi & hn1 & gi & gn & -> & -> & Hn1 & Hg1 & L2 & Hn2 & Hg2 & -> & F2).
  destruct HU as (_ & _ & _ & (gn0 & Hg & _ & NIg & Ngh)).
  destruct SW as (L1 & _ & (SI & _) & (hn & Hn & Hn1') & F1).
  rewrite Hn1 in Hn1'. injection Hn1' as ->.
  rewrite F1 in Hg1 by (auto; congruence). rewrite Hg in Hg1. injection Hg1 as <-.
  rewrite with_link_twice in Hn2. rewrite child_with_link_other in Hg2 |- *.
  (* [Hn2] and [Hg2] are the two slot clauses of [tb2]; the other six are hypotheses as they stand *)
  exists hi, hn, gi, gn0. repeat (split; [first [reflexivity|assumption|congruence]|]).
  intros j Hj Njh Njg. rewrite F2; [apply F1; [exact Hj|congruence]| |exact Njh|exact Njg].
  intros X. apply Hj. apply SI. exact X.
Qed.

Lemma npost_frame {tb tb' h hr g gr T T' coll flag} j :
  npost tb tb' h hr g gr T T' coll flag -> ~ In j (ids T) -> h <> Some j -> g <> Some j ->
  slot tb' j = slot tb j.
Proof.
  destruct coll; cbn [npost].
  - intros (hi & hn & gi & gn & -> & -> & _ & _ & _ & _ & _ & _ & F) Hj Nh Ng. apply F; congruence.
  - intros ((_ & _ & _ & _ & F) & _) Hj Nh _. apply F; assumption.
Qed.

Lemma hung_off {tb h hr hv g gr T} j :
  hung tb h hr hv g gr T -> is_some h = true -> In j (ids T) -> h <> Some j /\ g <> Some j.
Proof.
  intros (_ & _ & H & G) B Hj. destruct h as [hi|]; [clear B|discriminate].
  destruct H as (_ & _ & _ & _ & NI). split; [intros [= ->]; contradiction|].
  destruct g as [gi|]; [|discriminate]. destruct G as (_ & _ & _ & NIg & _). intros [= ->]. contradiction.
Qed.

Lemma dec_count_eq (cv : option V) fr al cnt :
  mkalloc fr al (if is_some cv then (cnt - 1)%Z else cnt) = Trie.dec_if cv (mkalloc fr al cnt).
Proof. destruct cv; reflexivity. Qed.

(** [_remove_node] at a node in any position *)
Lemma remove_node_sim tb fr al cnt h hr hv g gr i p v l r :
  hung tb h hr hv g gr (Node i p v l r) ->
  forall t' fl a1, remove_self (is_some h) i p v l r (mkalloc fr al cnt) = (t', fl, a1) ->
  let coll := fl && (is_some g && is_none hv) in
  exists tb' flag,
    a_remove_node (mkamap tb fr cnt) i h hr g gr
    = Ok (mkamap tb' (free (ahead coll h a1)) (count a1), v, flag) /\
    npost tb tb' h hr g gr (Node i p v l r) t' coll flag.
Proof.
  intros HU t' fl a1 RS coll. subst coll. pose proof HU as (R & ND & H & G).
  pose proof (rep_node_inv _ _ _ _ _ _ _ R) as (_ & Hs & Rl & Rr).
  unfold Arena.a_remove_node. cbn [tbl afree acount].
  rewrite (rd_ok _ _ _ Hs). cbn [rbind]. rewrite (wr_ok _ Hs). cbn [rbind nval nleft nright npfx].
  set (n0 := mkanode p None (link l) (link r)).
  set (tb0 := upd tb (N.to_nat i) n0).
  assert (L0 : length tb0 = length tb) by apply upd_length.
  assert (F0 : forall j, j <> i -> slot tb0 j = slot tb j) by (intros j Hj; apply slot_upd_neq; congruence).
  (* the node stays, without its value *)
  assert (STAY : npost tb tb0 h hr g gr (Node i p v l r) (Node i p None l r) false false).
  { split; [|reflexivity]. apply (swap_inplace HU L0).
    - exact (rep_set_root _ _ R ND).
    - apply within_node; apply within_refl.
    - reflexivity.
    - intros j Hj. apply F0. intros ->. apply Hj. cbn. auto. }
  unfold Trie.remove_self in RS. rewrite <- (dec_count_eq v fr al cnt) in RS.
  destruct h as [hi|]; cbn [is_some is_none negb] in RS.
  2:{ (* no holder: at the root nothing is unlinked *)
    exists tb0, false.
    assert (E : (t', fl, a1) = (Node i p None l r, false, mkalloc fr al (if is_some v then (cnt - 1)%Z else cnt))).
    { destruct l, r; cbn [Trie.is_node] in RS; congruence. }
    injection E as -> -> ->. cbn [andb ahead free count alen].
    split; [destruct l, r; reflexivity|exact STAY]. }
  destruct H as (hn & Hh & Hv & Hc & NI). cbn [link] in Hc.
  assert (Nhi : hi <> i) by (intros ->; apply NI; cbn; auto).
  assert (S0h : slot tb0 hi = Some hn) by (rewrite F0; assumption).
  (* the holder's link is redirected to a child [d] of the node, whose own slot may have been written again *)
  assert (BYPASS : forall x (sd : bool),
            let tb2 := upd (upd tb0 (N.to_nat i) x) (N.to_nat hi) (with_link hn hr (link (csel sd l r))) in
            slot (upd tb0 (N.to_nat i) x) hi = Some hn /\
            npost tb tb2 (Some hi) hr g gr (Node i p v l r) (csel sd l r) false false).
  { intros x sd tb2.
    assert (S1h : slot (upd tb0 (N.to_nat i) x) hi = Some hn) by (rewrite slot_upd_neq by congruence; exact S0h).
    split; [exact S1h|]. split; [|reflexivity].
    assert (F2 : forall j, j <> i -> j <> hi -> slot tb2 j = slot tb j).
    { intros j Nji Njh. unfold tb2. rewrite !slot_upd_neq by congruence. apply F0. exact Nji. }
    destruct (rep_node_rt sd R) as (_ & _ & _ & _ & _ & _ & Rd & _).
    destruct (nodup_node_rt sd ND) as (NId & _).
    split; [unfold tb2; rewrite !upd_length; exact L0|]. split; [|split; [apply within_csel|split]].
    - eapply rep_ext; [exact Rd|]. intros j Hj. apply F2; intros ->; [contradiction|].
      apply NI. apply (ids_node_rt i p v l r sd). auto.
    - exists hn. split; [exact Hh|]. unfold tb2. eapply slot_upd_eq; exact S1h.
    - intros j Hj Nh. apply F2; [|congruence]. intros ->. apply Hj. cbn. auto. }
  destruct l as [|li lp lv ll lr], r as [|ri rp rv rl rr];
    cbn [Trie.is_node link is_some is_none negb andb orb] in RS |- *; injection RS as <- <- <-;
    cbn [andb ahead free count alen Trie.push_free].
  - (* a leaf: the holder's link is cleared *)
    rewrite (clear_child_ok _ S0h). cbn [rbind].
    set (hn1 := with_link hn hr None).
    set (tb1 := upd tb0 (N.to_nat hi) hn1).
    assert (S1h : slot tb1 hi = Some hn1) by (unfold tb1; eapply slot_upd_eq; exact S0h).
    assert (F1 : forall j, j <> i -> j <> hi -> slot tb1 j = slot tb j).
    { intros j Nji Njh. unfold tb1. rewrite slot_upd_neq by congruence. apply F0. exact Nji. }
    assert (L1 : length tb1 = length tb) by (unfold tb1; rewrite upd_length; exact L0).
    assert (GONE : npost tb tb1 (Some hi) hr g gr (Node i p v Leaf Leaf) Leaf false false).
    { split; [|reflexivity]. split; [exact L1|]. split; [constructor|]. split; [apply within_leaf|]. split; [eauto|].
      intros j Hj Nh. apply F1; [|congruence]. intros ->. apply Hj. cbn. auto. }
    destruct g as [gi|]; cbn [is_some is_none negb andb ahead].
    2:{ exists tb1, false. auto. }
    rewrite (rd_ok _ _ _ S1h). cbn [rbind]. unfold hn1 at 1. rewrite nval_with_link, Hv.
    destruct hv as [y|]; cbn [is_none is_some negb andb ahead].
    { exists tb1, false. auto. }
    (* the holder goes as well: its own holder's link is redirected to the sibling *)
    destruct G as (gn & Hg & _ & NIg & Ngh).
    assert (Ngi : gi <> i) by (intros ->; apply NIg; cbn; auto).
    assert (S1g : slot tb1 gi = Some gn) by (rewrite F1; assumption).
    rewrite (get_child_ok _ S1h). cbn [rbind]. unfold hn1 at 1. rewrite child_with_link_other.
    assert (COLL : forall o, o = child_of hn (negb hr) ->
              npost tb (upd tb1 (N.to_nat gi) (with_link gn gr o)) (Some hi) hr (Some gi) gr
                    (Node i p v Leaf Leaf) Leaf true (is_some o)).
    { intros o ->. exists hi, hn, gi, gn. repeat (split; [first [reflexivity|assumption]|]).
      split; [rewrite upd_length; exact L1|].
      split; [rewrite slot_upd_neq by exact Ngh; exact S1h|].
      split; [eapply slot_upd_eq; exact S1g|]. split; [reflexivity|].
      intros j Hj Njh Njg. rewrite slot_upd_neq by congruence. apply F1; [|exact Njh].
      intros ->. apply Hj. cbn. auto. }
    destruct (child_of hn (negb hr)) as [s|] eqn:SB.
    + rewrite (set_child_ok _ _ S1g). cbn [rbind]. eexists _, _. split; [reflexivity|exact (COLL (Some s) eq_refl)].
    + rewrite (clear_child_ok _ S1g). cbn [rbind]. eexists _, _. split; [reflexivity|exact (COLL None eq_refl)].
  - (* only a right child *)
    assert (S0 : slot tb0 i = Some n0) by (unfold tb0; eapply slot_upd_eq; exact Hs).
    rewrite (clear_child_ok _ S0). cbn [rbind]. change (child_of n0 true) with (Some ri). cbn [unwrap rbind].
    destruct (BYPASS (with_link n0 true None) true) as (S1h & NP).
    rewrite (set_child_ok _ _ S1h). cbn [rbind]. eexists _, false. auto.
  - (* only a left child *)
    assert (S0 : slot tb0 i = Some n0) by (unfold tb0; eapply slot_upd_eq; exact Hs).
    rewrite (clear_child_ok _ S0). cbn [rbind]. change (child_of n0 false) with (Some li). cbn [unwrap rbind].
    destruct (BYPASS (with_link n0 false None) false) as (S1h & NP).
    rewrite (set_child_ok _ _ S1h). cbn [rbind]. eexists _, false. auto.
  - (* two children *)
    exists tb0, false. auto.
Qed.

Section Ops.
Variables (peq contains : pfx -> pfx -> bool) (is_bit_set : pfx -> N -> bool)
          (plen : pfx -> N) (lcp : pfx -> pfx -> pfx) (pzero : pfx).

Notation to_right := (Trie.to_right pfx is_bit_set plen).
Notation get := (Trie.get pfx V peq contains is_bit_set plen).
Notation get_node := (Trie.get_node pfx V peq contains is_bit_set plen).
Notation lpm_walk := (Trie.lpm_walk pfx V peq contains is_bit_set plen).
Notation get_lpm := (Trie.get_lpm pfx V peq contains is_bit_set plen).
Notation ins := (Trie.ins pfx V peq contains is_bit_set plen lcp).
Notation insert := (Trie.insert pfx V peq contains is_bit_set plen lcp).
Notation modify := (Trie.modify pfx V peq contains is_bit_set plen).
Notation rem := (Trie.rem pfx V peq contains is_bit_set plen).
Notation remove := (Trie.remove pfx V peq contains is_bit_set plen).
Notation remove_keep_tree := (Trie.remove_keep_tree pfx V peq contains is_bit_set plen).
Notation empty := (Trie.empty pfx V pzero).
Notation descent_ind := (TrieWf.descent_ind pfx V peq contains is_bit_set plen).
Notation slots_nodup := (Slots.slots_nodup pfx V peq contains is_bit_set plen lcp pzero).
Notation slots_disjoint := (Slots.slots_disjoint pfx V peq contains is_bit_set plen lcp pzero).
Notation slots_range := (Slots.slots_range pfx V peq contains is_bit_set plen lcp pzero).
Notation rem_acct := (Slots.rem_acct pfx V peq contains is_bit_set plen lcp pzero).

Notation a_direction := (Arena.a_direction pfx V peq contains is_bit_set plen).
Notation a_direction_ins := (Arena.a_direction_ins pfx V peq contains is_bit_set plen lcp).
Notation a_get_loop := (Arena.a_get_loop pfx V peq contains is_bit_set plen).
Notation a_get := (Arena.a_get pfx V peq contains is_bit_set plen).
Notation a_lpm_loop := (Arena.a_lpm_loop pfx V peq contains is_bit_set plen).
Notation a_get_lpm := (Arena.a_get_lpm pfx V peq contains is_bit_set plen).
Notation a_insert_loop := (Arena.a_insert_loop pfx V peq contains is_bit_set plen lcp).
Notation a_insert := (Arena.a_insert pfx V peq contains is_bit_set plen lcp).
Notation a_find := (Arena.a_find pfx V peq contains is_bit_set plen).
Notation a_remove := (Arena.a_remove pfx V peq contains is_bit_set plen).
Notation a_rkt_loop := (Arena.a_rkt_loop pfx V peq contains is_bit_set plen).
Notation a_remove_keep_tree := (Arena.a_remove_keep_tree pfx V peq contains is_bit_set plen).
Notation a_empty := (Arena.a_empty pfx V pzero).

Lemma tsize_ids (t : tree) : tsize t = length (ids t).
Proof.
  induction t as [|i p v l IHl r IHr]; cbn [tsize Slots.ids length]; [reflexivity|].
  rewrite app_length. lia.
Qed.

Lemma minv_size t a : slots_ok t a -> (length (ids t) <= N.to_nat (alen a))%nat.
Proof. intros Hs. apply slots_len in Hs. lia. Qed.

(** what [a_direction] / [a_direction_ins] answer at a represented node, read off the tree
    ([direction_sim], [direction_ins_sim]); the [Leaf] case is never reached *)
Definition dir_of (t : tree) (q : pfx) : dir :=
  match t with
  | Leaf => Missing
  | Node i p v l r =>
    if peq p q then Reached else
    match csel (to_right p q) l r with
    | Node ci cp _ _ _ => if contains cp q then Enter ci (to_right p q) else Missing
    | Leaf => Missing
    end
  end.

Lemma direction_sim tb i t q : rep tb (Some i) t -> a_direction tb i q = Ok (dir_of t q).
Proof.
  intros H. destruct (rep_some_inv _ _ _ H) as (p & v & l & r & ->).
  destruct (rep_node_rt (to_right p q) H) as (n & Hs & Hp & Hv & Hc & _ & Rc & _).
  unfold Arena.a_direction, dir_of. rewrite (rd_ok _ _ _ Hs). cbn [rbind]. rewrite Hp.
  destruct (peq p q); [reflexivity|].
  rewrite (get_child_ok _ Hs). cbn [rbind]. rewrite Hc.
  destruct (csel (to_right p q) l r) as [|ci cp cv cl cr]; cbn [link]; [reflexivity|].
  apply rep_node_inv in Rc. destruct Rc as (_ & Sc & _).
  rewrite (rd_ok _ _ _ Sc). cbn [rbind npfx]. destruct (contains cp q); reflexivity.
Qed.

Definition dir_ins_of (t : tree) (q : pfx) : dir_ins pfx :=
  match t with
  | Leaf => IReached pfx
  | Node i p v l r =>
    if peq p q then IReached pfx else
    let rt := to_right p q in
    match csel rt l r with
    | Leaf => INewLeaf pfx rt
    | Node ci cp _ _ _ =>
      if contains cp q then IEnter pfx ci rt
      else if contains q cp then INewChild pfx rt (to_right q cp)
      else INewBranch pfx (lcp q cp) rt (to_right (lcp q cp) q)
    end
  end.

Lemma direction_ins_sim tb i t q : rep tb (Some i) t -> a_direction_ins tb i q = Ok (dir_ins_of t q).
Proof.
  intros H. destruct (rep_some_inv _ _ _ H) as (p & v & l & r & ->).
  destruct (rep_node_rt (to_right p q) H) as (n & Hs & Hp & Hv & Hc & _ & Rc & _).
  unfold Arena.a_direction_ins, dir_ins_of. rewrite (rd_ok _ _ _ Hs). cbn [rbind]. rewrite Hp.
  destruct (peq p q); [reflexivity|].
  rewrite (get_child_ok _ Hs). cbn [rbind]. rewrite Hc.
  destruct (csel (to_right p q) l r) as [|ci cp cv cl cr]; cbn [link]; [reflexivity|].
  apply rep_node_inv in Rc. destruct Rc as (_ & Sc & _).
  rewrite (rd_ok _ _ _ Sc). cbn [rbind npfx].
  destruct (contains cp q); [reflexivity|]. destruct (contains q cp); reflexivity.
Qed.

(** Induction along the descent of an arena loop towards [q], with fuel: at a represented node the
    loop reads the node and [a_direction] answers what the tree says ([dir_of]); the claim may be
    assumed, with one unit of fuel less, for the child on [q]'s side, which is represented under
    its link.  The child may be a [Leaf], which has no slot; so the claim is offered for any [ci]
    under which it is represented, to be used after the case split on the child. *)
Lemma rep_descent_ind q (P : nat -> list anode -> N -> tree -> Prop) :
  (forall f tb i p v l r,
     rep tb (Some i) (Node i p v l r) ->
     rd tb i = Ok (mkanode p v (link l) (link r)) ->
     a_direction tb i q = Ok (dir_of (Node i p v l r) q) ->
     (forall ci, rep tb (Some ci) (if to_right p q then r else l) -> P f tb ci (if to_right p q then r else l)) ->
     rep tb (link (if to_right p q then r else l)) (if to_right p q then r else l) ->
     P (S f) tb i (Node i p v l r)) ->
  forall t fuel tb i, rep tb (Some i) t -> (height t <= fuel)%nat -> P fuel tb i t.
Proof.
  intros step. induction t as [|i0 p v l IHl r IHr]; intros fuel tb i H Hf; [inversion H|].
  destruct fuel as [|f]; [inversion Hf|]. apply (height_child (to_right p q)) in Hf. unfold csel in Hf.
  destruct (rep_node_inv _ _ _ _ _ _ _ H) as (E & Hs & Rl & Rr). injection E as ->.
  apply step; [exact H|apply rd_ok; exact Hs|apply direction_sim; exact H| |].
  - destruct (to_right p q); intros ci Rc; [apply IHr|apply IHl]; assumption.
  - destruct (to_right p q); assumption.
Qed.

(** any loop that follows [get_direction] and acts where it stops does so at the node that
    [get_node] finds *)
Lemma descent_sim {A} q (loop : nat -> list anode -> N -> res A)
      (act : list anode -> N -> res A) (miss : list anode -> res A) :
  (forall f tb i, loop (S f) tb i =
     d <- a_direction tb i q ;;
     match d with Reached => act tb i | Enter next _ => loop f tb next | Missing => miss tb end) ->
  forall fuel t tb i, rep tb (Some i) t -> (height t <= fuel)%nat ->
  loop fuel tb i = match get_node t q with Some (j, _, _) => act tb j | None => miss tb end.
Proof.
  intros U fuel t. revert t fuel.
  apply (rep_descent_ind q (fun fuel tb i t =>
           loop fuel tb i = match get_node t q with Some (j, _, _) => act tb j | None => miss tb end)).
  intros f tb i p v l r _ _ F IH Rc. rewrite U, F. cbn [rbind dir_of Trie.get_node]. unfold csel.
  destruct (peq p q); [reflexivity|].
  destruct (if to_right p q then r else l) as [|ci cp cv cl cr]; [reflexivity|].
  destruct (contains cp q); [exact (IH ci Rc)|reflexivity].
Qed.

Lemma get_node_slot q {tb} : forall {t o}, rep tb o t ->
  forall {j p v}, get_node t q = Some (j, p, v) ->
  In j (ids t) /\ exists n, slot tb j = Some n /\ npfx n = p /\ nval n = v.
Proof.
  intros t. induction t as [|i p v l r E|i p v l r E S|i p v l r ci cp cv cl cr E C CQ IH]
    using (descent_ind q); intros o R j pj vj; cbn [Trie.get_node]; try rewrite E.
  - discriminate.
  - intros [= <- <- <-]. apply rep_node_inv in R. destruct R as (_ & Hs & _).
    split; [cbn; auto|]. eexists. split; [exact Hs|auto].
  - unfold TrieWf.child_of in S. destruct (if to_right p q then r else l); [discriminate|].
    rewrite S. discriminate.
  - unfold TrieWf.child_of in C. rewrite C, CQ. intros G.
    destruct (rep_node_rt (to_right p q) R) as (_ & _ & _ & _ & _ & _ & Rc & _).
    unfold csel in Rc. rewrite C in Rc. destruct (IH _ Rc _ _ _ G) as (Hj & X).
    split; [|exact X]. apply (ids_node_rt i p v l r (to_right p q)). unfold csel. rewrite C. auto.
Qed.

Lemma get_loop_sim q t fuel tb i :
  rep tb (Some i) t -> (height t <= fuel)%nat -> a_get_loop fuel tb i q = Ok (get t q).
Proof.
  intros R Hf.
  rewrite (descent_sim q (fun f tb i => a_get_loop f tb i q) (fun tb j => n <- rd tb j ;; Ok (nval n))
             (fun _ => Ok None) (fun _ _ _ => eq_refl) fuel t tb i R Hf).
  unfold Trie.get. destruct (get_node t q) as [[[j p] v]|] eqn:G; [|reflexivity].
  destruct (get_node_slot q R G) as (_ & n & Hn & _ & <-).
  rewrite (rd_ok _ _ _ Hn). reflexivity.
Qed.

Lemma lpm_loop_sim q fuel : forall t tb i best,
  rep tb (Some i) t -> (height t <= fuel)%nat -> a_lpm_loop fuel tb i q best = Ok (lpm_walk t q best).
Proof.
  intros t tb i best R Hf. revert t fuel tb i R Hf best.
  apply (rep_descent_ind q (fun fuel tb i t => forall best, a_lpm_loop fuel tb i q best = Ok (lpm_walk t q best))).
  intros f tb i p v l r _ Hrd F IH Rc best. cbn [Arena.a_lpm_loop]. rewrite Hrd. cbn [rbind]. rewrite F.
  cbn [rbind dir_of Trie.lpm_walk]. unfold csel, prefix_value. cbn [nval npfx].
  replace (match (match v with Some x => Some (p, x) | None => None end) with Some b => Some b | None => best end)
    with (match v with Some x => Some (p, x) | None => best end) by (destruct v; reflexivity).
  destruct (peq p q); [reflexivity|].
  destruct (if to_right p q then r else l) as [|ci cp cv cl cr]; [reflexivity|].
  destruct (contains cp q); [exact (IH ci Rc _)|reflexivity].
Qed.

(** a descent visits one slot of the tree per level and the slots are distinct entries of the
    table: this is why the fuel [S (length tbl)] of [Arena.v] suffices.  [get_sim], [get_lpm_sim]
    and [Arena2Thm.entry_sim] use [minv] for this bound only; it also follows from [rep] alone
    ([Arena3Thm.rep_height_le]) *)
Lemma Rep_height am m : Rep am m -> minv m -> (height (root m) <= length (tbl am))%nat.
Proof.
  intros (_ & _ & L & _) M. pose proof (height_le_ids (root m)).
  pose proof (minv_size _ _ M). lia.
Qed.

Theorem get_fuel_bound am m q fuel : Rep am m -> minv m -> (length (tbl am) <= fuel)%nat ->
  a_get_loop fuel (tbl am) 0%N q = Ok (get (root m) q).
Proof.
  intros R M F. apply get_loop_sim; [apply R|]. pose proof (Rep_height _ _ R M). lia.
Qed.

Theorem get_sim am m q : Rep am m -> minv m -> a_get am q = Ok (get (root m) q).
Proof. intros R M. apply (get_fuel_bound am m q _ R M). lia. Qed.

Theorem get_lpm_fuel_bound am m q fuel : Rep am m -> minv m -> (length (tbl am) <= fuel)%nat ->
  a_lpm_loop fuel (tbl am) 0%N q None = Ok (get_lpm (root m) q).
Proof.
  intros R M F. apply lpm_loop_sim; [apply R|]. pose proof (Rep_height _ _ R M). lia.
Qed.

Theorem get_lpm_sim am m q : Rep am m -> minv m -> a_get_lpm am q = Ok (get_lpm (root m) q).
Proof. intros R M. apply (get_lpm_fuel_bound am m q _ R M). lia. Qed.

Lemma list_sum_cons x l : list_sum (x :: l) = (x + list_sum l)%nat.
Proof. reflexivity. Qed.

(** a stack of links against the stack of the trees they stand for: [Leaf]s leave no trace *)
Definition push (o : option N) (st : list N) : list N :=
  match o with Some x => x :: st | None => st end.
Definition nonleaf (t : tree) : list tree := match t with Leaf => [] | _ => [t] end.

Lemma Forall2_push tb t st ts :
  rep tb (link t) t -> Forall2 (fun i t => rep tb (Some i) t) st ts ->
  Forall2 (fun i t => rep tb (Some i) t) (push (link t) st) (nonleaf t ++ ts).
Proof. intros R F. destruct t; [exact F|constructor; assumption]. Qed.

Lemma flat_map_nonleaf {A} (f : tree -> list A) t ts :
  f Leaf = [] -> flat_map f (nonleaf t ++ ts) = f t ++ flat_map f ts.
Proof. intros E. destruct t; [rewrite E|]; reflexivity. Qed.

Lemma size_nonleaf t ts :
  list_sum (map (@tsize pfx V) (nonleaf t ++ ts)) = (tsize t + list_sum (map (@tsize pfx V) ts))%nat.
Proof. destruct t; reflexivity. Qed.

Lemma iter_sim : forall fuel tb st ts,
  Forall2 (fun i t => rep tb (Some i) t) st ts ->
  (list_sum (map (@tsize pfx V) ts) < fuel)%nat ->
  a_iter fuel tb st = Ok (flat_map (@entries pfx V) ts).
Proof.
  induction fuel as [|f IH]; intros tb st ts F Hf; [lia|].
  destruct F as [|i t st' ts' R F']; [reflexivity|].
  destruct (rep_some_inv _ _ _ R) as (p & v & l & r & ->).
  apply rep_node_inv in R. destruct R as (_ & Hs & Rl & Rr).
  cbn [Arena.a_iter]. rewrite (rd_ok _ _ _ Hs). cbn [rbind nright nleft nval npfx].
  change (match link r with Some x => x :: st' | None => st' end) with (push (link r) st').
  change (match link l with Some x => x :: push (link r) st' | None => push (link r) st' end)
    with (push (link l) (push (link r) st')).
  cbn [map tsize] in Hf. rewrite list_sum_cons in Hf.
  rewrite (IH tb _ (nonleaf l ++ nonleaf r ++ ts')).
  - cbn [rbind flat_map entries]. rewrite !flat_map_nonleaf, <- !app_assoc by reflexivity.
    destruct v; reflexivity.
  - apply Forall2_push; [exact Rl|]. apply Forall2_push; assumption.
  - rewrite !size_nonleaf. lia.
Qed.

Theorem entries_fuel_bound am m fuel : Rep am m -> minv m -> (length (tbl am) < fuel)%nat ->
  a_iter fuel (tbl am) [0%N] = Ok (entries (root m)).
Proof.
  intros R M F. rewrite (iter_sim fuel (tbl am) [0%N] [root m]).
  - cbn [flat_map]. rewrite app_nil_r. reflexivity.
  - constructor; [apply R|constructor].
  - cbn [map]. rewrite list_sum_cons, tsize_ids. cbn [list_sum fold_right].
    destruct R as (_ & _ & L & _). pose proof (minv_size _ _ M). lia.
Qed.

Theorem entries_sim am m : Rep am m -> minv m -> a_entries am = Ok (entries (root m)).
Proof. intros R M. apply (entries_fuel_bound am m _ R M). lia. Qed.

(** What [new_node] needs of the free list, and the slots it must leave alone: [new_node_sim] hands out a
    slot that was not in use and keeps every slot in use as it was, so that no later step has to compare
    a fresh index with an old one by arithmetic. *)
Definition okfree (tb : list anode) (fr : list N) : Prop :=
  NoDup fr /\ forall j, In j fr -> (j < N.of_nat (length tb))%N.
Definition used (tb : list anode) (fr : list N) (j : N) : Prop :=
  (j < N.of_nat (length tb))%N /\ ~ In j fr.

Lemma new_node_sim tb fr cnt p v n a1 :
  okfree tb fr -> new_node (mkalloc fr (N.of_nat (length tb)) cnt) (is_some v) = (n, a1) ->
  exists tb1, a_new_node (mkamap tb fr cnt) p v = Ok (n, mkamap tb1 (free a1) (count a1))
    /\ alen a1 = N.of_nat (length tb1) /\ okfree tb1 (free a1)
    /\ slot tb1 n = Some (mkanode p v None None) /\ used tb1 (free a1) n
    /\ (forall j, used tb fr j -> j <> n /\ slot tb1 j = slot tb j /\ used tb1 (free a1) j).
Proof.
  intros (ND & B) H. unfold Trie.new_node in H. cbn [free alen count] in H.
  unfold Arena.a_new_node, used, okfree. cbn [afree tbl acount].
  destruct fr as [|i f]; injection H as <- <-; cbn [alen free count].
  - eexists. split; [reflexivity|]. rewrite app_length. cbn [length].
    split; [lia|]. split; [split; [constructor|intros j []]|].
    split; [apply slot_app_new|]. split; [split; [lia|intros []]|].
    intros j (Lj & _). split; [lia|]. split; [apply slot_app_old; exact Lj|].
    split; [lia|intros []].
  - destruct (proj2 (slot_lt tb i)) as [n0 Hn0]; [apply B; left; reflexivity|].
    rewrite (wr_ok _ Hn0). cbn [rbind]. eexists. split; [reflexivity|]. rewrite upd_length.
    inversion ND as [|? ? NI ND']; subst.
    split; [reflexivity|]. split; [split; [exact ND'|intros j Hj; apply B; right; exact Hj]|].
    split; [eapply slot_upd_eq; exact Hn0|]. split; [split; [apply B; left; reflexivity|exact NI]|].
    intros j (Lj & Nj). assert (Nij : i <> j) by (intros ->; apply Nj; left; reflexivity).
    split; [congruence|]. split; [apply slot_upd_neq; exact Nij|].
    split; [exact Lj|]. intros Hj. apply Nj. right. exact Hj.
Qed.

(** what [new_node_sim] does not say because no simulation needs it: the slot comes from the free
    list or is the next one, the free list only loses it, the table does not shrink, and every other
    old slot -- free ones included -- is left as it was *)
Lemma new_node_frame tb fr cnt p v n a1 tb1 :
  okfree tb fr -> new_node (mkalloc fr (N.of_nat (length tb)) cnt) (is_some v) = (n, a1) ->
  a_new_node (mkamap tb fr cnt) p v = Ok (n, mkamap tb1 (free a1) (count a1)) ->
  (forall j, j <> n -> (j < N.of_nat (length tb))%N -> slot tb1 j = slot tb j) /\
  (In n fr \/ n = N.of_nat (length tb)) /\ incl (free a1) fr /\ (length tb <= length tb1)%nat.
Proof.
  intros (_ & B) H. unfold Trie.new_node in H. cbn [free alen count] in H.
  unfold Arena.a_new_node. cbn [afree tbl acount].
  destruct fr as [|i f]; injection H as <- <-; cbn [alen free count].
  - intros [= <-]. rewrite app_length.
    split; [intros j _ Hj; apply slot_app_old; exact Hj|]. split; [right; reflexivity|].
    split; [intros j []|lia].
  - destruct (proj2 (slot_lt tb i)) as [n0 Hn0]; [apply B; left; reflexivity|].
    rewrite (wr_ok _ Hn0). cbn [rbind]. intros [= <-]. rewrite upd_length.
    split; [intros j Hj _; apply slot_upd_neq; congruence|]. split; [left; left; reflexivity|].
    split; [intros j Hj; right; exact Hj|lia].
Qed.

Lemma neq_of_in (j i : N) L : In j L -> ~ In i L -> j <> i.
Proof. intros H1 H2 ->. contradiction. Qed.

Lemma nn_as_with_child n q (x : V) (b : bool) (c : tree) :
  (if b then Node n q (Some x) Leaf c else Node n q (Some x) c Leaf)
  = with_child n q (Some x) Leaf Leaf b c.
Proof. destruct b; reflexivity. Qed.

Lemma bn_as_with_child b bp (s : bool) (c nn : tree) :
  (if s then Node b bp None c nn else Node b bp None nn c)
  = with_child b bp None (if s then c else Leaf) (if s then Leaf else c) s nn.
Proof. destruct s; reflexivity. Qed.

(** By induction on the fuel, along [dir_ins_of].  The three placements allocate ([new_node_sim]:
    slots in use are untouched and differ from the new ones), write the new nodes, and redirect
    the link of [i] on side [rt] ([rep_relink]); each rests on one fact about the final table: it
    agrees with [tb] on every slot in use other than [i]. *)
Lemma ins_sim q x fuel : forall t tb fr cnt i,
  rep tb (Some i) t -> (height t <= fuel)%nat -> NoDup (ids t) -> okfree tb fr ->
  (forall j, In j (ids t) -> used tb fr j) ->
  forall t' o a', ins t q x (mkalloc fr (N.of_nat (length tb)) cnt) = (t', o, a') ->
  exists tb', a_insert_loop fuel (mkamap tb fr cnt) i q x = Ok (mkamap tb' (free a') (count a'), o)
    /\ rep tb' (Some i) t' /\ alen a' = N.of_nat (length tb')
    /\ (forall j, used tb fr j -> ~ In j (ids t) -> slot tb' j = slot tb j).
Proof.
  induction fuel as [|f IH]; intros t tb fr cnt i R Hf ND OKF U t' o a' H;
    destruct (rep_some_inv _ _ _ R) as (p & v & l & r & ->); [inversion Hf|].
  apply (height_child (to_right p q)) in Hf.
  cbn [Arena.a_insert_loop tbl]. rewrite (direction_ins_sim _ _ _ q R). cbn [rbind dir_ins_of].
  cbn [Trie.ins] in H. set (rt := to_right p q) in *.
  change (if rt then r else l) with (csel rt l r) in H.
  destruct (peq p q).
  { (* Reached *)
    injection H as <- <- <-.
    pose proof (rep_node_inv _ _ _ _ _ _ _ R) as (_ & Hs & _).
    rewrite (rd_ok _ _ _ Hs). cbn [rbind]. rewrite (wr_ok _ Hs). cbn [rbind afree acount nval nleft nright].
    eexists. split; [destruct v; reflexivity|]. split; [exact (rep_set_root _ _ R ND)|].
    split; [rewrite upd_length; destruct v; reflexivity|].
    intros j _ Hj. apply slot_upd_neq. intros ->. apply Hj. cbn. auto. }
  destruct (rep_node_rt rt R) as (node & Hs & _ & _ & Hc & _ & Rc & _).
  destruct (nodup_node_rt rt ND) as (NIc & NIs & NDc & _ & _).
  assert (Ui : used tb fr i) by (apply U; cbn; auto).
  assert (Uc : forall j, In j (ids (csel rt l r)) -> used tb fr j).
  { intros j Hj. apply U. apply (ids_node_rt i p v l r rt). auto. }
  assert (Us : forall j, In j (ids (ssel rt l r)) -> used tb fr j /\ j <> i).
  { intros j Hj. split; [apply U; apply (ids_node_rt i p v l r rt); auto|]. intros ->. contradiction. }
  assert (Off : forall j, ~ In j (ids (Node i p v l r)) -> j <> i) by (intros j Hj ->; apply Hj; cbn; auto).
  destruct (csel rt l r) as [|ci cp cv cl cr] eqn:C.
  { (* NewLeaf *)
    destruct (new_node (mkalloc fr (N.of_nat (length tb)) cnt) true) as [n a1] eqn:NN.
    injection H as <- <- <-.
    destruct (new_node_sim tb fr cnt q (Some x) n a1 OKF NN) as (tb1 & E1 & L1 & _ & Sn & _ & Old).
    destruct (Old i Ui) as (Nin & Si1 & _). rewrite Hs in Si1.
    rewrite E1. cbn [rbind tbl afree acount]. rewrite (set_child_ok _ _ Si1). cbn [rbind].
    eexists. split; [reflexivity|].
    assert (F : forall j, used tb fr j -> j <> i ->
                slot (upd tb1 (N.to_nat i) (with_link node rt (Some n))) j = slot tb j).
    { intros j Uj Nji. rewrite slot_upd_neq by congruence. apply (Old j Uj). }
    split; [|split].
    - apply rep_relink with (tb := tb) (n := node) (c' := Node n q (Some x) Leaf Leaf);
        [exact R|exact Hs|eapply slot_upd_eq; exact Si1| |intros j Hj; apply F; apply Us; exact Hj].
      apply rep_node_intro; [|constructor..]. rewrite slot_upd_neq by exact Nin. exact Sn.
    - rewrite upd_length. exact L1.
    - intros j Uj Hj. apply F; auto. }
  destruct (contains cp q).
  { (* Enter *)
    destruct (ins (Node ci cp cv cl cr) q x (mkalloc fr (N.of_nat (length tb)) cnt))
      as [[c' o'] a''] eqn:HI.
    injection H as <- <- <-. cbn [link] in Rc.
    destruct (IH _ tb fr cnt ci Rc Hf NDc OKF Uc _ _ _ HI) as (tb' & E' & R' & L' & F').
    rewrite E'. exists tb'. split; [reflexivity|]. split; [|split; [exact L'|]].
    - apply (rep_child_frame tb tb' i p v l r rt c' R ND); rewrite C; [exact R'|].
      intros j Hj Hjc. apply F'; auto.
    - intros j Uj Hj. apply F'; [exact Uj|]. intros Hjc. apply Hj.
      apply (ids_node_rt i p v l r rt). rewrite C. auto. }
  assert (Rcx : forall tbx, (forall j, used tb fr j -> j <> i -> slot tbx j = slot tb j) ->
            rep tbx (Some ci) (Node ci cp cv cl cr)).
  { intros tbx F. eapply rep_ext; [exact Rc|]. intros j Hj. apply F; [auto|].
    intros ->. contradiction. }
  destruct (contains q cp).
  { (* NewChild *)
    destruct (new_node (mkalloc fr (N.of_nat (length tb)) cnt) true) as [n a1] eqn:NN.
    injection H as <- <- <-.
    destruct (new_node_sim tb fr cnt q (Some x) n a1 OKF NN) as (tb1 & E1 & L1 & _ & Sn & _ & Old).
    destruct (Old i Ui) as (Nin & Si1 & _). rewrite Hs in Si1.
    rewrite E1. cbn [rbind tbl afree acount].
    rewrite (set_child_ok _ _ Si1). cbn [rbind]. rewrite Hc. cbn [link unwrap rbind].
    set (tb2 := upd tb1 (N.to_nat i) (with_link node rt (Some n))).
    assert (Sn2 : slot tb2 n = Some (mkanode q (Some x) None None)).
    { unfold tb2. rewrite slot_upd_neq by exact Nin. exact Sn. }
    rewrite (set_child_ok _ _ Sn2). cbn [rbind].
    eexists. split; [reflexivity|].
    assert (F : forall j, used tb fr j -> j <> i ->
                slot (upd tb2 (N.to_nat n) (with_link (mkanode q (Some x) None None) (to_right q cp) (Some ci))) j
                = slot tb j).
    { intros j Uj Nji. destruct (Old j Uj) as (Njn & <- & _).
      rewrite slot_upd_neq by congruence. apply slot_upd_neq. congruence. }
    split; [|split].
    - rewrite nn_as_with_child.
      apply rep_relink with (tb := tb) (n := node); [exact R|exact Hs| | |intros j Hj; apply F; apply Us; exact Hj].
      + rewrite link_with_child, slot_upd_neq by congruence. eapply slot_upd_eq; exact Si1.
      + rewrite link_with_child.
        apply rep_relink with (tb := tb2) (n := mkanode q (Some x) None None);
          [apply rep_node_intro; [exact Sn2|constructor..]|exact Sn2|eapply slot_upd_eq; exact Sn2
          |apply Rcx; exact F|destruct (to_right q cp); intros j []].
    - unfold tb2. rewrite !upd_length. exact L1.
    - intros j Uj Hj. apply F; auto. }
  { (* NewBranch *)
    destruct (new_node (mkalloc fr (N.of_nat (length tb)) cnt) false) as [b a1] eqn:NB.
    destruct (new_node a1 true) as [n a2] eqn:NN.
    injection H as <- <- <-.
    destruct (new_node_sim tb fr cnt (lcp q cp) None b a1 OKF NB) as (tb1 & E1 & L1 & OK1 & Sb & Ub & Old1).
    destruct a1 as [fr1 al1 cnt1]. cbn [alen free count] in *. subst al1.
    destruct (new_node_sim tb1 fr1 cnt1 q (Some x) n a2 OK1 NN) as (tb2 & E2 & L2 & _ & Sn & _ & Old2).
    rewrite E1. cbn [rbind]. rewrite E2. cbn [rbind tbl afree acount].
    assert (Old : forall j, used tb fr j -> j <> b /\ j <> n /\ slot tb2 j = slot tb j).
    { intros j Uj. destruct (Old1 j Uj) as (Njb & <- & Uj1). destruct (Old2 j Uj1) as (Njn & <- & _). auto. }
    destruct (Old i Ui) as (Nib & Nin & Si2). rewrite Hs in Si2.
    destruct (Old2 b Ub) as (Nbn & Sb2 & _). rewrite Sb in Sb2.
    rewrite (set_child_ok _ _ Si2). cbn [rbind]. rewrite Hc. cbn [link unwrap rbind].
    set (tb3 := upd tb2 (N.to_nat i) (with_link node rt (Some b))).
    assert (Sb3 : slot tb3 b = Some (mkanode (lcp q cp) None None None)).
    { unfold tb3. rewrite slot_upd_neq by exact Nib. exact Sb2. }
    rewrite (set_child_ok _ _ Sb3). cbn [rbind].
    set (prt := to_right (lcp q cp) q).
    set (bn1 := with_link (mkanode (lcp q cp) None None None) prt (Some n)).
    set (tb4 := upd tb3 (N.to_nat b) bn1).
    assert (Sb4 : slot tb4 b = Some bn1) by (unfold tb4; eapply slot_upd_eq; exact Sb3).
    rewrite (set_child_ok _ _ Sb4). cbn [rbind].
    set (tb5 := upd tb4 (N.to_nat b) (with_link bn1 (negb prt) (Some ci))).
    exists tb5. split; [reflexivity|].
    assert (F : forall j, j <> b -> j <> i -> slot tb5 j = slot tb2 j).
    { intros j Njb Nji. unfold tb5, tb4, tb3. rewrite !slot_upd_neq by congruence. reflexivity. }
    assert (F' : forall j, used tb fr j -> j <> i -> slot tb5 j = slot tb j).
    { intros j Uj Nji. destruct (Old j Uj) as (Njb & _ & <-). apply F; assumption. }
    split; [|split].
    - apply rep_relink with (tb := tb) (n := node); [exact R|exact Hs| | |intros j Hj; apply F'; apply Us; exact Hj].
      + replace (link (if prt then _ else _)) with (Some b) by (destruct prt; reflexivity).
        unfold tb5, tb4. rewrite !slot_upd_neq by congruence. eapply slot_upd_eq; exact Si2.
      + pose proof (Rcx tb5 F') as Rc5.
        assert (Rn5 : rep tb5 (Some n) (Node n q (Some x) Leaf Leaf)).
        { apply rep_node_intro; [|constructor..]. rewrite F by congruence. exact Sn. }
        assert (Sb5 : slot tb5 b = Some (with_link bn1 (negb prt) (Some ci))).
        { unfold tb5. eapply slot_upd_eq; exact Sb4. }
        unfold bn1 in Sb5. destruct prt; cbn [link]; apply rep_node_intro; assumption.
    - unfold tb5, tb4, tb3. rewrite !upd_length. exact L2.
    - intros j Uj Hj. apply F'; auto. }
Qed.

Theorem insert_fuel_bound am m q x fuel : Rep am m -> minv m -> (length (tbl am) <= fuel)%nat ->
  exists am', a_insert_loop fuel am 0%N q x = Ok (am', snd (insert m q x)) /\
              Rep am' (fst (insert m q x)).
Proof.
  intros R M F. pose proof (Rep_height _ _ R M) as HH.
  destruct am as [tb fr cnt]. destruct m as [t [fr' al cnt']].
  destruct R as (R & Ef & El & Ec). unfold Slots.minv in M.
  cbn [tbl afree acount root Trie.al free alen count] in *. subst fr' al cnt'.
  unfold Trie.insert. cbn [root Trie.al].
  destruct (ins t q x (mkalloc fr (N.of_nat (length tb)) cnt)) as [[t' o] a'] eqn:HI.
  destruct (ins_sim q x fuel t tb fr cnt 0%N R ltac:(lia)) with (4 := HI) as (tb' & E & R' & L' & _).
  - exact (slots_nodup _ _ M).
  - split; [exact (Slots.slots_free_nodup pfx V peq contains is_bit_set plen lcp pzero _ _ M)|]. intros j Hj. apply (slots_range _ _ M). auto.
  - intros j Hj. split; [apply (slots_range _ _ M); auto|exact (slots_disjoint _ _ M j Hj)].
  - rewrite E. eexists. split; [reflexivity|]. cbn [fst snd].
    split; [exact R'|]. cbn [tbl afree acount root Trie.al]. auto.
Qed.

Theorem insert_sim am m q x : Rep am m -> minv m ->
  exists am', a_insert am q x = Ok (am', snd (insert m q x)) /\ Rep am' (fst (insert m q x)).
Proof. intros R M. apply (insert_fuel_bound am m q x _ R M). lia. Qed.

Lemma modify_same q h : forall t,
  (forall i p v, get_node t q = Some (i, p, v) -> h p v = (p, v)) -> modify t q h = t.
Proof.
  intros t. induction t as [|i p v l r E|i p v l r E S|i p v l r ci cp cv cl cr E C CQ IH]
    using (descent_ind q); cbn [Trie.get_node Trie.modify]; try rewrite E; intros H.
  - reflexivity.
  - rewrite (H _ _ _ eq_refl). reflexivity.
  - unfold TrieWf.child_of in S. destruct (if to_right p q then r else l); [reflexivity|].
    rewrite S. reflexivity.
  - unfold TrieWf.child_of in C. revert H. rewrite C, CQ. intros H. rewrite (IH H), <- C.
    apply with_child_csel.
Qed.

Lemma modify_sim q h {tb} : forall {t o}, rep tb o t -> NoDup (ids t) ->
  forall {j p v n}, get_node t q = Some (j, p, v) -> slot tb j = Some n ->
  rep (upd tb (N.to_nat j) (mkanode (fst (h p v)) (snd (h p v)) (nleft n) (nright n))) o (modify t q h).
Proof.
  intros t. induction t as [|i p v l r E|i p v l r E S|i p v l r ci cp cv cl cr E C CQ IH]
    using (descent_ind q); intros o R ND j pj vj n; cbn [Trie.get_node Trie.modify]; try rewrite E.
  - discriminate.
  - intros [= <- <- <-] Hn. pose proof (rep_node_inv _ _ _ _ _ _ _ R) as (-> & Hs & _).
    rewrite Hs in Hn. injection Hn as <-. destruct (h p v) as [p' v'].
    exact (rep_set_root _ _ R ND).
  - unfold TrieWf.child_of in S. destruct (if to_right p q then r else l); [discriminate|].
    rewrite S. discriminate.
  - unfold TrieWf.child_of in C. rewrite C, CQ. intros G Hn.
    pose proof (rep_node_inv _ _ _ _ _ _ _ R) as (-> & _).
    destruct (rep_node_rt (to_right p q) R) as (_ & _ & _ & _ & _ & _ & Rc & _).
    destruct (nodup_node_rt (to_right p q) ND) as (_ & _ & NDc & _).
    unfold csel in Rc, NDc. rewrite C in Rc, NDc.
    destruct (get_node_slot q Rc G) as (Hj & _).
    apply (rep_child_frame tb _ i p v l r (to_right p q) _ R ND); unfold csel; rewrite C.
    + exact (IH _ Rc NDc _ _ _ _ G Hn).
    + intros k _ Hk. apply slot_upd_neq. intros ->. contradiction.
Qed.

Lemma Rep_modify am m q h i p v a' :
  Rep am m -> minv m -> get_node (root m) q = Some (i, p, v) ->
  free a' = free (al m) -> alen a' = alen (al m) ->
  exists n, slot (tbl am) i = Some n /\ npfx n = p /\ nval n = v /\
    Rep (mkamap (upd (tbl am) (N.to_nat i) (mkanode (fst (h p v)) (snd (h p v)) (nleft n) (nright n)))
                (afree am) (count a'))
        (mkmap (modify (root m) q h) a').
Proof.
  intros (R & Rf & Rl & Rc) M G Ef El.
  destruct (get_node_slot q R G) as (_ & n & Hn & Hp & Hv).
  exists n. split; [exact Hn|]. split; [exact Hp|]. split; [exact Hv|].
  split; [exact (modify_sim q h R (slots_nodup _ _ M) G Hn)|].
  cbn [tbl afree acount root Trie.al]. rewrite upd_length, Ef, El. auto.
Qed.

Lemma rkt_loop_sim q : forall t fuel tb i,
  rep tb (Some i) t -> NoDup (ids t) -> (height t <= fuel)%nat ->
  exists tb', a_rkt_loop fuel tb i q = Ok (tb', get t q)
    /\ rep tb' (Some i) (modify t q (fun p _ => (p, None)))
    /\ length tb' = length tb
    /\ (forall j, ~ In j (ids t) -> slot tb' j = slot tb j).
Proof.
  intros t fuel tb i R ND Hf.
  rewrite (descent_sim q (fun f tb i => a_rkt_loop f tb i q)
             (fun tb j => n <- rd tb j ;;
                          tb' <- wr tb j (mkanode (npfx n) None (nleft n) (nright n)) ;; Ok (tb', nval n))
             (fun tb => Ok (tb, None)) (fun _ _ _ => eq_refl) fuel t tb i R Hf).
  unfold Trie.get. destruct (get_node t q) as [[[j p] v]|] eqn:G.
  - destruct (get_node_slot q R G) as (Hj & n & Hn & Hp & Hv).
    rewrite (rd_ok _ _ _ Hn). cbn [rbind]. rewrite (wr_ok _ Hn). cbn [rbind]. rewrite Hp, Hv.
    eexists. split; [reflexivity|]. split; [exact (modify_sim q (fun p _ => (p, None)) R ND G Hn)|].
    split; [apply upd_length|]. intros k Hk. apply slot_upd_neq. intros ->. contradiction.
  - exists tb. split; [reflexivity|]. split; [|auto]. rewrite modify_same; [exact R|]. intros i' p v G'. congruence.
Qed.

Theorem remove_keep_tree_fuel_bound am m q fuel :
  Rep am m -> minv m -> (length (tbl am) <= fuel)%nat ->
  exists tb', a_rkt_loop fuel (tbl am) 0%N q = Ok (tb', get (root m) q) /\
              rep tb' (Some 0%N) (modify (root m) q (fun p _ => (p, None))) /\
              length tb' = length (tbl am).
Proof.
  intros R M F. pose proof (Rep_height _ _ R M) as HH.
  destruct (rkt_loop_sim q (root m) fuel (tbl am) 0%N (proj1 R) (slots_nodup _ _ M) ltac:(lia))
    as (tb' & E & R' & L' & _). eauto.
Qed.

Theorem remove_keep_tree_sim am m q : Rep am m -> minv m ->
  exists am', a_remove_keep_tree am q = Ok (am', snd (remove_keep_tree m q)) /\
              Rep am' (fst (remove_keep_tree m q)).
Proof.
  intros R M.
  destruct (remove_keep_tree_fuel_bound am m q (S (length (tbl am))) R M ltac:(lia))
    as (tb' & E & R' & L').
  unfold Arena.a_remove_keep_tree. rewrite E. cbn [rbind]. eexists. split; [reflexivity|].
  unfold Trie.remove_keep_tree. cbn [fst snd].
  destruct R as (_ & Ef & El & Ec).
  split; [exact R'|]. cbn [tbl afree acount root Trie.al].
  destruct (get (root m) q); cbn [Trie.dec_if Trie.add_count free alen count is_some is_none negb];
    rewrite L'; repeat split; auto. rewrite Ec. reflexivity.
Qed.

(** what [remove] does after its search loop *)
Definition finish (am : amap) (r : option (N * option N * bool * option N * bool))
  : res (amap * option V) :=
  match r with
  | None => Ok (am, None)
  | Some (idx, par, par_right, grp, grp_right) =>
    '(am', value, _) <- a_remove_node am idx par par_right grp grp_right ;; Ok (am', value)
  end.

(** a frame whose own node is not the match (an ancestor of it, or a miss) never reports "unlinked
    as a leaf" to its caller *)
Lemma rem_enter_flag hp i p v l r q a t' fl o a' :
  peq p q = false -> rem hp (Node i p v l r) q a = (t', fl, o, a') -> fl = false.
Proof.
  intros EQ H. cbn [Trie.rem] in H. rewrite EQ in H.
  destruct (if to_right p q then r else l) as [|ci cp cv cl cr].
  - injection H as _ <- _ _. reflexivity.
  - destruct (contains cp q).
    + destruct (rem true (Node ci cp cv cl cr) q a) as [[[c' flc] oc] ac].
      destruct flc.
      * destruct (absorb hp i p v l r (to_right p q) ac). injection H as _ <- _ _. reflexivity.
      * injection H as _ <- _ _. reflexivity.
    + injection H as _ <- _ _. reflexivity.
Qed.

(** the search loop of [remove] from a node in any position, followed by [_remove_node] *)
Lemma rem_sim q fuel : forall tb fr al cnt h hr hv g gr i p v l r,
  hung tb h hr hv g gr (Node i p v l r) -> (height (Node i p v l r) <= fuel)%nat ->
  forall t' fl o a', rem (is_some h) (Node i p v l r) q (mkalloc fr al cnt) = (t', fl, o, a') ->
  let coll := fl && (is_some g && is_none hv) in
  exists tb' flag,
    (x <- a_find fuel tb i h hr g gr q ;; finish (mkamap tb fr cnt) x)
    = Ok (mkamap tb' (free (ahead coll h a')) (count a'), o) /\
    npost tb tb' h hr g gr (Node i p v l r) t' coll flag.
Proof.
  induction fuel as [|f IH]; intros tb fr al cnt h hr hv g gr i p v l r HU Hf t' fl o a' H coll;
    [inversion Hf|]. subst coll.
  set (rt := to_right p q). apply (height_child rt) in Hf. pose proof HU as (R & _).
  cbn [Arena.a_find]. rewrite (direction_sim _ _ _ q R). cbn [rbind dir_of].
  cbn [Trie.rem] in H. fold rt in H |- *. change (if rt then r else l) with (csel rt l r) in H.
  destruct (peq p q).
  { (* Reached *)
    cbn [rbind finish].
    destruct (remove_self (is_some h) i p v l r (mkalloc fr al cnt)) as [[t1 fl1] a1] eqn:RS.
    injection H as <- <- <- <-.
    destruct (remove_node_sim tb fr al cnt h hr hv g gr i p v l r HU _ _ _ RS) as (tb' & flag & E & NP).
    rewrite E. cbn [rbind]. eauto. }
  assert (MISS : (t', fl, o, a') = (Node i p v l r, false, None, mkalloc fr al cnt) ->
          exists tb' flag, finish (mkamap tb fr cnt) None
                           = Ok (mkamap tb' (free (ahead (fl && (is_some g && is_none hv)) h a')) (count a'), o) /\
            npost tb tb' h hr g gr (Node i p v l r) t' (fl && (is_some g && is_none hv)) flag).
  { intros [= -> -> -> ->]. exists tb, false. split; [reflexivity|].
    split; [exact (swap_refl HU)|reflexivity]. }
  pose proof (hung_child rt HU) as HUc.
  destruct (csel rt l r) as [|ci cp cv cl cr] eqn:C.
  { cbn [rbind]. apply MISS. congruence. }
  destruct (contains cp q).
  2:{ cbn [rbind]. apply MISS. congruence. }
  clear MISS. cbn [rbind].
  (* Enter: one level down; what the child's frame reports is absorbed here *)
  destruct (rem true (Node ci cp cv cl cr) q (mkalloc fr al cnt)) as [[[c' fl1] o1] a1] eqn:RC.
  destruct (IH tb fr al cnt (Some i) rt v h hr ci cp cv cl cr HUc Hf _ _ _ _ RC) as (tb' & flag & E & NP).
  rewrite E. clear E. exists tb'.
  (* a frame that reports the flag returns [Leaf]: second clause of [Slots.rem_acct] *)
  destruct (rem_acct RC) as (_ & LF & _).
  rewrite <- C in NP. unfold Trie.absorb in H.
  destruct fl1; cbn [andb] in NP, H.
  - rewrite (LF eq_refl) in *. destruct (is_some h && is_none v) eqn:B; injection H as <- <- <- <-; cbn [andb ahead].
    + destruct (coll_lift rt HU NP) as (SW & _).
      exists false. split; [reflexivity|]. split; [exact SW|reflexivity].
    + destruct NP as (SW & _). exists false. split; [reflexivity|].
      split; [exact (swap_lift rt Leaf HU SW)|reflexivity].
  - injection H as <- <- <- <-. destruct NP as (SW & _). exists false. split; [reflexivity|].
    split; [exact (swap_lift rt c' HU SW)|reflexivity].
Qed.

Theorem remove_fuel_bound am m q fuel :
  Rep am m -> minv m -> (length (tbl am) <= fuel)%nat ->
  exists am', (r <- a_find fuel (tbl am) 0%N None false None false q ;; finish am r)
              = Ok (am', snd (remove m q)) /\ Rep am' (fst (remove m q)).
Proof.
  intros R M F. pose proof (Rep_height _ _ R M) as HH. pose proof (slots_nodup _ _ M) as NDt.
  destruct am as [tb fr cnt]. destruct m as [t [fr' al cnt']].
  destruct R as (R & Ef & El & Ec).
  cbn [tbl afree acount root Trie.al free alen count] in *. subst fr' cnt'.
  unfold Trie.remove. cbn [root Trie.al].
  destruct (rem false t q (mkalloc fr al cnt)) as [[[T' fl] o] a'] eqn:HR. cbn [fst snd].
  destruct (rep_some_inv _ _ _ R) as (p & v & l & r & ->).
  destruct (rem_acct HR) as ((_ & _ & Al & _) & _). cbn [alen] in Al.
  destruct (rem_sim q fuel tb fr al cnt None false None None false 0%N p v l r) with (3 := HR)
    as (tb' & flag & E & NP); [repeat split; assumption|lia|].
  rewrite andb_false_r in E, NP. destruct NP as ((L' & R' & _ & Lk & _) & _).
  rewrite E. eexists. split; [reflexivity|]. split.
  - cbn [tbl root]. change (Some 0%N) with (link (Node 0%N p v l r)). rewrite <- Lk. exact R'.
  - cbn [tbl afree acount root Trie.al ahead]. rewrite L', Al. auto.
Qed.

Theorem remove_sim am m q : Rep am m -> minv m ->
  exists am', a_remove am q = Ok (am', snd (remove m q)) /\ Rep am' (fst (remove m q)).
Proof. intros R M. apply (remove_fuel_bound am m q _ R M). lia. Qed.

Notation a_step := (Arena.a_step pfx V peq contains is_bit_set plen lcp).
Notation a_run_from := (Arena.a_run_from pfx V peq contains is_bit_set plen lcp).
Notation a_run := (Arena.a_run pfx V peq contains is_bit_set plen lcp pzero).
Notation t_step := (Arena.t_step pfx V peq contains is_bit_set plen lcp).
Notation t_run_from := (Arena.t_run_from pfx V peq contains is_bit_set plen lcp).
Notation t_run := (Arena.t_run pfx V peq contains is_bit_set plen lcp pzero).
Notation a_step_out := (Arena.a_step_out pfx V peq contains is_bit_set plen lcp).
Notation t_step_out := (Arena.t_step_out pfx V peq contains is_bit_set plen lcp).
Notation a_outs := (Arena.a_outs pfx V peq contains is_bit_set plen lcp).
Notation t_outs := (Arena.t_outs pfx V peq contains is_bit_set plen lcp).

Theorem Rep_empty : Rep a_empty empty.
Proof.
  split; [|cbn; auto]. cbn [tbl Arena.a_empty root Trie.empty].
  apply rep_node_intro; [reflexivity|constructor|constructor].
Qed.

Lemma t_step_minv o m : minv m -> minv (t_step o m).
Proof.
  destruct o; cbn [Arena.t_step].
  - apply (Slots.insert_minv pfx V peq contains is_bit_set plen lcp pzero).
  - apply (Slots.remove_minv pfx V peq contains is_bit_set plen lcp pzero).
  - apply (Slots.remove_keep_tree_minv pfx V peq contains is_bit_set plen).
Qed.

Theorem step_out_sim o am m : Rep am m -> minv m ->
  exists am', a_step_out o am = Ok (am', snd (t_step_out o m)) /\
              Rep am' (fst (t_step_out o m)) /\ minv (fst (t_step_out o m)).
Proof.
  intros R M. pose proof (t_step_minv o m M) as M'.
  destruct o; cbn [Arena.a_step_out Arena.t_step_out Arena.t_step] in *.
  - destruct (insert_sim am m q x R M) as (am' & E & R'). eauto.
  - destruct (remove_sim am m q R M) as (am' & E & R'). eauto.
  - destruct (remove_keep_tree_sim am m q R M) as (am' & E & R'). eauto.
Qed.

Theorem step_sim o am m : Rep am m -> minv m ->
  exists am', a_step o am = Ok am' /\ Rep am' (t_step o m) /\ minv (t_step o m).
Proof.
  intros R M. destruct (step_out_sim o am m R M) as (am' & E & R' & M').
  exists am'. destruct o; cbn [Arena.a_step Arena.a_step_out Arena.t_step_out Arena.t_step] in *;
    rewrite E; cbn [rbind]; auto.
Qed.

Theorem run_from_sim ops : forall am m, Rep am m -> minv m ->
  exists am', a_run_from ops am = Ok am' /\ Rep am' (t_run_from ops m) /\ minv (t_run_from ops m).
Proof.
  induction ops as [|o ops IH]; intros am m R M; cbn [Arena.a_run_from Arena.t_run_from].
  - eauto.
  - destruct (step_sim o am m R M) as (am1 & E & R1 & M1). rewrite E. cbn [rbind]. apply IH; auto.
Qed.

(** no step of any history panics or runs out of fuel, and the arena reached represents the
    tree reached *)
Theorem run_sim ops :
  exists am, a_run ops = Ok am /\ Rep am (t_run ops) /\ minv (t_run ops).
Proof.
  apply run_from_sim; [apply Rep_empty|apply (Slots.minv_empty pfx V pzero)].
Qed.

Theorem outs_from_sim ops : forall am m, Rep am m -> minv m -> a_outs ops am = Ok (t_outs ops m).
Proof.
  induction ops as [|o ops IH]; intros am m R M; cbn [Arena.a_outs Arena.t_outs]; [reflexivity|].
  destruct (step_out_sim o am m R M) as (am1 & E & R1 & M1). rewrite E. cbn [rbind].
  destruct (t_step_out o m) as [m1 v1]. cbn [fst snd] in *.
  rewrite (IH am1 m1 R1 M1). reflexivity.
Qed.

Theorem outs_sim ops : a_outs ops a_empty = Ok (t_outs ops empty).
Proof. apply outs_from_sim; [apply Rep_empty|apply (Slots.minv_empty pfx V pzero)]. Qed.

Definition reachable (am : amap) : Prop := exists ops, a_run ops = Ok am.

Theorem reachable_Rep am : reachable am -> exists m, Rep am m /\ minv m.
Proof.
  intros [ops E]. destruct (run_sim ops) as (am' & E' & R & M). rewrite E in E'.
  injection E' as <-. eauto.
Qed.

(** Structure of every arena that represents a tree under [minv]: links in bounds, no slot
    linked twice, no slot linked while free, the root never linked *)

(** slot [i] links to [j] on side [rt] *)
Definition edge (tb : list anode) (i : N) (rt : bool) (j : N) : Prop :=
  exists n, slot tb i = Some n /\ child_of n rt = Some j.

(** the slots the descents can visit: reachable from slot 0 along links *)
Inductive live (tb : list anode) : N -> Prop :=
| live_root : live tb 0%N
| live_step i rt j : live tb i -> edge tb i rt j -> live tb j.

Lemma link_some_in (t : tree) j : link t = Some j -> In j (ids t).
Proof. destruct t; cbn; [discriminate|]. intros [= ->]. auto. Qed.

(** the links of [t], as (holder, side, target) in pre-order.  Relative to the tree, what the
    table's links do is a fact about this list: the table is read once, in [edge_in]; the
    targets are the slots of [t] below its root, each once when the slots are distinct *)
Definition out (i : N) (rt : bool) (c : tree) : list (N * bool * N) :=
  match link c with Some j => [(i, rt, j)] | None => [] end.

Fixpoint edges (t : tree) : list (N * bool * N) :=
  match t with
  | Leaf => []
  | Node i _ _ l r => out i false l ++ edges l ++ out i true r ++ edges r
  end.

Lemma edges_targets t : map snd (edges t) = tl (ids t).
Proof.
  assert (H : forall i rt c, map snd (edges c) = tl (ids c) -> map snd (out i rt c ++ edges c) = ids c).
  { intros i rt [|] E; [reflexivity|]. cbn [out link app map snd]. rewrite E. reflexivity. }
  induction t as [|i p v l IHl r IHr]; [reflexivity|].
  cbn [edges ids tl]. rewrite app_assoc, map_app, (H _ _ _ IHl), (H _ _ _ IHr). reflexivity.
Qed.

Lemma edge_in tb t o : rep tb o t ->
  forall i rt j, In i (ids t) -> edge tb i rt j -> In (i, rt, j) (edges t).
Proof.
  induction 1 as [|k p v l r ol orr Hs Rl IHl Rr IHr]; intros i rt j Hi E; [destruct Hi|].
  cbn [edges]. rewrite !in_app_iff.
  destruct Hi as [<-|Hi]; [|apply in_app_or in Hi; destruct Hi; [right; left|do 3 right]; eauto].
  destruct E as (n & Hn & Hc). rewrite Hs in Hn. injection Hn as <-.
  rewrite (rep_link _ _ _ Rl), (rep_link _ _ _ Rr) in Hc.
  destruct rt; cbn [child_of nleft nright] in Hc; unfold out; rewrite Hc; cbn [In]; auto.
Qed.

Lemma nodup_map_inj {A B} (f : A -> B) l : NoDup (map f l) ->
  forall x y, In x l -> In y l -> f x = f y -> x = y.
Proof.
  induction l as [|a l IH]; intros ND x y Hx Hy E; [destruct Hx|].
  cbn [map] in ND. inversion ND as [|? ? NI ND']; subst.
  destruct Hx as [->|Hx], Hy as [->|Hy]; [reflexivity| | |exact (IH ND' x y Hx Hy E)].
  - destruct NI. rewrite E. exact (in_map f l y Hy).
  - destruct NI. rewrite <- E. exact (in_map f l x Hx).
Qed.

Lemma edge_target tb : forall t o, rep tb o t -> NoDup (ids t) ->
  forall i rt j, In i (ids t) -> edge tb i rt j -> In j (ids t) /\ Some j <> o.
Proof.
  intros t o R ND i rt j Hi E. apply (edge_in _ _ _ R _ _ _ Hi), (in_map snd) in E.
  rewrite edges_targets in E. rewrite (rep_link _ _ _ R). destruct t as [|k p v l r]; [destruct Hi|].
  cbn [ids tl link snd] in *. inversion ND; subst. split; [right; exact E|]. intros [= ->]. contradiction.
Qed.

Lemma edge_unique tb : forall t o, rep tb o t -> NoDup (ids t) ->
  forall i1 rt1 i2 rt2 j, In i1 (ids t) -> In i2 (ids t) ->
  edge tb i1 rt1 j -> edge tb i2 rt2 j -> i1 = i2 /\ rt1 = rt2.
Proof.
  intros t o R ND i1 rt1 i2 rt2 j H1 H2 E1 E2.
  apply (edge_in _ _ _ R _ _ _ H1) in E1. apply (edge_in _ _ _ R _ _ _ H2) in E2.
  assert (NDe : NoDup (map snd (edges t))).
  { rewrite edges_targets. destruct t; [constructor|]. inversion ND; assumption. }
  pose proof (nodup_map_inj snd _ NDe _ _ E1 E2 eq_refl) as [= -> ->]. auto.
Qed.

Lemma ids_live tb : forall t k, rep tb (Some k) t -> live tb k -> forall i, In i (ids t) -> live tb i.
Proof.
  induction t as [|k0 p v l IHl r IHr]; intros k R Lk i Hi; [destruct Hi|].
  pose proof (rep_node_inv _ _ _ _ _ _ _ R) as (E & Hs & Rl & Rr). injection E as <-.
  cbn [ids In] in Hi. rewrite in_app_iff in Hi. destruct Hi as [<-|[Hi|Hi]]; [exact Lk| |].
  - destruct l as [|lk lp lv ll lr]; [destruct Hi|]. cbn [link] in *.
    apply (IHl lk Rl); [|exact Hi]. apply (live_step tb k false lk Lk). eexists. split; [exact Hs|reflexivity].
  - destruct r as [|rk rp rv rl rr]; [destruct Hi|]. cbn [link] in *.
    apply (IHr rk Rr); [|exact Hi]. apply (live_step tb k true rk Lk). eexists. split; [exact Hs|reflexivity].
Qed.

Theorem live_iff_ids am m : Rep am m -> minv m ->
  forall i, live (tbl am) i <-> In i (ids (root m)).
Proof.
  intros R M i. destruct R as (R & _).
  pose proof (slots_nodup _ _ M) as ND.
  split.
  - intros L. induction L as [|i rt j L IH E].
    + destruct (rep_some_inv _ _ _ R) as (p & v & l & r & ->). cbn. auto.
    + exact (proj1 (edge_target _ _ _ R ND i rt j IH E)).
  - apply (ids_live _ _ _ R). constructor.
Qed.

Theorem live_in_bounds am m : Rep am m -> minv m ->
  forall i, live (tbl am) i -> exists n, slot (tbl am) i = Some n.
Proof.
  intros R M i L. apply slot_lt. apply (live_iff_ids am m R M) in L.
  eapply rep_bounds; [apply R|exact L].
Qed.

Theorem links_in_bounds am m : Rep am m -> minv m ->
  forall i rt j, live (tbl am) i -> edge (tbl am) i rt j -> (j < N.of_nat (length (tbl am)))%N.
Proof.
  intros R M i rt j L E. apply slot_lt. apply (live_in_bounds am m R M). econstructor; eauto.
Qed.

Theorem live_not_free am m : Rep am m -> minv m ->
  forall i, live (tbl am) i -> ~ In i (afree am).
Proof.
  intros R M i L. apply (live_iff_ids am m R M) in L. destruct R as (_ & -> & _).
  exact (slots_disjoint _ _ M i L).
Qed.

Theorem no_double_link am m : Rep am m -> minv m ->
  forall i1 rt1 i2 rt2 j, live (tbl am) i1 -> live (tbl am) i2 ->
  edge (tbl am) i1 rt1 j -> edge (tbl am) i2 rt2 j -> i1 = i2 /\ rt1 = rt2.
Proof.
  intros R M i1 rt1 i2 rt2 j L1 L2 E1 E2.
  apply (live_iff_ids am m R M) in L1. apply (live_iff_ids am m R M) in L2.
  pose proof (slots_nodup _ _ M) as ND.
  destruct R as (R & _). exact (edge_unique _ _ _ R ND _ _ _ _ _ L1 L2 E1 E2).
Qed.

Theorem root_not_linked am m : Rep am m -> minv m ->
  forall i rt, live (tbl am) i -> ~ edge (tbl am) i rt 0%N.
Proof.
  intros R M i rt L E. apply (live_iff_ids am m R M) in L.
  pose proof (slots_nodup _ _ M) as ND.
  destruct R as (R & _). destruct (edge_target _ _ _ R ND i rt 0%N L E) as (_ & Hne). congruence.
Qed.

Theorem slots_partition am m : Rep am m -> minv m ->
  forall i, (i < N.of_nat (length (tbl am)))%N <-> (live (tbl am) i \/ In i (afree am)).
Proof.
  intros R M i. rewrite (live_iff_ids am m R M). destruct R as (_ & -> & -> & _).
  exact (slots_range _ _ M i).
Qed.

(** the six clauses that [reachable_structure] and [Arena2Thm.reachable_structure2] spell out *)
Definition well_linked (am : amap) : Prop :=
  (forall i, live (tbl am) i -> exists n, slot (tbl am) i = Some n) /\
  (forall i rt j, live (tbl am) i -> edge (tbl am) i rt j -> (j < N.of_nat (length (tbl am)))%N) /\
  (forall i, live (tbl am) i -> ~ In i (afree am)) /\
  (forall i1 rt1 i2 rt2 j, live (tbl am) i1 -> live (tbl am) i2 ->
     edge (tbl am) i1 rt1 j -> edge (tbl am) i2 rt2 j -> i1 = i2 /\ rt1 = rt2) /\
  (forall i rt, live (tbl am) i -> ~ edge (tbl am) i rt 0%N) /\
  (forall i, (i < N.of_nat (length (tbl am)))%N <-> (live (tbl am) i \/ In i (afree am))).

Theorem Rep_structure am m : Rep am m -> minv m -> well_linked am.
Proof.
  intros R M.
  split; [exact (live_in_bounds am m R M)|].
  split; [exact (links_in_bounds am m R M)|].
  split; [exact (live_not_free am m R M)|].
  split; [exact (no_double_link am m R M)|].
  split; [exact (root_not_linked am m R M)|].
  exact (slots_partition am m R M).
Qed.

Corollary reachable_structure am : reachable am ->
  (forall i, live (tbl am) i -> exists n, slot (tbl am) i = Some n) /\
  (forall i rt j, live (tbl am) i -> edge (tbl am) i rt j -> (j < N.of_nat (length (tbl am)))%N) /\
  (forall i, live (tbl am) i -> ~ In i (afree am)) /\
  (forall i1 rt1 i2 rt2 j, live (tbl am) i1 -> live (tbl am) i2 ->
     edge (tbl am) i1 rt1 j -> edge (tbl am) i2 rt2 j -> i1 = i2 /\ rt1 = rt2) /\
  (forall i rt, live (tbl am) i -> ~ edge (tbl am) i rt 0%N) /\
  (forall i, (i < N.of_nat (length (tbl am)))%N <-> (live (tbl am) i \/ In i (afree am))).
Proof. intros H. destruct (reachable_Rep am H) as (m & R & M). exact (Rep_structure am m R M). Qed.

Theorem Rep_total am m q x : Rep am m -> minv m ->
  (exists o, a_get am q = Ok o) /\ (exists o, a_get_lpm am q = Ok o) /\
  (exists r, a_insert am q x = Ok r) /\ (exists r, a_remove am q = Ok r) /\
  (exists r, a_remove_keep_tree am q = Ok r) /\ (exists es, a_entries am = Ok es) /\
  (forall fuel, (length (tbl am) <= fuel)%nat ->
     (exists o, a_get_loop fuel (tbl am) 0%N q = Ok o) /\
     (exists o, a_lpm_loop fuel (tbl am) 0%N q None = Ok o) /\
     (exists r, a_insert_loop fuel am 0%N q x = Ok r) /\
     (exists r, a_find fuel (tbl am) 0%N None false None false q = Ok r) /\
     (exists r, a_rkt_loop fuel (tbl am) 0%N q = Ok r)).
Proof.
  intros R M.
  split; [rewrite (get_sim am m q R M); eauto|].
  split; [rewrite (get_lpm_sim am m q R M); eauto|].
  split; [destruct (insert_sim am m q x R M) as (? & -> & _); eauto|].
  split; [destruct (remove_sim am m q R M) as (? & -> & _); eauto|].
  split; [destruct (remove_keep_tree_sim am m q R M) as (? & -> & _); eauto|].
  split; [rewrite (entries_sim am m R M); eauto|].
  intros fuel F.
  split; [rewrite (get_fuel_bound am m q fuel R M F); eauto|].
  split; [rewrite (get_lpm_fuel_bound am m q fuel R M F); eauto|].
  split; [destruct (insert_fuel_bound am m q x fuel R M F) as (? & -> & _); eauto|].
  split.
  - destruct (remove_fuel_bound am m q fuel R M F) as (am' & E & _).
    destruct (a_find fuel (tbl am) 0%N None false None false q); try discriminate E. eauto.
  - destruct (remove_keep_tree_fuel_bound am m q fuel R M F) as (tb' & -> & _). eauto.
Qed.

(** the operations on a reachable arena state never panic and never run out of fuel, and the
    descent loops stop within [length tbl] iterations *)
Corollary reachable_total am q x : reachable am ->
  (exists o, a_get am q = Ok o) /\ (exists o, a_get_lpm am q = Ok o) /\
  (exists r, a_insert am q x = Ok r) /\ (exists r, a_remove am q = Ok r) /\
  (exists r, a_remove_keep_tree am q = Ok r) /\ (exists es, a_entries am = Ok es) /\
  (forall fuel, (length (tbl am) <= fuel)%nat ->
     (exists o, a_get_loop fuel (tbl am) 0%N q = Ok o) /\
     (exists o, a_lpm_loop fuel (tbl am) 0%N q None = Ok o) /\
     (exists r, a_insert_loop fuel am 0%N q x = Ok r) /\
     (exists r, a_find fuel (tbl am) 0%N None false None false q = Ok r) /\
     (exists r, a_rkt_loop fuel (tbl am) 0%N q = Ok r)).
Proof. intros H. destruct (reachable_Rep am H) as (m & R & M). exact (Rep_total am m q x R M). Qed.

End Ops.
End AT.

Print Assumptions get_sim.
Print Assumptions get_lpm_sim.
Print Assumptions entries_sim.
Print Assumptions insert_sim.
Print Assumptions remove_keep_tree_sim.
Print Assumptions remove_sim.
Print Assumptions get_fuel_bound.
Print Assumptions get_lpm_fuel_bound.
Print Assumptions entries_fuel_bound.
Print Assumptions insert_fuel_bound.
Print Assumptions remove_keep_tree_fuel_bound.
Print Assumptions remove_fuel_bound.
Print Assumptions rep_ext.
Print Assumptions rep_upd.
Print Assumptions rep_app.
Print Assumptions run_sim.
Print Assumptions outs_sim.
Print Assumptions live_iff_ids.
Print Assumptions reachable_structure.
Print Assumptions reachable_total.
