(** Facts about bit strings: the covering relation, common prefixes, the iteration order.  The facts
    about the comparison [bcmp] are in [PrefixLaws] ([bcmp_eq], [bcmp_first_diff]) and at the top of
    [UnionThm] ([bcmp_refl], [bcmp_sep], [incomp_cases], [bcmp_same_len_lt]). *)
From Coq Require Import List Bool Arith Lia.
From PT Require Import Bits.
Import ListNotations.

Lemma prefix_of_refl a : prefix_of a a.
Proof. exists []. rewrite app_nil_r. reflexivity. Qed.

Lemma prefix_of_nil a : prefix_of [] a.
Proof. exists a. reflexivity. Qed.

Lemma prefix_of_trans a b c : prefix_of a b -> prefix_of b c -> prefix_of a c.
Proof. intros [r1 ->] [r2 ->]. exists (r1 ++ r2). rewrite app_assoc. reflexivity. Qed.

Lemma prefix_of_app a r : prefix_of a (a ++ r).
Proof. exists r. reflexivity. Qed.

Lemma prefix_of_len a b : prefix_of a b -> length a <= length b.
Proof. intros [r ->]. rewrite app_length. lia. Qed.

Lemma prefix_of_same_len a b : prefix_of a b -> length b <= length a -> a = b.
Proof.
  intros [r ->] H. rewrite app_length in H.
  destruct r; [rewrite app_nil_r; reflexivity | cbn in H; lia].
Qed.

Lemma prefix_of_antisym a b : prefix_of a b -> prefix_of b a -> a = b.
Proof. intros H1 H2. apply prefix_of_same_len; [exact H1 | apply prefix_of_len; exact H2]. Qed.

Lemma prefix_of_cons x a b : prefix_of (x :: a) (x :: b) <-> prefix_of a b.
Proof.
  split; intros [r H]; exists r.
  - cbn in H. inversion H. reflexivity.
  - cbn. rewrite H. reflexivity.
Qed.

Lemma prefix_of_cons_inv x y a b : prefix_of (x :: a) (y :: b) -> x = y /\ prefix_of a b.
Proof. intros [r H]. cbn in H. inversion H; subst. split; [reflexivity | exists r; reflexivity]. Qed.

Lemma prefix_of_nil_r a : prefix_of a [] -> a = [].
Proof. intros [r H]. destruct a; [reflexivity | discriminate]. Qed.

Lemma is_prefix_spec a b : is_prefix a b = true <-> prefix_of a b.
Proof.
  revert b. induction a as [|x a IH]; intros b; cbn.
  - split; [intros _; apply prefix_of_nil | reflexivity].
  - destruct b as [|y b].
    + split; [discriminate | intros H; apply prefix_of_nil_r in H; discriminate].
    + rewrite andb_true_iff, IH. split.
      * intros [E H]. apply eqb_prop in E. subst. apply prefix_of_cons. exact H.
      * intros H. apply prefix_of_cons_inv in H. destruct H as [-> H]. split; [apply eqb_reflx | exact H].
Qed.

Lemma beq_spec (a b : bits) : beq a b = true <-> a = b.
Proof.
  unfold beq. rewrite andb_true_iff, !is_prefix_spec. split.
  - intros [A B]. apply prefix_of_antisym; assumption.
  - intros ->. split; apply prefix_of_refl.
Qed.

Lemma prefix_of_comparable a b c : prefix_of a c -> prefix_of b c -> prefix_of a b \/ prefix_of b a.
Proof.
  revert b c. induction a as [|x a IH]; intros b c Ha Hb.
  - left. apply prefix_of_nil.
  - destruct b as [|y b]; [right; apply prefix_of_nil|].
    destruct c as [|z c]; [apply prefix_of_nil_r in Ha; discriminate|].
    apply prefix_of_cons_inv in Ha. destruct Ha as [-> Ha].
    apply prefix_of_cons_inv in Hb. destruct Hb as [-> Hb].
    destruct (IH b c Ha Hb) as [H|H]; [left | right]; apply prefix_of_cons; exact H.
Qed.

Lemma not_self_ext (a : bits) s r : a = a ++ s :: r -> False.
Proof. intros H. apply (f_equal (@length bool)) in H. rewrite app_length in H. cbn in H. lia. Qed.

Lemma sides_disjoint a k : prefix_of (a ++ [false]) k -> prefix_of (a ++ [true]) k -> False.
Proof.
  intros [r1 ->] [r2 H]. rewrite <- !app_assoc in H. apply app_inv_head in H. cbn in H. discriminate.
Qed.

Lemma below_prefix a s k : prefix_of (a ++ [s]) k -> prefix_of a k.
Proof. intros H. eapply prefix_of_trans; [apply prefix_of_app | exact H]. Qed.

Lemma below_longer a s k : prefix_of (a ++ [s]) k -> length a < length k.
Proof. intros H. apply prefix_of_len in H. rewrite app_length in H. cbn in H. lia. Qed.

Lemma below_not_above a s k : prefix_of (a ++ [s]) k -> prefix_of k a -> False.
Proof. intros H1 H2. apply below_longer in H1. apply prefix_of_len in H2. lia. Qed.

Lemma below_neq a s k : prefix_of (a ++ [s]) k -> k = a -> False.
Proof. intros H ->. eapply below_not_above; [exact H | apply prefix_of_refl]. Qed.

Lemma nth_app_mid (a : bits) x r : nth (length a) (a ++ x :: r) false = x.
Proof. rewrite app_nth2 by lia. rewrite Nat.sub_diag. reflexivity. Qed.

Lemma proper_ext a k : prefix_of a k -> k <> a -> prefix_of (a ++ [nth (length a) k false]) k.
Proof.
  intros [r ->] Hne. destruct r as [|x r]; [exfalso; apply Hne; apply app_nil_r|].
  rewrite nth_app_mid. exists r. rewrite <- app_assoc. reflexivity.
Qed.

Lemma ext_bit a s k : prefix_of (a ++ [s]) k -> nth (length a) k false = s.
Proof. intros [r ->]. rewrite <- app_assoc. cbn. apply nth_app_mid. Qed.

Lemma common_prefix_l a b : prefix_of (common a b) a.
Proof.
  revert b. induction a as [|x a IH]; intros b; cbn; [apply prefix_of_nil|].
  destruct b as [|y b]; [apply prefix_of_nil|].
  destruct (eqb x y); [apply prefix_of_cons; apply IH | apply prefix_of_nil].
Qed.

Lemma common_sym a b : common a b = common b a.
Proof.
  revert b. induction a as [|x a IH]; intros [|y b]; cbn; try reflexivity.
  destruct (eqb x y) eqn:E.
  - apply eqb_prop in E. subst. rewrite eqb_reflx. f_equal. apply IH.
  - rewrite eqb_false_iff in E. destruct (eqb y x) eqn:E'; [apply eqb_prop in E'; congruence | reflexivity].
Qed.

Lemma common_prefix_r a b : prefix_of (common a b) b.
Proof. rewrite common_sym. apply common_prefix_l. Qed.

Lemma common_greatest a b c : prefix_of c a -> prefix_of c b -> prefix_of c (common a b).
Proof.
  revert a b. induction c as [|z c IH]; intros a b Ha Hb; [apply prefix_of_nil|].
  destruct a as [|x a]; [apply prefix_of_nil_r in Ha; discriminate|].
  destruct b as [|y b]; [apply prefix_of_nil_r in Hb; discriminate|].
  apply prefix_of_cons_inv in Ha. destruct Ha as [<- Ha].
  apply prefix_of_cons_inv in Hb. destruct Hb as [<- Hb].
  cbn. rewrite eqb_reflx. apply prefix_of_cons. apply IH; assumption.
Qed.

Lemma common_split a b :
  ~ prefix_of a b -> ~ prefix_of b a ->
  exists s, prefix_of (common a b ++ [s]) a /\ prefix_of (common a b ++ [negb s]) b.
Proof.
  revert b. induction a as [|x a IH]; intros b Hab Hba.
  - exfalso. apply Hab. apply prefix_of_nil.
  - destruct b as [|y b]; [exfalso; apply Hba; apply prefix_of_nil|].
    cbn. destruct (eqb x y) eqn:E.
    + apply eqb_prop in E. subst y.
      destruct (IH b) as [s [H1 H2]].
      * intros H. apply Hab. apply prefix_of_cons. exact H.
      * intros H. apply Hba. apply prefix_of_cons. exact H.
      * exists s. split; cbn; apply prefix_of_cons; assumption.
    + exists x. cbn. split.
      * exists a. reflexivity.
      * rewrite eqb_false_iff in E. destruct x, y; try congruence; exists b; reflexivity.
Qed.

Lemma lex_lt_irrefl a : ~ lex_lt a a.
Proof. induction a as [|x a IH]; cbn; [tauto|]. intros [[H1 H2]|[_ H]]; [congruence | tauto]. Qed.

Lemma lex_lt_trans a b c : lex_lt a b -> lex_lt b c -> lex_lt a c.
Proof.
  revert b c. induction a as [|x a IH]; intros [|y b] [|z c]; cbn; try tauto.
  intros [[-> ->]|[-> H1]] [[H2 ->]|[-> H2]]; try discriminate; auto.
  right. split; [reflexivity|]. eapply IH; eassumption.
Qed.

Lemma lex_lt_prefix a b : prefix_of a b -> a <> b -> lex_lt a b.
Proof.
  revert b. induction a as [|x a IH]; intros [|y b] H Hne; cbn; try tauto.
  - apply prefix_of_nil_r in H. discriminate.
  - apply prefix_of_cons_inv in H. destruct H as [-> H]. right. split; [reflexivity|].
    apply IH; [exact H | congruence].
Qed.

Lemma lex_lt_below a s k : prefix_of (a ++ [s]) k -> lex_lt a k.
Proof.
  intros H. apply lex_lt_prefix; [eapply below_prefix; exact H|].
  intros E. eapply below_neq; [exact H | symmetry; exact E].
Qed.

Lemma lex_lt_branches a k1 k2 :
  prefix_of (a ++ [false]) k1 -> prefix_of (a ++ [true]) k2 -> lex_lt k1 k2.
Proof.
  intros [r1 ->] [r2 ->]. rewrite <- !app_assoc.
  induction a as [|z a IH]; cbn; [left; split; reflexivity | right; split; [reflexivity | exact IH]].
Qed.

Lemma lex_ltb_spec a b : lex_ltb a b = true <-> lex_lt a b.
Proof.
  revert b. induction a as [|x a IH]; intros [|y b]; cbn; try (split; [discriminate | tauto]); try tauto.
  rewrite orb_true_iff, !andb_true_iff, IH, negb_true_iff. split.
  - intros [[-> ->]|[E H]]; [left; split; reflexivity | right; split; [apply eqb_prop; exact E | exact H]].
  - intros [[-> ->]|[-> H]]; [left; split; reflexivity | right; split; [apply eqb_reflx | exact H]].
Qed.

Lemma lex_lt_total a b : a = b \/ lex_lt a b \/ lex_lt b a.
Proof.
  revert b. induction a as [|x a IH]; intros [|y b]; cbn; auto.
  destruct (IH b) as [->|[H|H]]; destruct x, y; auto 6.
Qed.
