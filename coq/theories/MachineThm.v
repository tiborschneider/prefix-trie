(** The one theorem behind every traversal: if each stack entry's expansion is locally correct
    with respect to a relational specification [R] (what the entry contributes to the output) and
    decreases a size measure, then running the machine to exhaustion with enough fuel yields the
    concatenation of the contributions of the initial stack, top first ([run_rel]; [run_spec] for a
    functional specification, [run_total] for termination alone).  Then fuel monotonicity and [next];
    [run_sim], [run_inv], [run_mirror] for twin machines (an iterator and its [_mut] copy);
    [pick], [pruned], [run_prune] for a machine that leaves part of another's work out.  *)
From Coq Require Import List Arith Lia.
From PT Require Import Machine.
Import ListNotations.

Lemma Forall2_eq_flat_map {A B} (f : A -> list B) (l : list A) (ls : list (list B)) :
  Forall2 (fun x o => o = f x) l ls -> concat ls = flat_map f l.
Proof. induction 1 as [|x o l ls -> _ IH]; [reflexivity|]. cbn. rewrite IH. reflexivity. Qed.

Section MachineThm.
Variables (E I : Type) (expand : E -> option I * list E) (size : E -> nat).
Notation run := (run E I expand).
Notation opt_cons := (opt_cons I).

Definition msize (st : list E) := list_sum (map size st).

Lemma msize_app a b : msize (a ++ b) = msize a + msize b.
Proof. unfold msize. rewrite map_app, list_sum_app. reflexivity. Qed.
Lemma msize_rev a : msize (rev a) = msize a.
Proof.
  induction a as [|x a IH]; [reflexivity|]. cbn [rev]. rewrite msize_app, IH. unfold msize. simpl. lia.
Qed.
Lemma msize_cons x a : msize (x :: a) = size x + msize a.
Proof. reflexivity. Qed.

Section Rel.
Variable ok : E -> Prop.
Variable R : E -> list I -> Prop.
Hypothesis expand_dec : forall e o cs, ok e -> expand e = (o, cs) -> msize cs < size e.
Hypothesis local : forall e o cs, ok e -> expand e = (o, cs) ->
   Forall ok cs /\ (forall ls, Forall2 R (rev cs) ls -> R e (opt_cons o (concat ls))).

Theorem run_rel : forall n st, Forall ok st -> msize st <= n ->
  exists ls, Forall2 R st ls /\ run n st = Some (concat ls).
Proof.
  induction n as [|n IH]; intros st Hok Hn.
  - destruct st as [|e rest]; [exists []; split; [constructor|reflexivity]|].
    exfalso. inversion Hok as [|? ? He Hr]; subst.
    destruct (expand e) as [o cs] eqn:Hex. pose proof (expand_dec _ _ _ He Hex).
    rewrite msize_cons in Hn. lia.
  - destruct st as [|e rest]; [exists []; split; [constructor|reflexivity]|].
    inversion Hok as [|? ? He Hr]; subst.
    cbn [Machine.run]. destruct (expand e) as [o cs] eqn:Hex.
    destruct (local _ _ _ He Hex) as [Hcs Hloc].
    pose proof (expand_dec _ _ _ He Hex) as Hdec.
    destruct (IH (rev cs ++ rest)) as [ls [HF Hrun]].
    + apply Forall_app; split; [apply Forall_rev; exact Hcs | exact Hr].
    + rewrite msize_app, msize_rev. rewrite msize_cons in Hn. lia.
    + apply Forall2_app_inv_l in HF. destruct HF as [l1 [l2 [H1 [H2 ->]]]].
      exists (opt_cons o (concat l1) :: l2). split.
      * constructor; [apply Hloc; exact H1 | exact H2].
      * rewrite Hrun. rewrite concat_app. cbn [concat]. destruct o; reflexivity.
Qed.
End Rel.

Section Fun.
Variable ok : E -> Prop.
Variable Spec : E -> list I.
Hypothesis expand_dec : forall e o cs, ok e -> expand e = (o, cs) -> msize cs < size e.
Hypothesis local : forall e o cs, ok e -> expand e = (o, cs) ->
   Forall ok cs /\ opt_cons o (flat_map Spec (rev cs)) = Spec e.

Theorem run_spec : forall n st, Forall ok st -> msize st <= n -> run n st = Some (flat_map Spec st).
Proof.
  intros n st Hok Hn.
  destruct (run_rel ok (fun e out => out = Spec e) expand_dec) with (n := n) (st := st) as [ls [HF Hrun]];
    try assumption.
  - intros e o cs He Hex. destruct (local _ _ _ He Hex) as [Hcs Heq]. split; [exact Hcs|].
    intros ls HF. rewrite <- Heq. f_equal. apply Forall2_eq_flat_map. exact HF.
  - rewrite Hrun. f_equal. apply Forall2_eq_flat_map. exact HF.
Qed.
End Fun.

(** termination alone: an invariant of the stack entries under which every step decreases the measure *)
Lemma run_total (ok : E -> Prop) :
  (forall e, ok e -> msize (snd (expand e)) < size e /\ Forall ok (snd (expand e))) ->
  forall n st, Forall ok st -> msize st <= n -> exists out, run n st = Some out.
Proof.
  intros Hl n st F Hn.
  destruct (run_rel ok (fun _ _ => True)) with (n := n) (st := st) as (ls & _ & Hr); [| |exact F|exact Hn|eauto].
  - intros e o cs He Hex. destruct (Hl e He) as [D _]. rewrite Hex in D. exact D.
  - intros e o cs He Hex. destruct (Hl e He) as [_ K]. rewrite Hex in K. split; [exact K | trivial].
Qed.

Lemma run_fuel_mono : forall n m st out, run n st = Some out -> n <= m -> run m st = Some out.
Proof.
  induction n as [|n IH]; intros m st out H Hle.
  - destruct st; [|discriminate]. destruct m; exact H.
  - destruct st as [|e rest]; [destruct m; exact H|].
    destruct m as [|m]; [lia|]. cbn [Machine.run] in *.
    destruct (expand e) as [o cs]. destruct (run n (rev cs ++ rest)) as [out'|] eqn:Hr; [|discriminate].
    rewrite (IH m _ _ Hr) by lia. exact H.
Qed.

Lemma run_next : forall n st out,
  run n st = Some out ->
  match next E I expand n st with
  | Some (Some x, st') => exists out', out = x :: out' /\ run n st' = Some out'
  | Some (None, st') => out = [] /\ st' = []
  | None => False
  end.
Proof.
  induction n as [|n IH]; intros st out H.
  - destruct st; [|discriminate]. inversion H. cbn. auto.
  - destruct st as [|e rest]; [inversion H; cbn; auto|].
    cbn [Machine.run next] in *. destruct (expand e) as [o cs].
    destruct (run n (rev cs ++ rest)) as [out1|] eqn:Hr; [|discriminate].
    destruct o as [x|].
    + inversion H; subst. exists out1. split; [reflexivity|].
      apply (run_fuel_mono n (S n)); [exact Hr | lia].
    + inversion H; subst. specialize (IH _ _ Hr).
      destruct (next E I expand n (rev cs ++ rest)) as [[[x|] st']|]; try contradiction.
      * destruct IH as [out' [-> Hr']]. exists out'. split; [reflexivity|].
        apply (run_fuel_mono n (S n)); [exact Hr' | lia].
      * exact IH.
Qed.

End MachineThm.

(** two machines whose [expand]s agree entry by entry, up to [g] on the entries and [f1]/[f2] on the
    items, produce with the same fuel outputs with equal images, or both run out of fuel *)
Section Sim.
Variables (E1 E2 I1 I2 J : Type) (ex1 : E1 -> option I1 * list E1) (ex2 : E2 -> option I2 * list E2).
Variables (g : E1 -> E2) (f1 : I1 -> J) (f2 : I2 -> J).
Hypothesis sim : forall e,
  option_map f1 (fst (ex1 e)) = option_map f2 (fst (ex2 (g e))) /\
  map g (snd (ex1 e)) = snd (ex2 (g e)).

Lemma run_sim n : forall st,
  option_map (map f1) (run E1 I1 ex1 n st) = option_map (map f2) (run E2 I2 ex2 n (map g st)).
Proof.
  induction n as [|n IH]; intros [|e rest]; cbn [run map]; try reflexivity.
  destruct (sim e) as [H1 H2]. destruct (ex1 e) as [o1 c1], (ex2 (g e)) as [o2 c2].
  cbn [fst snd] in H1, H2. subst c2. rewrite <- map_rev, <- map_app.
  specialize (IH (rev c1 ++ rest)).
  destruct (run E1 I1 ex1 n (rev c1 ++ rest)) as [out1|],
           (run E2 I2 ex2 n (map g (rev c1 ++ rest))) as [out2|]; try discriminate; [|reflexivity].
  cbn [option_map] in *. injection IH as IH.
  destruct o1, o2; try discriminate; cbn [opt_cons map option_map] in *; congruence.
Qed.
End Sim.

(** an invariant of the stack entries that [expand] passes on to what it pushes, and under which
    every emitted item satisfies [Q]: then every item of a run satisfies [Q] *)
Section Inv.
Variables (E I : Type) (ex : E -> option I * list E) (inv : E -> Prop) (Q : I -> Prop).
Hypothesis step : forall e, inv e -> Forall inv (snd (ex e)) /\ forall it, fst (ex e) = Some it -> Q it.

Lemma run_inv n : forall st out, Forall inv st -> run E I ex n st = Some out -> Forall Q out.
Proof.
  induction n as [|n IH]; intros [|e rest] out Hst Hrun; cbn [run] in Hrun;
    [injection Hrun as <-; constructor | discriminate | injection Hrun as <-; constructor|].
  inversion Hst as [|? ? He Hr]; subst. destruct (step e He) as [Hcs Hit].
  destruct (ex e) as [o cs]. cbn [fst snd] in Hcs, Hit.
  destruct (run E I ex n (rev cs ++ rest)) as [out'|] eqn:Hr'; [|discriminate].
  injection Hrun as <-.
  assert (HQ : Forall Q out').
  { apply (IH _ _ (proj2 (Forall_app _ _ _) (conj (Forall_rev Hcs) Hr)) Hr'). }
  destruct o as [it|]; cbn [opt_cons]; [constructor; [apply Hit; reflexivity | exact HQ] | exact HQ].
Qed.
End Inv.

(** both at once, in the shape the [_mut] twins need: if machine 1 is the [f]-image of machine 2 at
    every fuel and stack (a [run_sim] with [g] the identity: [InterDiffThm.run_sim]), a run of
    machine 1 is the image of a run of machine 2 all of whose items satisfy [Q] *)
Lemma run_mirror {E I1 I2} (ex1 : E -> option I1 * list E) (ex2 : E -> option I2 * list E)
                 (f : I2 -> I1) (inv : E -> Prop) (Q : I2 -> Prop) :
  (forall n st, run E I1 ex1 n st = option_map (map f) (run E I2 ex2 n st)) ->
  (forall e, inv e -> Forall inv (snd (ex2 e)) /\ forall it, fst (ex2 e) = Some it -> Q it) ->
  forall n st out, run E I1 ex1 n st = Some out -> Forall inv st ->
  exists outm, run E I2 ex2 n st = Some outm /\ out = map f outm /\ Forall Q outm.
Proof.
  intros sim step n st out Hr Hst. rewrite sim in Hr.
  destruct (run E I2 ex2 n st) as [outm|] eqn:Em; [|discriminate]. injection Hr as <-.
  exists outm. split; [reflexivity|]. split; [reflexivity|]. exact (run_inv _ _ ex2 inv Q step n _ _ Hst Em).
Qed.

(** [pick f l]: the images of the elements of [l] that [f] selects, in order *)
Definition pick {A B} (f : A -> option B) (l : list A) : list B :=
  flat_map (fun a => match f a with Some b => [b] | None => [] end) l.

Lemma pick_app {A B} (f : A -> option B) l1 l2 : pick f (l1 ++ l2) = pick f l1 ++ pick f l2.
Proof. apply flat_map_app. Qed.

Lemma pick_opt_cons {A B} (f : A -> option B) o l :
  pick f (opt_cons A o l) = opt_cons B (match o with Some a => f a | None => None end) (pick f l).
Proof. destruct o as [a|]; [|reflexivity]. cbn. destruct (f a); reflexivity. Qed.

Lemma in_pick {A B} (f : A -> option B) l b : In b (pick f l) <-> exists a, In a l /\ f a = Some b.
Proof.
  unfold pick. rewrite in_flat_map. split; intros [a [Ha H]]; exists a; (split; [exact Ha|]).
  - destruct (f a) as [b'|]; [destruct H as [<-|[]]; reflexivity | destruct H].
  - rewrite H. left. reflexivity.
Qed.

Lemma pick_map {A B C} (f : B -> option C) (h : A -> B) l : pick f (map h l) = pick (fun a => f (h a)) l.
Proof. unfold pick. induction l as [|a l IH]; [reflexivity|]. cbn [map flat_map]. rewrite IH. reflexivity. Qed.

Lemma pick_size {A B} (sa : A -> nat) (sb : B -> nat) (g : A -> option B) xs :
  (forall a b, g a = Some b -> sb b = sa a) -> msize B sb (pick g xs) <= msize A sa xs.
Proof.
  intros H. induction xs as [|a xs IH]; [apply le_n|]. change (a :: xs) with ([a] ++ xs).
  rewrite pick_app, !msize_app. apply Nat.add_le_mono; [|exact IH]. unfold pick. cbn [flat_map].
  destruct (g a) as [b|] eqn:E; [rewrite app_nil_r; unfold msize; cbn; rewrite (H a b E); apply le_n | apply Nat.le_0_l].
Qed.

(** A machine that is another machine with part of the work left out.  [pruned st st']: the stack
    [st'] of the second machine is the stack [st] of the first with some [dead] entries dropped
    and the others replaced by [G]-related ones.  If a [dead] entry emits nothing that [s] selects
    and pushes only [dead] entries, and a step of related entries either is the same step up to
    [s] and [pruned], or the second machine cuts a dead entry short, then the second machine
    yields the selected items of the first, with the same fuel. *)
Section Prune.
Variables (E1 E2 I1 I2 : Type) (ex1 : E1 -> option I1 * list E1) (ex2 : E2 -> option I2 * list E2).
Variables (s : I1 -> option I2) (G : E1 -> E2 -> Prop) (dead : E1 -> Prop).
Let osel (o : option I1) : option I2 := match o with Some a => s a | None => None end.

Inductive pruned : list E1 -> list E2 -> Prop :=
| pr_nil : pruned [] []
| pr_keep e e' st st' : G e e' -> pruned st st' -> pruned (e :: st) (e' :: st')
| pr_drop e st st' : dead e -> pruned st st' -> pruned (e :: st) st'.

Lemma pruned_app a a' b b' : pruned a a' -> pruned b b' -> pruned (a ++ b) (a' ++ b').
Proof. intros Ha Hb. induction Ha; cbn [app]; [exact Hb | apply pr_keep; assumption | apply pr_drop; assumption]. Qed.

Lemma pruned_rev a a' : pruned a a' -> pruned (rev a) (rev a').
Proof.
  intros H. induction H; cbn [rev]; [constructor | apply pruned_app; [assumption | repeat constructor; assumption]|].
  rewrite <- (app_nil_r (rev st')). apply pruned_app; [assumption | repeat constructor; assumption].
Qed.

Lemma pruned_dead a : Forall dead a -> pruned a [].
Proof. induction 1; [constructor | apply pr_drop; assumption]. Qed.

(** the usual way to obtain [pruned]: the second stack is [pick g] of the first *)
Lemma pruned_pick (g : E1 -> option E2) st :
  (forall e, In e st -> match g e with Some e' => G e e' | None => dead e end) -> pruned st (pick g st).
Proof.
  induction st as [|e st IH]; intros H; [constructor|]. pose proof (H e (or_introl eq_refl)) as He.
  specialize (IH (fun e' He' => H e' (or_intror He'))). unfold pick in *. cbn [flat_map].
  destruct (g e); [apply pr_keep | apply pr_drop]; assumption.
Qed.

Hypothesis dead_step : forall e, dead e -> osel (fst (ex1 e)) = None /\ Forall dead (snd (ex1 e)).
Hypothesis G_step : forall e e', G e e' ->
  (dead e /\ ex2 e' = (None, [])) \/
  (fst (ex2 e') = osel (fst (ex1 e)) /\ pruned (snd (ex1 e)) (snd (ex2 e'))).

Theorem run_prune n : forall st st' out,
  pruned st st' -> run E1 I1 ex1 n st = Some out -> run E2 I2 ex2 n st' = Some (pick s out).
Proof.
  induction n as [|n IH]; intros st st' out HP Hr.
  - destruct st; [|discriminate]. inversion HP. injection Hr as <-. reflexivity.
  - assert (Dead : forall e r r' o, dead e -> pruned r r' -> run E1 I1 ex1 (S n) (e :: r) = Some o ->
                     run E2 I2 ex2 n r' = Some (pick s o)).
    { intros e r r' o De Hrr Ho. cbn [run] in Ho. destruct (dead_step e De) as [Hs Hd].
      destruct (ex1 e) as [oi cs]. cbn [fst snd] in Hs, Hd.
      destruct (run E1 I1 ex1 n (rev cs ++ r)) as [o'|] eqn:Ho'; [|discriminate]. injection Ho as <-.
      rewrite pick_opt_cons. fold (osel oi). rewrite Hs. apply (IH (rev cs ++ r)); [|exact Ho'].
      apply (pruned_app _ []); [apply pruned_dead, Forall_rev, Hd | exact Hrr]. }
    destruct HP as [|e e' r r' HG HP|e r r' De HP].
    + injection Hr as <-. reflexivity.
    + destruct (G_step e e' HG) as [[De E2']|[Ho Hc]].
      * cbn [run]. rewrite E2'. cbn [rev app]. rewrite (Dead e r r' out De HP Hr). reflexivity.
      * cbn [run] in *. destruct (ex1 e) as [oi cs], (ex2 e') as [oi' cs']. cbn [fst snd] in Ho, Hc. subst oi'.
        destruct (run E1 I1 ex1 n (rev cs ++ r)) as [o'|] eqn:Ho'; [|discriminate]. injection Hr as <-.
        rewrite (IH (rev cs ++ r) (rev cs' ++ r') o' (pruned_app _ _ _ _ (pruned_rev _ _ Hc) HP) Ho').
        rewrite pick_opt_cons. reflexivity.
    + apply (run_fuel_mono _ _ _ n); [exact (Dead e r r' out De HP Hr) | apply Nat.le_succ_diag_r].
Qed.
End Prune.

(** the usual case: the second stack is [pick g] of the first, entries are kept where [g] is defined *)
Lemma pruned_by {E1 E2} (g : E1 -> option E2) st :
  pruned E1 E2 (fun e e' => g e = Some e') (fun e => g e = None) st (pick g st).
Proof. apply pruned_pick. intros e _. destruct (g e); reflexivity. Qed.
