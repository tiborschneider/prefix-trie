(** The Entry API ([src/map/entry.rs]: [Entry], [OccupiedEntry], [VacantEntry]) as an executable
    state machine over ONE entry handle, on top of the primitives of [Trie.v] ([entry], [h_get],
    [h_key], [vacant_insert], [occ_insert], [occ_remove], [update_value]).

    Part 1 (definitions only; the prefix laws are assumed from Part 2 on, in the same Section [D]): the actions [eact], the tokens [etok], the
    machine [entry_chain] (the protocol that [entry_op] of the Rust harness, harness/src/main.rs,
    runs against the library; the OCaml driver runs the extraction of [entry_chain] itself and
    the two token lists are compared), the decidable classes [occupied_reuse] (the
    recorded known finding: an [OccupiedEntry] used again after [remove]) and [closure_panics],
    and the one-cell reference machine [cell_chain] (the abstract answer: the machine run on the
    single value stored under the key).

    Part 2 (over the abstract prefix laws; [keeps] and the four [*_keeps] lemmas come first,
    Section [H] then fixes one handle and holds [estep_map_ind], [Sim], [estep_sim], [AInv],
    [erun_inv]): well-formedness and slot accounting for
    all action lists, panic freedom and exactness of the counter outside the known class, what a
    panicking closure leaves behind, refinement to the one-cell machine for all action lists, the
    frame property for all other keys.  Part 3: the known class is real (concrete witnesses). *)
From Coq Require Import List NArith ZArith Bool Arith Lia.
From PT Require Import Laws Trie TrieWf Lookup Mutate Slots Refine.
From PT Require Import PrefixN PrefixLaws Inst.
Import ListNotations.

(** * Part 1: definitions *)

Section D.
Variables (pfx V : Type).
Variables (peq contains : pfx -> pfx -> bool) (is_bit_set : pfx -> N -> bool)
          (plen : pfx -> N) (lcp : pfx -> pfx -> pfx).

Notation pmap := (Trie.pmap pfx V).
Notation handle := (Trie.handle pfx).
Notation get := (Trie.get pfx V peq contains is_bit_set plen).
Notation entry := (Trie.entry pfx V peq contains is_bit_set plen).
Notation h_get := (Trie.h_get pfx V peq contains is_bit_set plen).
Notation h_key := (Trie.h_key pfx V peq contains is_bit_set plen).
Notation vacant_insert := (Trie.vacant_insert pfx V peq contains is_bit_set plen lcp).
Notation occ_insert := (Trie.occ_insert pfx V peq contains is_bit_set plen).
Notation occ_remove := (Trie.occ_remove pfx V peq contains is_bit_set plen).
Notation update_value := (Trie.update_value pfx V peq contains is_bit_set plen).

(** one method call on the handle.  [E*]: methods of [Entry]; [Occ*]: the entry is matched as
    [Entry::Occupied(o)] and the method of [OccupiedEntry] is called on [o]; [Vac*]: likewise for
    [VacantEntry].  Closures that write through a reference are given by the function applied to
    the old value; closures that may panic are [option]s ([None] = the closure panics). *)
Inductive eact :=
| EGet | EGetMut (g : V -> V) | EKey | EInsert (x : V) | EOrInsert (x : V)
| EOrInsertWith (d : option V)          (* None = the closure panics *)
| EOrDefault (x : V)                     (* x = Default::default() *)
| EAndModify (g : option (V -> V))       (* None = the closure panics (only called when occupied) *)
| OccKey | OccGet | OccGetMut (g : V -> V) | OccInsert (x : V) | OccRemove
| VacKey | VacInsert (x : V) | VacInsertWith (d : option V) | VacDefault (x : V).

Inductive etok := TVal (o : option V) | TPfx (p : pfx) | TOk | TWrongVariant | TPanic.

(** the state of the handle.  [fmatched] and [fconsumed] are the states of [enum Es] in [entry_op]
    of the harness: [E] (neither), [O]/[V] ([fmatched]: an [Occ*]/[Vac*] action matched the
    [Entry] into its variant), [Done] ([fconsumed]: a consuming method was called; every later
    action answers [TWrongVariant]).  [fremoved] = [OccupiedEntry::remove] was called on this
    handle; the harness keeps no such flag, the library panics by itself ([unwrap] of [None]). *)
Record eflags := mkfl { fmatched : bool; fremoved : bool; fconsumed : bool }.

Definition fl0 : eflags := mkfl false false false.
Definition set_matched (f : eflags) : eflags := mkfl true (fremoved f) (fconsumed f).
Definition set_consumed (f : eflags) : eflags := mkfl (fmatched f) (fremoved f) true.
Definition set_removed (f : eflags) : eflags := mkfl (fmatched f) true (fconsumed f).

Definition is_occ (h : handle) : bool := match hkind_ h with HOcc => true | HVac => false end.

Definition is_stop (t : etok) : bool :=
  match t with TWrongVariant | TPanic => true | _ => false end.

(** the token of an [unwrap]ped old value *)
Definition unwrap_tok (o : option V) : etok :=
  match o with None => TPanic | Some old => TVal (Some old) end.

(** one action on the handle [h] (created for the key [q]) in the map [m] under the flags [f]:
    the new map, the new flags, the token.  The cases follow [entry_op] of the harness arm by
    arm: the state moves as [st] does there, the map changes as the method of entry.rs called in
    that arm changes it, and [TPanic] stands where that method panics ([unwrap] of a taken value,
    a panicking closure). *)
Definition estep (h : handle) (q : pfx) (m : pmap) (f : eflags) (a : eact) : pmap * eflags * etok :=
  if fconsumed f then (m, f, TWrongVariant) else
  let occ := is_occ h in
  let wv := (m, f, TWrongVariant) in
  let fm := set_matched f in
  let fc := set_consumed f in
  let fmc := set_consumed (set_matched f) in
  match a with
  | EGet => if fmatched f then wv else (m, f, TVal (h_get m h))
  | EGetMut g =>
    if fmatched f then wv else
    match h_get m h with
    | None => (m, f, TVal None)
    | Some old => (update_value m q (fun _ => g old), f, TVal (Some old))
    end
  | EKey => if fmatched f then wv else (m, f, TPfx (h_key m h))
  | EInsert x =>
    if fmatched f then wv else
    if occ then let r := occ_insert m q x in (fst r, fc, TVal (snd r))
    else (vacant_insert m q x, fc, TVal None)
  | EOrInsert x | EOrDefault x =>
    if fmatched f then wv else
    if occ then (m, fc, TVal (h_get m h))
    else (vacant_insert m q x, fc, TVal (Some x))
  | EOrInsertWith d =>
    if fmatched f then wv else
    if occ then (m, fc, TVal (h_get m h))
    else match d with
         | None => (m, fc, TPanic)
         | Some x => (vacant_insert m q x, fc, TVal (Some x))
         end
  | EAndModify g =>
    if fmatched f then wv else
    if occ then
      match h_get m h with
      | Some old =>
        match g with
        | None => (m, f, TPanic)
        | Some g => (update_value m q (fun _ => g old), f, TOk)
        end
      | None => (m, f, TOk)
      end
    else (m, f, TOk)
  | OccKey => if occ then (m, fm, TPfx (h_key m h)) else wv
  | OccGet =>
    if occ then
      if fremoved f then (m, fm, TPanic) else (m, fm, TVal (h_get m h))
    else wv
  | OccGetMut g =>
    if occ then
      if fremoved f then (m, fm, TPanic) else
      match h_get m h with
      | None => (m, fm, TPanic)
      | Some old => (update_value m q (fun _ => g old), fm, TVal (Some old))
      end
    else wv
  | OccInsert x =>
    if occ then let r := occ_insert m q x in (fst r, fmc, unwrap_tok (snd r)) else wv
  | OccRemove =>
    if occ then
      if fremoved f then (m, fm, TPanic) else
      let r := occ_remove m q in (fst r, set_removed fm, unwrap_tok (snd r))
    else wv
  | VacKey => if occ then wv else (m, fm, TPfx q)
  | VacInsert x | VacDefault x =>
    if occ then wv else (vacant_insert m q x, fmc, TVal (Some x))
  | VacInsertWith d =>
    if occ then wv else
    match d with
    | None => (m, fmc, TPanic)
    | Some x => (vacant_insert m q x, fmc, TVal (Some x))
    end
  end.

(** the actions in order on one handle; the chain stops after [TWrongVariant] / [TPanic] *)
Fixpoint erun (h : handle) (q : pfx) (m : pmap) (f : eflags) (acts : list eact) : pmap * list etok :=
  match acts with
  | [] => (m, [])
  | a :: rest =>
    let '(m', f', t) := estep h q m f a in
    if is_stop t then (m', [t])
    else let r := erun h q m' f' rest in (fst r, t :: snd r)
  end.

Definition entry_chain (m : pmap) (q : pfx) (acts : list eact) : pmap * list etok :=
  erun (entry m q) q m fl0 acts.

(** the recorded known-finding class: some [OccRemove] is followed by an action other than
    [OccKey] (the [OccupiedEntry] is used again after [remove]) *)
Definition is_occ_key (a : eact) : bool := match a with OccKey => true | _ => false end.
Definition is_occ_remove (a : eact) : bool := match a with OccRemove => true | _ => false end.

Fixpoint occupied_reuse (acts : list eact) : bool :=
  match acts with
  | [] => false
  | a :: rest => (is_occ_remove a && negb (forallb is_occ_key rest)) || occupied_reuse rest
  end.

(** an action whose closure panics when it is called *)
Definition closure_panic_act (a : eact) : bool :=
  match a with
  | EOrInsertWith None | EAndModify None | VacInsertWith None => true
  | _ => false
  end.

Definition closure_panics (acts : list eact) : bool := existsb closure_panic_act acts.

(** ** The one-cell reference machine
    The same machine on the single value [cur] stored under the key; [occ] = the handle is
    occupied, [k] = the prefix stored in the node (what [key()] of an occupied entry returns). *)

Definition cstep (occ : bool) (k q : pfx) (cur : option V) (f : eflags) (a : eact)
  : option V * eflags * etok :=
  if fconsumed f then (cur, f, TWrongVariant) else
  let wv := (cur, f, TWrongVariant) in
  let fm := set_matched f in
  let fc := set_consumed f in
  let fmc := set_consumed (set_matched f) in
  let hget := if occ then cur else None in
  let hkey := if occ then k else q in
  match a with
  | EGet => if fmatched f then wv else (cur, f, TVal hget)
  | EGetMut g =>
    if fmatched f then wv else
    match hget with
    | None => (cur, f, TVal None)
    | Some old => (Some (g old), f, TVal (Some old))
    end
  | EKey => if fmatched f then wv else (cur, f, TPfx hkey)
  | EInsert x =>
    if fmatched f then wv else
    if occ then (Some x, fc, TVal cur) else (Some x, fc, TVal None)
  | EOrInsert x | EOrDefault x =>
    if fmatched f then wv else
    if occ then (cur, fc, TVal hget) else (Some x, fc, TVal (Some x))
  | EOrInsertWith d =>
    if fmatched f then wv else
    if occ then (cur, fc, TVal hget)
    else match d with
         | None => (cur, fc, TPanic)
         | Some x => (Some x, fc, TVal (Some x))
         end
  | EAndModify g =>
    if fmatched f then wv else
    if occ then
      match hget with
      | Some old =>
        match g with
        | None => (cur, f, TPanic)
        | Some g => (Some (g old), f, TOk)
        end
      | None => (cur, f, TOk)
      end
    else (cur, f, TOk)
  | OccKey => if occ then (cur, fm, TPfx hkey) else wv
  | OccGet =>
    if occ then
      if fremoved f then (cur, fm, TPanic) else (cur, fm, TVal hget)
    else wv
  | OccGetMut g =>
    if occ then
      if fremoved f then (cur, fm, TPanic) else
      match hget with
      | None => (cur, fm, TPanic)
      | Some old => (Some (g old), fm, TVal (Some old))
      end
    else wv
  | OccInsert x => if occ then (Some x, fmc, unwrap_tok cur) else wv
  | OccRemove =>
    if occ then
      if fremoved f then (cur, fm, TPanic) else (None, set_removed fm, unwrap_tok cur)
    else wv
  | VacKey => if occ then wv else (cur, fm, TPfx q)
  | VacInsert x | VacDefault x =>
    if occ then wv else (Some x, fmc, TVal (Some x))
  | VacInsertWith d =>
    if occ then wv else
    match d with
    | None => (cur, fmc, TPanic)
    | Some x => (Some x, fmc, TVal (Some x))
    end
  end.

Fixpoint crun (occ : bool) (k q : pfx) (cur : option V) (f : eflags) (acts : list eact)
  : option V * list etok :=
  match acts with
  | [] => (cur, [])
  | a :: rest =>
    let '(cur', f', t) := cstep occ k q cur f a in
    if is_stop t then (cur', [t])
    else let r := crun occ k q cur' f' rest in (fst r, t :: snd r)
  end.

(** the reference answer for the handle of [q] in [m]: occupied iff a value is stored under the
    key; the stored prefix is what [h_key] reports *)
Definition cell_chain (m : pmap) (q : pfx) (acts : list eact) : option V * list etok :=
  crun (is_occ (entry m q)) (h_key m (entry m q)) q (get (root m) q) fl0 acts.

(** * Part 2: theorems over the abstract prefix laws *)

Variables (pzero : pfx) (mcmp : pfx -> pfx -> comparison).
Variable bits : pfx -> list bool.
Variable ok : pfx -> Prop.
Hypothesis LAWS : prefix_laws pfx peq contains is_bit_set plen lcp pzero mcmp bits ok.

Notation tree := (Trie.tree pfx V).
Notation wf_root := (TrieWf.wf_root pfx V bits ok).
Notation key := (TrieWf.key pfx V bits).
Notation get_node := (Trie.get_node pfx V peq contains is_bit_set plen).
Notation modify := (Trie.modify pfx V peq contains is_bit_set plen).
Notation with_child := (Trie.with_child pfx V).
Notation child_of := (TrieWf.child_of pfx V).
Notation to_right := (Trie.to_right pfx is_bit_set plen).
Notation minv := (Slots.minv pfx V).
Notation cinv := (Slots.cinv pfx V).

Local Notation wf_root_inv := (Mutate.wf_root_inv pfx V pzero bits ok).
Local Notation get_spec_root := (Lookup.get_spec_root pfx V peq contains is_bit_set plen lcp pzero mcmp bits ok LAWS).
Local Notation modify_spec := (Mutate.modify_spec pfx V peq contains is_bit_set plen lcp pzero mcmp bits ok LAWS).
Local Notation modify_node := (Mutate.modify_node pfx V peq contains is_bit_set plen).
Local Notation get_node_node := (Mutate.get_node_node pfx V peq contains is_bit_set plen).
Local Notation descent_ind := (TrieWf.descent_ind pfx V peq contains is_bit_set plen).
Local Notation modify_wf_root := (Mutate.modify_wf_root pfx V peq contains is_bit_set plen lcp pzero mcmp bits ok LAWS).
Local Notation vacant_insert_spec :=
  (Mutate.vacant_insert_spec pfx V peq contains is_bit_set plen lcp pzero mcmp bits ok LAWS).
Local Notation occ_remove_spec :=
  (Mutate.occ_remove_spec pfx V peq contains is_bit_set plen lcp pzero mcmp bits ok LAWS).
Local Notation update_value_spec :=
  (Mutate.update_value_spec pfx V peq contains is_bit_set plen lcp pzero mcmp bits ok LAWS).
Local Notation keeps_key_put := (Mutate.keeps_key_put pfx V bits ok).

(** ** The node reached by the descent, after a [modify] that keeps the stored prefix
    (no law is used: the descent only looks at the stored prefixes, which do not change) *)

Lemma modify_root_keep i p v l r q (h : pfx -> option V -> pfx * option V) :
  (forall p v, fst (h p v) = p) ->
  exists v' l' r', modify (Node i p v l r) q h = Node i p v' l' r'.
Proof.
  intros Hh. rewrite modify_node. destruct (peq p q).
  - pose proof (Hh p v) as E. destruct (h p v) as [p' v']. cbn [fst] in E. subst p'. eauto.
  - cbv zeta. destruct (child_of l r (to_right p q)) as [|ci cp cv cl cr]; [eauto|].
    destruct (contains cp q); [|eauto]. destruct (to_right p q); cbn [Trie.with_child]; eauto.
Qed.

Lemma get_node_with_child i p v l r q (c' : tree) :
  peq p q = false ->
  get_node (with_child i p v l r (to_right p q) c') q =
  match c' with Node _ cp _ _ _ => if contains cp q then get_node c' q else None | Leaf => None end.
Proof.
  intros E. destruct (to_right p q) eqn:S; cbn [Trie.with_child Trie.get_node]; rewrite E, S; reflexivity.
Qed.

Lemma get_node_modify_keep q (h : pfx -> option V -> pfx * option V) :
  (forall p v, fst (h p v) = p) -> forall t,
  get_node (modify t q h) q =
  match get_node t q with Some (i, p, v) => Some (i, p, snd (h p v)) | None => None end.
Proof.
  intros Hh. apply (descent_ind q).
  - reflexivity.
  - intros i p v l r E. rewrite modify_node, (get_node_node i p v l r), E.
    pose proof (Hh p v) as Ep. destruct (h p v) as [p' v']. cbn [fst snd] in *. subst p'.
    rewrite get_node_node, E. reflexivity.
  - intros i p v l r E Hc. rewrite modify_node, E. cbv zeta.
    destruct (child_of l r (to_right p q)) eqn:Ec; rewrite ?Hc, get_node_node, E; cbv zeta;
      rewrite Ec, ?Hc; reflexivity.
  - intros i p v l r ci cp cv cl cr E Ec C IH.
    rewrite modify_node, (get_node_node i p v l r), E. cbv zeta.
    rewrite Ec, C, get_node_with_child by exact E.
    destruct (modify_root_keep ci cp cv cl cr q h Hh) as [v' [l' [r' Em]]].
    rewrite Em in *. rewrite C. exact IH.
Qed.

Lemma update_value_node m q g i k cur :
  get_node (root m) q = Some (i, k, cur) ->
  get_node (root (update_value m q g)) q = Some (i, k, option_map g cur).
Proof.
  intros G. unfold Trie.update_value. cbn [root].
  rewrite get_node_modify_keep by reflexivity. rewrite G. reflexivity.
Qed.

Lemma occ_remove_node m q i k cur :
  get_node (root m) q = Some (i, k, cur) ->
  get_node (root (fst (occ_remove m q))) q = Some (i, k, None).
Proof.
  intros G. unfold Trie.occ_remove. cbn [fst root].
  rewrite get_node_modify_keep by reflexivity. rewrite G. reflexivity.
Qed.


(** [m'] is well formed and holds the entries of [m] under every key other than [q] *)
Definition keeps (q : pfx) (m m' : pmap) : Prop :=
  wf_root (root m') /\
  forall e, key e <> bits q -> (In e (entries (root m')) <-> In e (entries (root m))).

Lemma keeps_refl q m : wf_root (root m) -> keeps q m m.
Proof. intros Hr. split; [exact Hr | reflexivity]. Qed.

Lemma keeps_trans q m1 m2 m3 : keeps q m1 m2 -> keeps q m2 m3 -> keeps q m1 m3.
Proof.
  intros [_ F1] [W F2]. split; [exact W|]. intros e Hk. rewrite (F2 e Hk). exact (F1 e Hk).
Qed.

Lemma vacant_insert_keeps m q x : wf_root (root m) -> ok q -> keeps q m (vacant_insert m q x).
Proof.
  intros Hr Hq. destruct (vacant_insert_spec m q x Hr Hq) as [P1 P2]. split; [exact P1|].
  intros e Hk. rewrite P2.
  split; [intros [->|[A _]]; [exfalso; apply Hk; reflexivity | exact A] | intros A; right; auto].
Qed.

Lemma occ_insert_keeps m q x : wf_root (root m) -> ok q -> keeps q m (fst (occ_insert m q x)).
Proof.
  intros Hr Hq. unfold Trie.occ_insert. cbn [fst root].
  split; [apply modify_wf_root; [exact Hr | exact Hq | apply keeps_key_put; exact Hq]|].
  intros e Hk. destruct (wf_root_inv _ q Hr) as [Hwf [Hrc _]].
  destruct (modify_spec (root m) [] q _ Hwf Hq Hrc (keeps_key_put q x Hq)) as [_ [P2 _]].
  rewrite P2. split; [|intros A; right; auto].
  intros [[i [p [v [_ B]]]]|[A _]]; [|exact A].
  exfalso. apply Hk. unfold TrieWf.key. inversion B. reflexivity.
Qed.

Lemma occ_remove_keeps m q : wf_root (root m) -> ok q -> keeps q m (fst (occ_remove m q)).
Proof.
  intros Hr Hq. destruct (occ_remove m q) as [m' o] eqn:E. cbn [fst].
  destruct (occ_remove_spec m q m' o Hr Hq E) as [P1 [P2 _]]. split; [exact P1|].
  intros e Hk. rewrite P2. tauto.
Qed.

Lemma update_value_keeps m q g : wf_root (root m) -> ok q -> keeps q m (update_value m q g).
Proof.
  intros Hr Hq. destruct (update_value_spec m q g Hr Hq) as [P1 [P2 _]]. split; [exact P1|].
  intros e Hk. rewrite P2.
  split; [intros [[A _]|[y [_ [B _]]]]; [exact A | contradiction] | intros A; left; auto].
Qed.

Lemma vacant_insert_get m q x :
  wf_root (root m) -> ok q -> get (root (vacant_insert m q x)) q = Some x.
Proof.
  intros Hr Hq. destruct (vacant_insert_spec m q x Hr Hq) as [P1 P2].
  apply (get_spec_root _ q x P1 Hq). exists q. split; [apply P2; left; reflexivity | reflexivity].
Qed.

Lemma occ_insert_get m q x i k cur :
  wf_root (root m) -> ok q -> get_node (root m) q = Some (i, k, cur) ->
  get (root (fst (occ_insert m q x))) q = Some x.
Proof.
  intros Hr Hq G. apply (get_spec_root _ q x (proj1 (occ_insert_keeps m q x Hr Hq)) Hq).
  exists q. split; [|reflexivity].
  unfold Trie.occ_insert. cbn [fst root].
  destruct (wf_root_inv _ q Hr) as [Hwf [Hrc _]].
  destruct (modify_spec (root m) [] q _ Hwf Hq Hrc (keeps_key_put q x Hq)) as [_ [P2 _]].
  apply P2. left. exists i, k, cur. split; [exact G | reflexivity].
Qed.

Section H.
Variables (h : handle) (q k : pfx).
Hypothesis Hhk : hkey h = q.
Hypothesis Hq : ok q.

(** the map after one action is the old map or one of the four mutators applied to it at [q]; an
    insertion goes through the variant of the handle *)
Lemma estep_map_ind (P : pmap -> Prop) m f a :
  P m -> (forall g, P (update_value m q g)) ->
  (is_occ h = true -> forall x, P (fst (occ_insert m q x))) ->
  P (fst (occ_remove m q)) ->
  (is_occ h = false -> forall x, P (vacant_insert m q x)) ->
  P (fst (fst (estep h q m f a))).
Proof.
  intros Hm Hu Hoi Hor Hvi.
  (* each action is reduced to its own branch of [estep], then split along its conditionals *)
  destruct a as [|g| |x|x|d|x|g| | |g|x| | |x|d|x]; cbv beta iota zeta delta [estep];
    repeat match goal with
           | |- context [if ?b then _ else _] => destruct b eqn:?
           | |- context [match ?o with Some _ => _ | None => _ end] => destruct o
           end;
    cbn [fst]; auto.
Qed.

Lemma estep_keeps m f a : wf_root (root m) -> keeps q m (fst (fst (estep h q m f a))).
Proof.
  intros Hr. apply estep_map_ind.
  - apply keeps_refl. exact Hr.
  - intros g. apply update_value_keeps; assumption.
  - intros _ x. apply occ_insert_keeps; assumption.
  - apply occ_remove_keeps; assumption.
  - intros _ x. apply vacant_insert_keeps; assumption.
Qed.

Lemma estep_minv m f a : minv m -> minv (fst (fst (estep h q m f a))).
Proof.
  intros Hm. apply estep_map_ind.
  - exact Hm.
  - intros g. apply Slots.update_value_minv. exact Hm.
  - intros _ x. apply Slots.occ_insert_minv. exact Hm.
  - apply Slots.occ_remove_minv. exact Hm.
  - (* the goal [pfx] is the Section variable [pzero] of Slots.v, over which the lemma is closed
       because its proof, not its statement, mentions it: any prefix serves (likewise [lcp] and
       [pzero] in [estep_cinv]) *)
    intros _ x. apply Slots.vacant_insert_minv; [exact pzero | exact Hm].
Qed.

Lemma estep_closure m f a : closure_panic_act a = true -> fst (fst (estep h q m f a)) = m.
Proof.
  intros Hc. unfold estep. destruct (fconsumed f); [reflexivity|]. cbv zeta.
  destruct a as [|g| |x|x|d|x|g| | |g|x| | |x|d|x]; try discriminate Hc;
    [destruct d | destruct g | destruct d]; try discriminate Hc;
    destruct (fmatched f); destruct (is_occ h); try destruct (h_get m h); reflexivity.
Qed.

Lemma estep_occ_key m f :
  fst (fst (estep h q m f OccKey)) = m /\ snd (estep h q m f OccKey) <> TPanic.
Proof.
  unfold estep. destruct (fconsumed f); [split; [reflexivity | discriminate]|]. cbv zeta.
  destruct (is_occ h); (split; [reflexivity | discriminate]).
Qed.

(** the simulation between [estep] on the map [m] and [cstep] on the cell [cur]: [cur] is what the
    map holds at [q], and a live occupied handle still points at a node carrying [k] *)
Definition Sim (m : pmap) (cur : option V) (f : eflags) : Prop :=
  wf_root (root m) /\ get (root m) q = cur /\
  (is_occ h = true -> fconsumed f = false -> exists i, get_node (root m) q = Some (i, k, cur)).

Lemma sim_h_get m cur f : Sim m cur f -> h_get m h = if is_occ h then cur else None.
Proof.
  intros [_ [G _]]. unfold Trie.h_get, is_occ. rewrite Hhk.
  destruct (hkind_ h); [exact G | reflexivity].
Qed.

Lemma sim_h_key m cur f : Sim m cur f -> fconsumed f = false -> h_key m h = if is_occ h then k else q.
Proof.
  intros [_ [_ N]] Hc. unfold Trie.h_key, is_occ in *. rewrite Hhk.
  destruct (hkind_ h); [|reflexivity]. destruct (N eq_refl Hc) as [i ->]. reflexivity.
Qed.

Lemma sim_flags m cur f f' :
  Sim m cur f -> (fconsumed f' = false -> fconsumed f = false) -> Sim m cur f'.
Proof. intros [W [G N]] Hf. split; [exact W|]. split; [exact G|]. intros O Hc. apply N; auto. Qed.

Lemma sim_update m old f f' y :
  is_occ h = true -> fconsumed f = false -> Sim m (Some old) f ->
  Sim (update_value m q (fun _ => y)) (Some y) f'.
Proof.
  intros O Hc [W [G N]]. destruct (N O Hc) as [i Gn].
  pose proof (update_value_node m q (fun _ => y) i k (Some old) Gn) as Gn'. cbn [option_map] in Gn'.
  split; [apply update_value_keeps; assumption|]. split; [unfold Trie.get; rewrite Gn'; reflexivity|].
  intros _ _. exists i. exact Gn'.
Qed.

Lemma sim_occ_remove m cur f f' :
  is_occ h = true -> fconsumed f = false -> Sim m cur f -> Sim (fst (occ_remove m q)) None f'.
Proof.
  intros O Hc [W [G N]]. destruct (N O Hc) as [i Gn].
  pose proof (occ_remove_node m q i k cur Gn) as Gn'.
  split; [apply occ_remove_keeps; assumption|]. split; [unfold Trie.get; rewrite Gn'; reflexivity|].
  intros _ _. exists i. exact Gn'.
Qed.

Lemma sim_occ_insert m cur f f' x :
  is_occ h = true -> fconsumed f = false -> fconsumed f' = true -> Sim m cur f ->
  Sim (fst (occ_insert m q x)) (Some x) f'.
Proof.
  intros O Hc Hc' [W [G N]]. destruct (N O Hc) as [i Gn].
  split; [apply occ_insert_keeps; assumption|]. split; [eapply occ_insert_get; eassumption|].
  intros _ Hc''. congruence.
Qed.

Lemma sim_vacant_insert m cur f f' x :
  fconsumed f' = true -> Sim m cur f -> Sim (vacant_insert m q x) (Some x) f'.
Proof.
  intros Hc' [W [G N]].
  split; [apply vacant_insert_keeps; assumption|]. split; [apply vacant_insert_get; assumption|].
  intros _ Hc''. congruence.
Qed.

(** the concrete step and the one-cell step move the flags alike, emit the same
    token, and end in related states.  No restriction on the action or on the flags: the known
    class (a removed handle used again) is simulated faithfully, too. *)
Lemma estep_sim m cur f a :
  Sim m cur f ->
  let r := estep h q m f a in
  let c := cstep (is_occ h) k q cur f a in
  snd (fst r) = snd (fst c) /\ snd r = snd c /\ Sim (fst (fst r)) (fst (fst c)) (snd (fst r)).
Proof.
  intros S. cbv zeta. destruct (fconsumed f) eqn:Hc.
  { unfold estep, cstep. rewrite Hc. cbn [fst snd]. auto. }
  pose proof (sim_h_get m cur f S) as Eg. pose proof (sim_h_key m cur f S Hc) as Ek.
  pose proof S as [_ [G _]].
  (* each action is reduced to its own branch of the two machines, which then branch alike *)
  destruct a as [|g| |x|x|d|x|g| | |g|x| | |x|d|x];
    cbv beta iota zeta delta [estep cstep]; rewrite Hc, ?Eg, ?Ek;
    repeat match goal with
           | |- context [if ?b then _ else _] => destruct b eqn:?
           | |- context [match ?o with Some _ => _ | None => _ end] => destruct o
           end;
    cbn [fst snd Trie.occ_insert Trie.occ_remove]; rewrite ?G; cbn [unwrap_tok];
    (split; [reflexivity|]); (split; [reflexivity|]);
    first [ exact S
          | apply (sim_flags m _ f _ S); cbn; congruence
          | eapply sim_update; eassumption
          | eapply sim_occ_remove; eassumption
          | eapply sim_occ_insert; [eassumption | eassumption | reflexivity | eassumption]
          | eapply sim_vacant_insert; [reflexivity | eassumption] ].
Qed.

(** while the handle is live the cell agrees with its variant: vacant means empty, occupied and not
    yet removed means full *)
Definition AInv (occ : bool) (cur : option V) (f : eflags) : Prop :=
  (occ = false -> fconsumed f = false -> cur = None) /\
  (occ = true -> fconsumed f = false -> fremoved f = false -> cur <> None).

Lemma cstep_inv occ cur f a :
  AInv occ cur f -> fremoved f = false ->
  let c := cstep occ k q cur f a in
  AInv occ (fst (fst c)) (snd (fst c)) /\
  (snd c = TPanic -> closure_panic_act a = true) /\
  (fremoved (snd (fst c)) = true -> is_occ_remove a = true).
Proof.
  destruct f as [fm fr fc]. cbn [fremoved]. intros [A1 A2] ->. cbn [fconsumed fremoved] in *.
  cbv zeta. destruct fc.
  - unfold cstep. cbn [fst snd fremoved fconsumed]. unfold AInv. cbn [fconsumed fremoved].
    repeat split; intros; congruence.
  - destruct a as [|g| |x|x|d|x|g| | |g|x| | |x|d|x];
      cbv beta iota zeta delta [cstep fconsumed fremoved fmatched unwrap_tok];
      repeat match goal with
             | |- context [if ?b then _ else _] => destruct b
             | |- context [match ?o with Some _ => _ | None => _ end] => destruct o
             end;
      unfold AInv, set_matched, set_consumed, set_removed;
      cbn [fst snd unwrap_tok fremoved fconsumed fmatched closure_panic_act is_occ_remove];
      (split; [split; intros; try congruence; auto|]); (split; intros; try congruence; auto);
      try (exfalso; apply A2; reflexivity); try (specialize (A1 eq_refl eq_refl); congruence).
Qed.

(** the counter stays exact: every insertion through a vacant handle meets an absent key, every
    replacement through an occupied handle meets a present one *)
Lemma estep_cinv m cur f a :
  Sim m cur f -> AInv (is_occ h) cur f -> fremoved f = false ->
  cinv m -> cinv (fst (fst (estep h q m f a))).
Proof.
  intros S [A1 A2] Hrm Hc. destruct (fconsumed f) eqn:Hco.
  { unfold estep. rewrite Hco. exact Hc. }
  pose proof S as [_ [G _]]. apply estep_map_ind.
  - exact Hc.
  - intros g. apply Slots.update_value_cinv; [exact lcp | exact pzero | exact Hc].
  - intros O x. apply Slots.occ_insert_cinv; [exact lcp | exact pzero | | exact Hc].
    rewrite G. apply A2; [exact O | reflexivity | exact Hrm].
  - apply Slots.occ_remove_cinv; [exact lcp | exact pzero | exact Hc].
  - intros O x. apply Slots.vacant_insert_cinv; [exact pzero | | exact Hc].
    rewrite G. apply A1; [exact O | reflexivity].
Qed.

Lemma erun_cons m f a rest :
  erun h q m f (a :: rest) =
  let r := estep h q m f a in
  if is_stop (snd r) then (fst (fst r), [snd r])
  else (fst (erun h q (fst (fst r)) (snd (fst r)) rest),
        snd r :: snd (erun h q (fst (fst r)) (snd (fst r)) rest)).
Proof. cbn [erun]. destruct (estep h q m f a) as [[m' f'] t]. reflexivity. Qed.

Lemma crun_cons occ cur f a rest :
  crun occ k q cur f (a :: rest) =
  let c := cstep occ k q cur f a in
  if is_stop (snd c) then (fst (fst c), [snd c])
  else (fst (crun occ k q (fst (fst c)) (snd (fst c)) rest),
        snd c :: snd (crun occ k q (fst (fst c)) (snd (fst c)) rest)).
Proof. cbn [crun]. destruct (cstep occ k q cur f a) as [[c' f'] t]. reflexivity. Qed.

Lemma erun_inv (P : pmap -> Prop) :
  (forall m f a, P m -> P (fst (fst (estep h q m f a)))) ->
  forall acts m f, P m -> P (fst (erun h q m f acts)).
Proof.
  intros Hstep. induction acts as [|a rest IH]; intros m f Hm; [exact Hm|].
  rewrite erun_cons. cbv zeta. pose proof (Hstep m f a Hm) as W.
  destruct (is_stop (snd (estep h q m f a))); cbn [fst]; [exact W | apply IH; exact W].
Qed.

Lemma erun_keeps acts m f : wf_root (root m) -> keeps q m (fst (erun h q m f acts)).
Proof.
  intros Hr. apply (erun_inv (keeps q m)); [|apply keeps_refl; exact Hr].
  intros m' f' a K. apply (keeps_trans q m m' _ K). apply estep_keeps. exact (proj1 K).
Qed.

Lemma erun_minv acts m f : minv m -> minv (fst (erun h q m f acts)).
Proof. apply (erun_inv minv). intros m' f' a. apply estep_minv. Qed.

Lemma erun_sim acts : forall m cur f,
  Sim m cur f ->
  snd (erun h q m f acts) = snd (crun (is_occ h) k q cur f acts) /\
  get (root (fst (erun h q m f acts))) q = fst (crun (is_occ h) k q cur f acts).
Proof.
  induction acts as [|a rest IH]; intros m cur f S.
  - cbn. split; [reflexivity | exact (proj1 (proj2 S))].
  - rewrite erun_cons, crun_cons. cbv zeta.
    pose proof (estep_sim m cur f a S) as E. cbv zeta in E. destruct E as [Ef [Et S']].
    rewrite <- Et, <- Ef.
    destruct (is_stop (snd (estep h q m f a))); cbn [fst snd].
    + split; [reflexivity | exact (proj1 (proj2 S'))].
    + destruct (IH _ _ _ S') as [I1 I2]. split; [rewrite I1; reflexivity | exact I2].
Qed.

Lemma occupied_reuse_cons a rest :
  occupied_reuse (a :: rest) = false ->
  (is_occ_remove a = true -> forallb is_occ_key rest = true) /\ occupied_reuse rest = false.
Proof.
  cbn [occupied_reuse]. intros H. apply orb_false_elim in H. destruct H as [H1 H2].
  split; [|exact H2]. intros Ha. rewrite Ha in H1. cbn [andb] in H1.
  apply negb_false_iff in H1. exact H1.
Qed.

(** after [remove] only [key()] may follow: the map stays as it is, nothing panics *)
Lemma erun_occ_keys acts : forall m f,
  forallb is_occ_key acts = true ->
  fst (erun h q m f acts) = m /\ ~ In TPanic (snd (erun h q m f acts)).
Proof.
  induction acts as [|a rest IH]; intros m f Hk; [split; [reflexivity | intros []]|].
  cbn [forallb] in Hk. apply andb_prop in Hk. destruct Hk as [Ha Hrest]. destruct a; try discriminate Ha.
  rewrite erun_cons. cbv zeta. destruct (estep_occ_key m f) as [Em Et]. rewrite Em.
  destruct (is_stop _); cbn [fst snd]; [split; [reflexivity | intros [E|[]]; exact (Et E)]|].
  destruct (IH m (snd (fst (estep h q m f OccKey))) Hrest) as [I1 I2].
  split; [exact I1 | intros [E|Hin]; [exact (Et E) | exact (I2 Hin)]].
Qed.

Lemma erun_good acts : forall m cur f,
  Sim m cur f -> AInv (is_occ h) cur f -> fremoved f = false ->
  occupied_reuse acts = false ->
  (cinv m -> cinv (fst (erun h q m f acts))) /\
  (In TPanic (snd (erun h q m f acts)) ->
   exists acts1 a acts2, acts = acts1 ++ a :: acts2 /\ closure_panic_act a = true /\
     fst (erun h q m f acts) = fst (erun h q m f acts1)).
Proof.
  induction acts as [|a rest IH]; intros m cur f S A Hfr Hre.
  - cbn. split; [auto | intros []].
  - destruct (occupied_reuse_cons a rest Hre) as [Hrm1 Hre'].
    rewrite erun_cons. cbv zeta.
    pose proof (estep_sim m cur f a S) as E. cbv zeta in E. destruct E as [Ef [Et S']].
    pose proof (cstep_inv (is_occ h) cur f a A Hfr) as C. cbv zeta in C. destruct C as [A' [P1 P2]].
    pose proof (estep_cinv m cur f a S A Hfr) as Hci.
    rewrite <- Ef in A', P2. rewrite <- Et in P1.
    destruct (is_stop (snd (estep h q m f a))) eqn:St; cbn [fst snd].
    + split; [exact Hci|]. intros [E|[]].
      exists [], a, rest. split; [reflexivity|]. split; [apply P1; exact E|].
      cbn [erun fst]. apply estep_closure. apply P1. exact E.
    + assert (Hhead : forall t, snd (estep h q m f a) = t -> t <> TPanic).
      { intros t <- E. rewrite E in St. discriminate St. }
      destruct (fremoved (snd (fst (estep h q m f a)))) eqn:Hfr'.
      * (* the handle has just been removed: only [key()] follows *)
        destruct (erun_occ_keys rest (fst (fst (estep h q m f a))) (snd (fst (estep h q m f a))))
          as [K1 K2]; [apply Hrm1; apply P2; reflexivity|].
        rewrite K1. split; [exact Hci|]. intros [E|Hin]; [destruct (Hhead _ eq_refl E) | destruct (K2 Hin)].
      * destruct (IH _ _ _ S' A' Hfr' Hre') as [I1 I2].
        split; [intros Hc; apply I1; apply Hci; exact Hc|].
        intros [E|Hin]; [destruct (Hhead _ eq_refl E)|].
        destruct (I2 Hin) as [acts1 [b [acts2 [E1 [E2 E3]]]]].
        exists (a :: acts1), b, acts2. split; [rewrite E1; reflexivity|]. split; [exact E2|].
        rewrite erun_cons. cbv zeta. rewrite St. cbn [fst]. exact E3.
Qed.

End H.

Lemma entry_is_occ m q : is_occ (entry m q) = is_some (get (root m) q).
Proof.
  unfold Trie.entry, Trie.get. destruct (get_node (root m) q) as [[[i p] [y|]]|]; reflexivity.
Qed.

Lemma entry_init m q :
  wf_root (root m) ->
  hkey (entry m q) = q /\
  Sim (entry m q) q (h_key m (entry m q)) m (get (root m) q) fl0 /\
  AInv (is_occ (entry m q)) (get (root m) q) fl0.
Proof.
  intros Hr. unfold Sim, AInv, Trie.h_key, Trie.entry, Trie.get.
  destruct (get_node (root m) q) as [[[i p] [y|]]|] eqn:G; cbn [hkey hkind_ is_occ]; rewrite ?G;
    (split; [reflexivity|]); (split; [|split; intros; congruence]);
    (split; [exact Hr|]); (split; [reflexivity|]).
  - intros _ _. exists i. reflexivity.
  - intros; discriminate.
  - intros; discriminate.
Qed.

(** every chain of entry actions — the known class and panicking closures included — keeps
    the trie well formed and the slot accounting intact *)
Theorem entry_chain_wf m q acts :
  wf_root (root m) -> ok q -> wf_root (root (fst (entry_chain m q acts))).
Proof. intros Hr Hq. unfold entry_chain. apply erun_keeps; assumption. Qed.

Theorem entry_chain_minv m q acts : minv m -> minv (fst (entry_chain m q acts)).
Proof. intros Hm. unfold entry_chain. apply erun_minv. exact Hm. Qed.

(** outside the known class a panic is raised by a closure, and the map is exactly the state
    reached by the actions before the panicking one *)
Theorem entry_chain_closure_panic m q acts :
  wf_root (root m) -> ok q -> occupied_reuse acts = false ->
  In TPanic (snd (entry_chain m q acts)) ->
  exists acts1 a acts2,
    acts = acts1 ++ a :: acts2 /\ closure_panic_act a = true /\
    fst (entry_chain m q acts) = fst (entry_chain m q acts1).
Proof.
  intros Hr Hq Hre Hin. destruct (entry_init m q Hr) as [Hk [S A]].
  unfold entry_chain in *.
  destruct (erun_good (entry m q) q (h_key m (entry m q)) Hk Hq acts m _ fl0 S A) as [_ P];
    [reflexivity | exact Hre |].
  exact (P Hin).
Qed.

Lemma last_in {A} (l : list A) d : l <> [] -> In (last l d) l.
Proof.
  induction l as [|x l IH]; [congruence|]. intros _. destruct l as [|y l]; [left; reflexivity|].
  right. change (last (x :: y :: l) d) with (last (y :: l) d). apply IH. discriminate.
Qed.

(** the chain stops at a panic, so "the token list ends with [TPanic]" is the same hypothesis; the
    last conjunct only spells out the equation of the two maps on their entries *)
Corollary entry_chain_closure_panic_last m q acts :
  wf_root (root m) -> ok q -> occupied_reuse acts = false ->
  last (snd (entry_chain m q acts)) TOk = TPanic ->
  exists acts1 a acts2,
    acts = acts1 ++ a :: acts2 /\ closure_panic_act a = true /\
    fst (entry_chain m q acts) = fst (entry_chain m q acts1) /\
    (forall e, In e (entries (root (fst (entry_chain m q acts)))) <->
               In e (entries (root (fst (entry_chain m q acts1))))).
Proof.
  intros Hr Hq Hre Hl.
  assert (Hin : In TPanic (snd (entry_chain m q acts))).
  { destruct (snd (entry_chain m q acts)) as [|t ts] eqn:E; [cbn in Hl; discriminate Hl|].
    rewrite <- Hl. apply last_in. discriminate. }
  destruct (entry_chain_closure_panic m q acts Hr Hq Hre Hin) as [acts1 [a [acts2 [E1 [E2 E3]]]]].
  exists acts1, a, acts2. repeat split; try assumption; rewrite E3; auto.
Qed.

Theorem entry_chain_no_panic m q acts :
  wf_root (root m) -> ok q -> occupied_reuse acts = false -> closure_panics acts = false ->
  ~ In TPanic (snd (entry_chain m q acts)).
Proof.
  intros Hr Hq Hre Hcp Hin.
  destruct (entry_chain_closure_panic m q acts Hr Hq Hre Hin) as [acts1 [a [acts2 [E1 [E2 _]]]]].
  unfold closure_panics in Hcp. rewrite E1, existsb_app in Hcp. cbn [existsb] in Hcp.
  rewrite E2 in Hcp. cbn [orb] in Hcp. rewrite orb_true_r in Hcp. discriminate Hcp.
Qed.

Theorem entry_chain_cinv m q acts :
  cinv m -> wf_root (root m) -> ok q -> occupied_reuse acts = false ->
  cinv (fst (entry_chain m q acts)).
Proof.
  intros Hc Hr Hq Hre. destruct (entry_init m q Hr) as [Hk [S A]].
  unfold entry_chain.
  destruct (erun_good (entry m q) q (h_key m (entry m q)) Hk Hq acts m _ fl0 S A) as [P _];
    [reflexivity | exact Hre |].
  exact (P Hc).
Qed.

(** refinement, for ALL action lists: the tokens are those of the one-cell machine run on the
    value stored under the key, and the value stored under the key afterwards is its final cell *)
Theorem entry_chain_refines m q acts :
  wf_root (root m) -> ok q ->
  snd (entry_chain m q acts) = snd (cell_chain m q acts) /\
  get (root (fst (entry_chain m q acts))) q = fst (cell_chain m q acts).
Proof.
  intros Hr Hq. destruct (entry_init m q Hr) as [Hk [S _]].
  unfold entry_chain, cell_chain.
  exact (erun_sim (entry m q) q (h_key m (entry m q)) Hk Hq acts m _ fl0 S).
Qed.

Theorem entry_chain_frame m q acts :
  wf_root (root m) -> ok q ->
  forall e, key e <> bits q ->
    (In e (entries (root (fst (entry_chain m q acts)))) <-> In e (entries (root m))).
Proof.
  intros Hr Hq e Hk. unfold entry_chain. apply erun_keeps; assumption.
Qed.

(** ** Content of the single calls (instances of [entry_chain_refines])
    [cur] = the value stored under the key before the call.  Reference statements of the model's
    interface: Properties/ quotes [entry_insert_content] and [entry_or_insert_content] only. *)

Lemma cell_chain_single m q a :
  cell_chain m q [a] =
  let cur := get (root m) q in
  let c := cstep (is_some cur) (h_key m (entry m q)) q cur fl0 a in
  (fst (fst c), [snd c]).
Proof.
  unfold cell_chain. rewrite entry_is_occ. cbn [crun]. cbv zeta.
  destruct (cstep _ _ _ _ _ _) as [[c' f'] t]. destruct (is_stop t); reflexivity.
Qed.

Ltac single_tac m q Hr Hq a :=
  let T := fresh "T" in let G := fresh "G" in
  destruct (entry_chain_refines m q [a] Hr Hq) as [T G];
  rewrite T, ?G, cell_chain_single; cbv zeta.

(** [Entry::get]: the stored value, the map is untouched *)
Theorem entry_get_content m q :
  wf_root (root m) -> ok q -> entry_chain m q [EGet] = (m, [TVal (get (root m) q)]).
Proof.
  intros Hr Hq. destruct (entry_init m q Hr) as [Hk [S _]].
  unfold entry_chain. cbn [erun estep fl0 fconsumed fmatched].
  rewrite (sim_h_get _ _ _ Hk m _ _ S), entry_is_occ.
  destruct (get (root m) q); reflexivity.
Qed.

(** [Entry::insert]: returns the value stored before; afterwards the key holds [x] *)
Theorem entry_insert_content m q x :
  wf_root (root m) -> ok q ->
  snd (entry_chain m q [EInsert x]) = [TVal (get (root m) q)] /\
  get (root (fst (entry_chain m q [EInsert x]))) q = Some x.
Proof.
  intros Hr Hq. single_tac m q Hr Hq (EInsert x).
  destruct (get (root m) q); cbn; auto.
Qed.

(** [or_insert] / [or_insert_with] / [or_default]: the resident value if there is one, else the
    default, which is then stored *)
Theorem entry_or_insert_content m q x a :
  a = EOrInsert x \/ a = EOrInsertWith (Some x) \/ a = EOrDefault x ->
  wf_root (root m) -> ok q ->
  let v := match get (root m) q with Some y => y | None => x end in
  snd (entry_chain m q [a]) = [TVal (Some v)] /\
  get (root (fst (entry_chain m q [a]))) q = Some v.
Proof.
  intros Ha Hr Hq. cbv zeta. single_tac m q Hr Hq a.
  destruct Ha as [->|[->| ->]]; destruct (get (root m) q); cbn; auto.
Qed.

(** a resident value is never overwritten by a panicking default closure: it is not called *)
Theorem entry_or_insert_with_panic_content m q :
  wf_root (root m) -> ok q ->
  snd (entry_chain m q [EOrInsertWith None]) =
    [match get (root m) q with Some y => TVal (Some y) | None => TPanic end] /\
  fst (entry_chain m q [EOrInsertWith None]) = m.
Proof.
  intros Hr Hq. split.
  - single_tac m q Hr Hq (EOrInsertWith None). destruct (get (root m) q); reflexivity.
  - unfold entry_chain. rewrite erun_cons. cbv zeta.
    destruct (is_stop _); cbn [fst erun]; apply estep_closure; reflexivity.
Qed.

(** [get_mut] then write / [and_modify]: the old value is reported, [g] is applied in place *)
Theorem entry_modify_content m q g :
  wf_root (root m) -> ok q ->
  (snd (entry_chain m q [EGetMut g]) = [TVal (get (root m) q)] /\
   get (root (fst (entry_chain m q [EGetMut g]))) q = option_map g (get (root m) q)) /\
  (snd (entry_chain m q [EAndModify (Some g)]) = [TOk] /\
   get (root (fst (entry_chain m q [EAndModify (Some g)]))) q = option_map g (get (root m) q)).
Proof.
  intros Hr Hq. split.
  - single_tac m q Hr Hq (EGetMut g). destruct (get (root m) q); cbn; auto.
  - single_tac m q Hr Hq (EAndModify (Some g)). destruct (get (root m) q); cbn; auto.
Qed.

(** the methods of [OccupiedEntry] on a key that holds [y] *)
Theorem occ_content m q y :
  wf_root (root m) -> ok q -> get (root m) q = Some y ->
  snd (entry_chain m q [OccGet]) = [TVal (Some y)] /\
  (forall g, snd (entry_chain m q [OccGetMut g]) = [TVal (Some y)] /\
             get (root (fst (entry_chain m q [OccGetMut g]))) q = Some (g y)) /\
  (forall x, snd (entry_chain m q [OccInsert x]) = [TVal (Some y)] /\
             get (root (fst (entry_chain m q [OccInsert x]))) q = Some x) /\
  (snd (entry_chain m q [OccRemove]) = [TVal (Some y)] /\
   get (root (fst (entry_chain m q [OccRemove]))) q = None) /\
  snd (entry_chain m q [OccKey]) = [TPfx (h_key m (entry m q))] /\
  (forall a, a = VacKey \/ (exists x, a = VacInsert x \/ a = VacDefault x) \/ (exists d, a = VacInsertWith d) ->
             snd (entry_chain m q [a]) = [TWrongVariant] /\ fst (entry_chain m q [a]) = m).
Proof.
  intros Hr Hq Hy.
  split; [single_tac m q Hr Hq OccGet; rewrite Hy; reflexivity|].
  split; [intros g; single_tac m q Hr Hq (OccGetMut g); rewrite Hy; cbn; auto|].
  split; [intros x; single_tac m q Hr Hq (OccInsert x); rewrite Hy; cbn; auto|].
  split; [single_tac m q Hr Hq OccRemove; rewrite Hy; cbn; auto|].
  split; [single_tac m q Hr Hq OccKey; rewrite Hy; reflexivity|].
  intros a Ha. split.
  - single_tac m q Hr Hq a. rewrite Hy.
    destruct Ha as [->|[[x [->| ->]]|[d ->]]]; reflexivity.
  - unfold entry_chain. rewrite erun_cons. cbv zeta.
    assert (O : is_occ (entry m q) = true) by (rewrite entry_is_occ, Hy; reflexivity).
    assert (E : fst (fst (estep (entry m q) q m fl0 a)) = m).
    { unfold estep. cbn [fl0 fconsumed]. cbv zeta. rewrite O.
      destruct Ha as [->|[[x [->| ->]]|[d ->]]]; reflexivity. }
    destruct (is_stop _); cbn [fst erun]; exact E.
Qed.

(** the methods of [VacantEntry] on a key that holds nothing *)
Theorem vac_content m q :
  wf_root (root m) -> ok q -> get (root m) q = None ->
  snd (entry_chain m q [VacKey]) = [TPfx q] /\
  (forall x a, a = VacInsert x \/ a = VacInsertWith (Some x) \/ a = VacDefault x ->
     snd (entry_chain m q [a]) = [TVal (Some x)] /\
     get (root (fst (entry_chain m q [a]))) q = Some x) /\
  (forall a, is_occ_key a = true \/ a = OccGet \/ (exists g, a = OccGetMut g) \/
             (exists x, a = OccInsert x) \/ a = OccRemove ->
     snd (entry_chain m q [a]) = [TWrongVariant] /\
     get (root (fst (entry_chain m q [a]))) q = None).
Proof.
  intros Hr Hq Hn.
  split; [single_tac m q Hr Hq VacKey; rewrite Hn; reflexivity|].
  split.
  - intros x a Ha. single_tac m q Hr Hq a. rewrite Hn.
    destruct Ha as [->|[->| ->]]; cbn; auto.
  - intros a Ha. single_tac m q Hr Hq a. rewrite Hn.
    destruct Ha as [Ha|[->|[[g ->]|[[x ->]| ->]]]]; [destruct a; try discriminate Ha|..]; cbn; auto.
Qed.

(** the same statements against the abstract ordered map of [Refine.v]: the cell the reference
    machine starts from is the abstract lookup, and its final cell is the abstract lookup in the
    entries of the resulting map *)
Theorem entry_chain_refines_abstract m q acts :
  wf_root (root m) -> ok q ->
  let A := entries (root m) in
  let A' := entries (root (fst (entry_chain m q acts))) in
  let r := crun (is_some (a_get pfx V bits A q)) (h_key m (entry m q)) q (a_get pfx V bits A q) fl0 acts in
  snd (entry_chain m q acts) = snd r /\
  a_get pfx V bits A' q = fst r /\
  (forall e, key e <> bits q -> (In e A' <-> In e A)).
Proof.
  intros Hr Hq. cbv zeta.
  pose proof (Refine.get_refines pfx V peq contains is_bit_set plen lcp pzero mcmp bits ok LAWS (root m) q Hr Hq) as G0.
  pose proof (entry_chain_wf m q acts Hr Hq) as Hr'.
  pose proof (Refine.get_refines pfx V peq contains is_bit_set plen lcp pzero mcmp bits ok LAWS _ q Hr' Hq) as G1.
  destruct (entry_chain_refines m q acts Hr Hq) as [T G].
  rewrite <- G0, <- G1, T, G. unfold cell_chain. rewrite entry_is_occ.
  split; [reflexivity|]. split; [reflexivity|]. apply entry_chain_frame; assumption.
Qed.

Lemma erun_stops h q acts : forall m f ts t rest,
  snd (erun h q m f acts) = ts ++ t :: rest -> is_stop t = true -> rest = [].
Proof.
  induction acts as [|a acts IH]; intros m f ts t rest H Ht.
  - cbn in H. destruct ts; discriminate H.
  - rewrite erun_cons in H. cbv zeta in H.
    destruct (is_stop (snd (estep h q m f a))) eqn:St; cbn [snd] in H.
    + destruct ts as [|t0 ts]; cbn [app] in H; inversion H; [reflexivity|].
      destruct ts; discriminate.
    + destruct ts as [|t0 ts]; cbn [app] in H; inversion H; subst.
      * rewrite Ht in St. discriminate St.
      * eapply IH; eassumption.
Qed.

Lemma erun_length h q acts : forall m f, (length (snd (erun h q m f acts)) <= length acts)%nat.
Proof.
  induction acts as [|a acts IH]; intros m f; [cbn; lia|].
  rewrite erun_cons. cbv zeta. destruct (is_stop _); cbn [snd length]; [lia|].
  specialize (IH (fst (fst (estep h q m f a))) (snd (fst (estep h q m f a)))). lia.
Qed.

Theorem entry_chain_stops m q acts ts t rest :
  snd (entry_chain m q acts) = ts ++ t :: rest -> is_stop t = true -> rest = [].
Proof. apply erun_stops. Qed.

Theorem entry_chain_length m q acts : (length (snd (entry_chain m q acts)) <= length acts)%nat.
Proof. apply erun_length. Qed.

Lemma closure_panic_act_spec (a : eact) :
  closure_panic_act a = true <->
  a = EOrInsertWith None \/ a = EAndModify None \/ a = VacInsertWith None.
Proof.
  split.
  - destruct a as [|g| |x|x|d|x|g| | |g|x| | |x|d|x]; try discriminate;
      [destruct d | destruct g | destruct d]; try discriminate; auto.
  - intros [->|[->| ->]]; reflexivity.
Qed.

End D.

Arguments EGet {V}.
Arguments EGetMut {V}.
Arguments EKey {V}.
Arguments EInsert {V}.
Arguments EOrInsert {V}.
Arguments EOrInsertWith {V}.
Arguments EOrDefault {V}.
Arguments EAndModify {V}.
Arguments OccKey {V}.
Arguments OccGet {V}.
Arguments OccGetMut {V}.
Arguments OccInsert {V}.
Arguments OccRemove {V}.
Arguments VacKey {V}.
Arguments VacInsert {V}.
Arguments VacInsertWith {V}.
Arguments VacDefault {V}.
Arguments TVal {pfx V}.
Arguments TPfx {pfx V}.
Arguments TOk {pfx V}.
Arguments TWrongVariant {pfx V}.
Arguments TPanic {pfx V}.

(** * Part 3: the known class is real
    Concrete witnesses in the instance [PrefixN] (width 8, flavour [Generic], values [nat]): the
    map holding the single entry 128/1 -> 5, the handle of that key.  The hypothesis
    [occupied_reuse acts = false] of [entry_chain_no_panic] and of [entry_chain_cinv] cannot be
    dropped. *)

Definition w_laws := pn_laws 8%N Generic ltac:(vm_compute; discriminate).

Definition wq : PrefixN.pfx := mkpfx 128%N 1%N.
Definition wm : pmap PrefixN.pfx nat := fst (t_insert 8%N Generic nat (t_empty nat) wq 5%nat).
Definition w_chain :=
  entry_chain PrefixN.pfx nat (PrefixN.peq 8%N) (PrefixN.contains 8%N Generic) (PrefixN.is_bit_set 8%N)
              PrefixN.plen (PrefixN.lcp 8%N Generic).
Notation w_wf := (TrieWf.wf_root PrefixN.pfx nat (pbits 8%N) (fun p => valid 8%N p = true)).

Lemma wq_ok : valid 8%N wq = true.
Proof. vm_compute. reflexivity. Qed.

Lemma wm_wf : w_wf (root wm).
Proof.
  unfold wm, t_insert.
  destruct (insert _ _ _ _ _ _ _ (t_empty nat) wq 5%nat) as [m' o] eqn:E. cbn [fst].
  refine (proj1 (Mutate.insert_spec _ _ _ _ _ _ _ _ _ _ _ w_laws (t_empty nat) wq 5%nat m' o _ wq_ok E)).
  exact (proj1 (Mutate.empty_spec _ nat _ _ _ _ _ _ _ _ _ w_laws)).
Qed.

Lemma wm_cinv : Slots.cinv _ _ wm.
Proof. vm_compute. reflexivity. Qed.

(** [o.remove(); o.get()] panics; [o.remove(); o.insert(7)] panics after it has stored the value:
    the map then holds one entry under a counter of zero *)
Theorem entry_chain_refuted :
  w_wf (root wm) /\ valid 8%N wq = true /\ Slots.cinv _ _ wm /\
  closure_panics nat [OccRemove; OccGet] = false /\
  snd (w_chain wm wq [OccRemove; OccGet]) = [TVal (Some 5%nat); TPanic] /\
  closure_panics nat [OccRemove; OccInsert 7%nat] = false /\
  snd (w_chain wm wq [OccRemove; OccInsert 7%nat]) = [TVal (Some 5%nat); TPanic] /\
  entries (root (fst (w_chain wm wq [OccRemove; OccInsert 7%nat]))) = [(wq, 7%nat)] /\
  count (al (fst (w_chain wm wq [OccRemove; OccInsert 7%nat]))) = 0%Z /\
  ~ Slots.cinv _ _ (fst (w_chain wm wq [OccRemove; OccInsert 7%nat])).
Proof.
  split; [exact wm_wf|]. split; [exact wq_ok|]. split; [exact wm_cinv|].
  split; [reflexivity|]. split; [vm_compute; reflexivity|].
  split; [reflexivity|]. split; [vm_compute; reflexivity|].
  split; [vm_compute; reflexivity|]. split; [vm_compute; reflexivity|].
  vm_compute. discriminate.
Qed.

Theorem entry_chain_no_panic_refuted :
  ~ (forall (m : pmap PrefixN.pfx nat) q acts,
       w_wf (root m) -> valid 8%N q = true -> closure_panics nat acts = false ->
       ~ In TPanic (snd (w_chain m q acts))).
Proof.
  intros H. apply (H wm wq [OccRemove; OccGet] wm_wf wq_ok eq_refl).
  vm_compute. right. left. reflexivity.
Qed.

Theorem entry_chain_cinv_refuted :
  ~ (forall (m : pmap PrefixN.pfx nat) q acts,
       Slots.cinv _ _ m -> w_wf (root m) -> valid 8%N q = true -> closure_panics nat acts = false ->
       Slots.cinv _ _ (fst (w_chain m q acts))).
Proof.
  intros H. pose proof (H wm wq [OccRemove; OccInsert 7%nat] wm_cinv wm_wf wq_ok eq_refl) as C.
  vm_compute in C. discriminate C.
Qed.

(** the general theorems apply to the known class as well: e.g. the second chain leaves a
    well-formed trie *)
Example known_class_still_wf :
  w_wf (root (fst (w_chain wm wq [OccRemove; OccInsert 7%nat]))).
Proof. exact (entry_chain_wf _ _ _ _ _ _ _ _ _ _ _ w_laws wm wq _ wm_wf wq_ok). Qed.

Print Assumptions entry_chain_wf.
Print Assumptions entry_chain_minv.
Print Assumptions entry_chain_no_panic.
Print Assumptions entry_chain_cinv.
Print Assumptions entry_chain_closure_panic.
Print Assumptions entry_chain_closure_panic_last.
Print Assumptions entry_chain_refines.
Print Assumptions entry_chain_frame.
Print Assumptions entry_chain_stops.
Print Assumptions entry_chain_length.
Print Assumptions entry_chain_refines_abstract.
Print Assumptions entry_get_content.
Print Assumptions entry_insert_content.
Print Assumptions entry_or_insert_content.
Print Assumptions entry_or_insert_with_panic_content.
Print Assumptions entry_modify_content.
Print Assumptions occ_content.
Print Assumptions vac_content.
Print Assumptions entry_chain_refuted.
Print Assumptions entry_chain_no_panic_refuted.
Print Assumptions entry_chain_cinv_refuted.
Print Assumptions known_class_still_wf.
