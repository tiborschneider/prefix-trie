(** C19 stated directly about the ARENA transcription: [PartialEq], [Clone], rebuilding.

    - [a_map_eq]: [PartialEq for PrefixMap] = [self.iter().eq(other.iter())] (mod.rs), i.e. the two
      arena iterators are drained and compared pairwise under the key type's and the value type's own
      equality ([prepr_eq] compares the STORED representation, host bits included).
    - [a_clone]: [#[derive(Clone)]]: the table, the free list and the counter are copied.
    - Two arenas are equal exactly when their iterations are equal lists — whatever their tables,
      free lists and counters look like (different histories, leftover nodes, released slots). *)
From Coq Require Import List ZArith Bool.
From PT Require Import Laws Trie EqClone Refine Arena ArenaThm Arena2 ArenaProps ArenaWrite.
Import ListNotations.

Section AE.
Variables (pfx V : Type).
Variables (peq contains : pfx -> pfx -> bool) (is_bit_set : pfx -> N -> bool)
          (plen : pfx -> N) (lcp : pfx -> pfx -> pfx) (pzero : pfx)
          (mcmp : pfx -> pfx -> comparison).
Variable bits : pfx -> list bool.
Variable ok : pfx -> Prop.
Hypothesis LAWS : prefix_laws pfx peq contains is_bit_set plen lcp pzero mcmp bits ok.
(** the key type's and the value type's [PartialEq], assumed to decide Leibniz equality (true of the
    concrete prefix type, see Properties/C19.v) *)
Variables (prepr_eq : pfx -> pfx -> bool) (veq : V -> V -> bool).
Hypothesis prepr_eq_spec : forall p q, prepr_eq p q = true <-> p = q.
Hypothesis veq_spec : forall x y, veq x y = true <-> x = y.

Notation amap := (Arena.amap pfx V).
Notation a_entries := (Arena.a_entries pfx V).
Notation agood := (ArenaWrite.agood pfx V bits ok).
Notation areach := (ArenaProps.areach pfx V peq contains is_bit_set plen lcp pzero ok).
Notation list_eqb := (Trie.list_eqb pfx V prepr_eq veq).

Definition a_map_eq (a b : amap) : res bool :=
  ea <- a_entries a ;; eb <- a_entries b ;; Ok (list_eqb ea eb).

Definition a_clone (a : amap) : amap := mkamap (tbl a) (afree a) (acount a).

Lemma list_eqb_iff : forall a b, list_eqb a b = true <-> a = b.
Proof.
  intros a b. rewrite (EqClone.list_eqb_spec pfx V).
  exact (EqClone.Forall2_pair_eq_eq pfx V prepr_eq veq prepr_eq_spec veq_spec a b).
Qed.

Lemma list_eqb_sym a b : list_eqb a b = list_eqb b a.
Proof. apply eq_true_iff_eq. rewrite !list_eqb_iff. split; apply eq_sym. Qed.

Lemma good_entries a : agood a -> exists es, a_entries a = Ok es.
Proof.
  intros (m & R & M & _). exists (entries (root m)).
  exact (ArenaThm.entries_sim pfx V peq contains is_bit_set plen lcp pzero a m R M).
Qed.

Lemma a_map_eq_ok a b ea eb : a_entries a = Ok ea -> a_entries b = Ok eb ->
  a_map_eq a b = Ok (list_eqb ea eb).
Proof. intros Ea Eb. unfold a_map_eq. rewrite Ea, Eb. reflexivity. Qed.

(** ([arena_C19_eq], [arena_C19_differs] and [arena_C19_layout_independent] do not use their [agood] /
    [areach] hypotheses: [a_entries _ = Ok _] carries all they need.  Goodness is what makes such a
    list exist: [good_entries], [arena_C19_total].) *)
Theorem arena_C19_eq a b ea eb : agood a -> agood b -> a_entries a = Ok ea -> a_entries b = Ok eb ->
  exists r, a_map_eq a b = Ok r /\ (r = true <-> ea = eb).
Proof.
  intros _ _ Ea Eb. exists (list_eqb ea eb). split; [exact (a_map_eq_ok a b ea eb Ea Eb)|apply list_eqb_iff].
Qed.

Theorem arena_C19_total a b : agood a -> agood b -> exists r, a_map_eq a b = Ok r.
Proof.
  intros Ga Gb. destruct (good_entries a Ga) as (ea & Ea). destruct (good_entries b Gb) as (eb & Eb).
  destruct (arena_C19_eq a b ea eb Ga Gb Ea Eb) as (r & E & _). eauto.
Qed.

Theorem arena_C19_refl a : agood a -> a_map_eq a a = Ok true.
Proof.
  intros G. destruct (good_entries a G) as (ea & Ea).
  rewrite (a_map_eq_ok a a ea ea Ea Ea). f_equal. apply list_eqb_iff. reflexivity.
Qed.

Theorem arena_C19_sym a b : agood a -> agood b -> a_map_eq a b = a_map_eq b a.
Proof.
  intros Ga Gb. destruct (good_entries a Ga) as (ea & Ea). destruct (good_entries b Gb) as (eb & Eb).
  rewrite (a_map_eq_ok a b ea eb Ea Eb), (a_map_eq_ok b a eb ea Eb Ea). f_equal. apply list_eqb_sym.
Qed.

Theorem arena_C19_trans a b c : agood a -> agood b -> agood c ->
  a_map_eq a b = Ok true -> a_map_eq b c = Ok true -> a_map_eq a c = Ok true.
Proof.
  intros Ga Gb Gc. destruct (good_entries a Ga) as (ea & Ea). destruct (good_entries b Gb) as (eb & Eb).
  destruct (good_entries c Gc) as (ec & Ec).
  rewrite (a_map_eq_ok a b ea eb Ea Eb), (a_map_eq_ok b c eb ec Eb Ec), (a_map_eq_ok a c ea ec Ea Ec).
  intros [= AB] [= BC]. f_equal. apply list_eqb_iff in AB, BC. apply list_eqb_iff. congruence.
Qed.

Theorem arena_C19_clone a : agood a ->
  agood (a_clone a) /\ a_entries (a_clone a) = a_entries a /\ a_map_eq (a_clone a) a = Ok true /\
  a_map_eq a (a_clone a) = Ok true.
Proof.
  intros G. assert (E : a_clone a = a) by (destruct a; reflexivity). rewrite E.
  split; [exact G|]. split; [reflexivity|]. split; apply arena_C19_refl; exact G.
Qed.

Theorem arena_C19_differs a b ea eb : agood a -> agood b -> a_entries a = Ok ea -> a_entries b = Ok eb ->
  ea <> eb -> a_map_eq a b = Ok false.
Proof.
  intros _ _ Ea Eb Hne. rewrite (a_map_eq_ok a b ea eb Ea Eb). f_equal.
  apply not_true_is_false. rewrite list_eqb_iff. exact Hne.
Qed.

Theorem arena_C19_layout_independent a b es : areach a -> areach b ->
  a_entries a = Ok es -> a_entries b = Ok es -> a_map_eq a b = Ok true.
Proof.
  intros _ _ Ea Eb. rewrite (a_map_eq_ok a b es es Ea Eb). f_equal. apply list_eqb_iff. reflexivity.
Qed.

(** * Rebuilding: [FromIterator] / [collect] / deserialisation = repeated arena-level [insert] *)
Notation a_run2 := (Arena2.a_run2 pfx V peq contains is_bit_set plen lcp pzero).
Notation t_run2_from := (Arena2.t_run2_from pfx V peq contains is_bit_set plen lcp pzero).

Definition ins_ops (l : list (pfx * V)) : list (Arena2.aop2 pfx V) :=
  map (fun e => AOld (AIns (fst e) (snd e))) l.

Lemma t_run2_ins : forall l m,
  t_run2_from (ins_ops l) m
  = fold_left (fun m e => fst (Trie.insert pfx V peq contains is_bit_set plen lcp m (fst e) (snd e))) l m.
Proof.
  induction l as [|e l IH]; intros m; [reflexivity|]. cbn [ins_ops map Arena2.t_run2_from fold_left].
  rewrite <- IH. reflexivity.
Qed.

(** rebuilding a reachable arena from its own entries IN ANY ORDER runs without panic and yields a
    reachable arena (with, in general, another table: no leftover nodes, no free slots) whose
    iteration is the same list and which is [==] to the original, in both directions *)
Theorem arena_C19_rebuild a es es' : areach a -> a_entries a = Ok es -> Permutation.Permutation es' es ->
  exists b, a_run2 (ins_ops es') = Ok b /\ areach b /\ a_entries b = Ok es /\
            a_map_eq b a = Ok true /\ a_map_eq a b = Ok true.
Proof.
  intros Ha Ea HP.
  destruct (ArenaProps.areach_view pfx V peq contains is_bit_set plen lcp pzero mcmp bits ok LAWS a es Ha Ea)
    as (m & R & M & W & ->).
  assert (OKS : Forall (ArenaProps.aop2_ok pfx V ok) (ins_ops es')).
  { apply Forall_forall. intros o Ho. apply in_map_iff in Ho. destruct Ho as (e & <- & He).
    exact (Refine.perm_entries_ok pfx V bits ok es' (root m) W HP e He). }
  destruct (ArenaProps.run2_ok_sim pfx V peq contains is_bit_set plen lcp pzero mcmp bits ok LAWS (ins_ops es') OKS)
    as (b & Eb & Rb & Mb & Wb).
  assert (Hb : areach b) by (exists (ins_ops es'); split; assumption).
  assert (EE : a_entries b = Ok (entries (root m))).
  { rewrite (ArenaThm.entries_sim pfx V peq contains is_bit_set plen lcp pzero b _ Rb Mb). f_equal.
    unfold Arena2.t_run2. rewrite t_run2_ins. exact (Refine.from_list_perm pfx V peq contains is_bit_set plen lcp pzero mcmp bits ok LAWS es' (root m) W HP). }
  exists b. split; [exact Eb|]. split; [exact Hb|]. split; [exact EE|].
  split; apply (arena_C19_layout_independent _ _ (entries (root m))); assumption.
Qed.

End AE.

Print Assumptions arena_C19_eq.
Print Assumptions arena_C19_refl.
Print Assumptions arena_C19_sym.
Print Assumptions arena_C19_trans.
Print Assumptions arena_C19_clone.
Print Assumptions arena_C19_differs.
Print Assumptions arena_C19_layout_independent.
Print Assumptions arena_C19_rebuild.
