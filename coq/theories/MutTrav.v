(** Mutable traversals.

    PART A (Section MA): writes through the references handed out by a mutable traversal land
    exactly on the designated nodes ([write_ids]), the references never alias (distinct slots),
    writes through disjoint slot sets commute, subtrees reached by incomparable paths own disjoint
    slots, and the writes of a mutable view ([vm_remove]/[vm_set]/[vm_value_mut]) touch only the
    node at the view's path.

    PART B (Section MB): the mutable twins of find / find_exact / find_lpm / left / right / split /
    iter compute the same locations as the read-only functions.

    The hypothesis [NoDup (ids t)] (the nodes occupy pairwise distinct arena slots) holds of every
    reachable state: [Slots.slots_nodup], [MutTravExtra.reachable_nodup]. *)
From Coq Require Import List NArith ZArith Bool Lia Permutation.
From PT Require Import Bits BitsThm Laws MachineThm Trie Views TrieWf Lookup Mutate Lookup2 ViewsThm Slots.
Import ListNotations.

(** Two paths neither of which extends the other: they part at some bit. *)
Lemma incomparable_ind (P : path -> path -> Prop) :
  (forall b r1 r2, P (b :: r1) (negb b :: r2)) ->
  (forall b r1 r2, ~ prefix_of r1 r2 -> ~ prefix_of r2 r1 -> P r1 r2 -> P (b :: r1) (b :: r2)) ->
  forall p1 p2, ~ prefix_of p1 p2 -> ~ prefix_of p2 p1 -> P p1 p2.
Proof.
  intros Hd Hs. induction p1 as [|b1 p1 IH]; intros p2 H12 H21; [destruct H12; apply prefix_of_nil|].
  destruct p2 as [|b2 p2]; [destruct H21; apply prefix_of_nil|].
  destruct (bool_dec b2 b1) as [->|Hne].
  - rewrite prefix_of_cons in H12, H21. apply Hs; [exact H12 | exact H21 | exact (IH p2 H12 H21)].
  - replace b2 with (negb b1) by (destruct b1, b2; cbn; congruence). apply Hd.
Qed.

Section MA.
Variables (pfx V : Type).
Notation tree := (Trie.tree pfx V).
Notation ids := (Slots.ids pfx V).



Definition slot3 (e : N * pfx * V) : N := let '(i, _, _) := e in i.
Definition key3 (e : N * pfx * V) : N * pfx := let '(i, p, _) := e in (i, p).

(** the effect of the write list [ws] on one yielded item *)
Definition upd (ws : list (N * V)) (e : N * pfx * V) : N * pfx * V :=
  let '(i, p, x) := e in (i, p, match assoc_id ws i with Some y => y | None => x end).

Theorem write_ids_entries_id_upd (t : tree) ws :
  entries_id (write_ids t ws) = map (upd ws) (entries_id t).
Proof.
  induction t as [|i p v l IHl r IHr]; [reflexivity|].
  cbn [write_ids entries_id]. rewrite !map_app, IHl, IHr.
  destruct v as [x|]; [|reflexivity]. cbn [map upd]. destruct (assoc_id ws i); reflexivity.
Qed.

Lemma key3_upd ws e : key3 (upd ws e) = key3 e.
Proof. destruct e as [[i p] x]. reflexivity. Qed.

Corollary write_ids_keys (t : tree) ws :
  map (fun '(i, p, _) => (i, p)) (entries_id (write_ids t ws))
  = map (fun '(i, p, _) => (i, p)) (entries_id t).
Proof.
  rewrite write_ids_entries_id_upd, map_map. apply map_ext. intros e. exact (key3_upd ws e).
Qed.

Corollary write_ids_length (t : tree) ws :
  length (entries_id (write_ids t ws)) = length (entries_id t).
Proof. rewrite write_ids_entries_id_upd. apply map_length. Qed.

Corollary write_ids_entries_keys (t : tree) ws :
  map fst (entries (write_ids t ws)) = map fst (entries t).
Proof.
  rewrite <- !entries_id_entries, write_ids_entries_id_upd, !map_map. apply map_ext.
  intros [[i p] x]. reflexivity.
Qed.

(** the tree with every value replaced by [tt]: slots, stored prefixes, links AND which nodes hold a
    value.  Not [Mutate.skel] (notation [shape] further down), which erases the values altogether and
    is coarser: [skel_shape]. *)
Fixpoint skel (t : tree) : Trie.tree pfx unit :=
  match t with
  | Leaf => Leaf
  | Node i p v l r => Node i p (option_map (fun _ => tt) v) (skel l) (skel r)
  end.

Theorem write_ids_skel (t : tree) ws : skel (write_ids t ws) = skel t.
Proof.
  induction t as [|i p v l IHl r IHr]; [reflexivity|].
  cbn [write_ids skel]. rewrite IHl, IHr. destruct v, (assoc_id ws i); reflexivity.
Qed.

Lemma write_ids_nil (t : tree) : write_ids t [] = t.
Proof.
  induction t as [|i p v l IHl r IHr]; [reflexivity|].
  cbn [write_ids assoc_id]. rewrite IHl, IHr. destruct v; reflexivity.
Qed.

Lemma write_ids_ext (t : tree) w w' :
  (forall i, In i (ids t) -> assoc_id w i = assoc_id w' i) -> write_ids t w = write_ids t w'.
Proof.
  induction t as [|i p v l IHl r IHr]; intros H; [reflexivity|].
  cbn [write_ids]. rewrite IHl, IHr.
  - rewrite (H i); [reflexivity | left; reflexivity].
  - intros j Hj. apply H. cbn [Slots.ids]. right. apply in_app_iff. right. exact Hj.
  - intros j Hj. apply H. cbn [Slots.ids]. right. apply in_app_iff. left. exact Hj.
Qed.

Lemma assoc_id_none (ws : list (N * V)) i : ~ In i (map fst ws) -> assoc_id ws i = None.
Proof.
  induction ws as [|[j x] ws IH]; intros H; [reflexivity|]. cbn [assoc_id].
  destruct (N.eqb_spec j i) as [->|Hne]; [exfalso; apply H; left; reflexivity|].
  apply IH. intros Hin. apply H. right. exact Hin.
Qed.

Lemma assoc_id_some_in (ws : list (N * V)) i x : assoc_id ws i = Some x -> In (i, x) ws.
Proof.
  induction ws as [|[j y] ws IH]; intros H; [discriminate|]. cbn [assoc_id] in H.
  destruct (N.eqb_spec j i) as [->|Hne].
  - inversion H; subst. left. reflexivity.
  - right. apply IH. exact H.
Qed.

Lemma assoc_id_some_key (ws : list (N * V)) i x : assoc_id ws i = Some x -> In i (map fst ws).
Proof. intros H. apply assoc_id_some_in in H. apply (in_map fst) in H. exact H. Qed.

Theorem write_ids_foreign (t : tree) ws :
  (forall i, In i (ids t) -> ~ In i (map fst ws)) -> write_ids t ws = t.
Proof.
  intros H. rewrite <- (write_ids_nil t) at 2. apply write_ids_ext.
  intros i Hi. cbn [assoc_id]. apply assoc_id_none. apply H. exact Hi.
Qed.

Lemma nodup_ids_node {i p v} {l r : tree} :
  NoDup (ids (Node i p v l r)) ->
  ~ In i (ids l ++ ids r) /\ NoDup (ids l) /\ NoDup (ids r) /\ (forall x, In x (ids l) -> ~ In x (ids r)).
Proof.
  cbn [Slots.ids]. intros H. inversion H as [|i' l' Hi Hlr]; subst.
  split; [exact Hi | exact (nodup_app_inv _ _ Hlr)].
Qed.

Lemma nodup_ids_child {i p v} {l r : tree} (b : bool) :
  NoDup (ids (Node i p v l r)) -> NoDup (ids (if b then r else l)).
Proof. intros H. destruct (nodup_ids_node H) as [_ [Hl [Hr _]]]. destruct b; assumption. Qed.

Lemma slots_in_ids (t : tree) i : In i (map slot3 (entries_id t)) -> In i (ids t).
Proof.
  induction t as [|j p v l IHl r IHr]; [intros []|].
  cbn [entries_id Slots.ids]. rewrite !map_app, !in_app_iff. intros [H|[H|H]].
  - destruct v; [|destruct H]. destruct H as [<-|[]]. left. reflexivity.
  - right. apply in_app_iff. left. apply IHl. exact H.
  - right. apply in_app_iff. right. apply IHr. exact H.
Qed.

Theorem entry_slots_nodup (t : tree) : NoDup (ids t) -> NoDup (map slot3 (entries_id t)).
Proof.
  induction t as [|i p v l IHl r IHr]; intros H; [constructor|].
  destruct (nodup_ids_node H) as [Hi [Hl [Hr Hd]]].
  cbn [entries_id]. rewrite !map_app.
  assert (Hsub : NoDup (map slot3 (entries_id l) ++ map slot3 (entries_id r))).
  { apply nodup_app_intro; [apply IHl; exact Hl | apply IHr; exact Hr|].
    intros x Hx Hx'. apply (Hd x); apply slots_in_ids; assumption. }
  destruct v as [x|]; [|exact Hsub]. cbn [map app slot3]. constructor; [|exact Hsub].
  intros Hin. apply Hi. apply in_app_iff. apply in_app_iff in Hin.
  destruct Hin as [Hin|Hin]; [left | right]; apply slots_in_ids; exact Hin.
Qed.

(** the form with the pattern-matching lambda in place of [slot3] *)
Corollary entry_slots_nodup' (t : tree) :
  NoDup (ids t) -> NoDup (map (fun '(i, _, _) => i) (entries_id t)).
Proof. exact (entry_slots_nodup t). Qed.

Lemma entries_id_in_ids (t : tree) i p x : In (i, p, x) (entries_id t) -> In i (ids t).
Proof. intros H. apply slots_in_ids. apply (in_map slot3) in H. exact H. Qed.

Lemma nodup_slot_inj (L : list (N * pfx * V)) : NoDup (map slot3 L) ->
  forall i p x p' x', In (i, p, x) L -> In (i, p', x') L -> p = p' /\ x = x'.
Proof.
  induction L as [|e L IH]; intros H i p x p' x' H1 H2; [destruct H1|].
  cbn [map] in H. inversion H as [|s l' Hs HL]; subst.
  destruct H1 as [->|H1], H2 as [E2|H2].
  - inversion E2; subst. auto.
  - exfalso. apply Hs. apply (in_map slot3) in H2. exact H2.
  - subst e. exfalso. apply Hs. apply (in_map slot3) in H1. exact H1.
  - exact (IH HL i p x p' x' H1 H2).
Qed.

Corollary entries_id_slot_inj (t : tree) : NoDup (ids t) ->
  forall i p x p' x', In (i, p, x) (entries_id t) -> In (i, p', x') (entries_id t) -> p = p' /\ x = x'.
Proof. intros H. apply nodup_slot_inj. apply entry_slots_nodup. exact H. Qed.

(** the write list obtained by storing [g slot old_value] through every reference of [items].
    ([write_through_items], [write_through_all], [interleaving_irrelevant] spell [writes_of] and
    [write_each] out, as the property files do.) *)
Definition writes_of (g : N -> V -> V) (items : list (N * pfx * V)) : list (N * V) :=
  map (fun '(i, _, x) => (i, g i x)) items.

Definition is_slot_of (items : list (N * pfx * V)) (i : N) : bool :=
  existsb (N.eqb i) (map slot3 items).

Lemma is_slot_of_spec items i : is_slot_of items i = true <-> In i (map slot3 items).
Proof.
  unfold is_slot_of. rewrite existsb_exists. split.
  - intros [j [Hj E]]. apply N.eqb_eq in E. subst. exact Hj.
  - intros H. exists i. split; [exact H | apply N.eqb_refl].
Qed.

Lemma assoc_writes_of g (L items : list (N * pfx * V)) i p x :
  (forall p' x', In (i, p', x') L -> p = p' /\ x = x') ->
  incl items L ->
  assoc_id (writes_of g items) i = if is_slot_of items i then Some (g i x) else None.
Proof.
  intros Hu. induction items as [|[[j p'] x'] items IH]; intros Hincl; [reflexivity|].
  unfold writes_of, is_slot_of in *. cbn [map assoc_id existsb slot3].
  rewrite (N.eqb_sym i j).
  destruct (N.eqb_spec j i) as [->|Hne]; cbn [orb].
  - destruct (Hu p' x') as [_ <-]; [apply Hincl; left; reflexivity | reflexivity].
  - apply IH. intros e He. apply Hincl. right. exact He.
Qed.

Theorem write_through_items (t : tree) (items : list (N * pfx * V)) (g : N -> V -> V) :
  NoDup (ids t) -> incl items (entries_id t) ->
  entries_id (write_ids t (map (fun '(i, _, x) => (i, g i x)) items))
  = map (fun '(i, p, x) => (i, p, if is_slot_of items i then g i x else x)) (entries_id t).
Proof.
  intros Hnd Hincl. rewrite write_ids_entries_id_upd. apply map_ext_in.
  intros [[i p] x] Hin. cbn [upd].
  change (map (fun '(i0, _, x0) => (i0, g i0 x0)) items) with (writes_of g items).
  rewrite (assoc_writes_of g (entries_id t) items i p x).
  - destruct (is_slot_of items i); reflexivity.
  - intros p' x' H'. exact (entries_id_slot_inj t Hnd i p x p' x' Hin H').
  - exact Hincl.
Qed.

(** all references at once ([iter_mut().for_each(|(_, v)| *v = g(v))]) *)
Theorem write_through_all (t : tree) (g : N -> V -> V) :
  NoDup (ids t) ->
  entries_id (write_ids t (map (fun '(i, _, x) => (i, g i x)) (entries_id t)))
  = map (fun '(i, p, x) => (i, p, g i x)) (entries_id t).
Proof.
  intros Hnd. rewrite write_through_items by (exact Hnd || apply incl_refl).
  apply map_ext_in. intros [[i p] x] Hin.
  assert (E : is_slot_of (entries_id t) i = true).
  { apply is_slot_of_spec. apply (in_map slot3) in Hin. exact Hin. }
  rewrite E. reflexivity.
Qed.

Corollary write_through_items_nth (t : tree) items g n i p x :
  NoDup (ids t) -> incl items (entries_id t) ->
  nth_error (entries_id t) n = Some (i, p, x) ->
  nth_error (entries_id (write_ids t (map (fun '(i, _, x) => (i, g i x)) items))) n
  = Some (i, p, if is_slot_of items i then g i x else x).
Proof.
  intros Hnd Hincl Hn. rewrite write_through_items by assumption.
  rewrite nth_error_map, Hn. reflexivity.
Qed.

Lemma assoc_id_app (a b : list (N * V)) i :
  assoc_id (a ++ b) i = match assoc_id a i with Some x => Some x | None => assoc_id b i end.
Proof.
  induction a as [|[j x] a IH]; [reflexivity|]. cbn [app assoc_id].
  destruct (j =? i)%N; [reflexivity | exact IH].
Qed.

(** two writes in sequence = one write with the LATER list in front (the first match wins in
    [assoc_id], and the later write overwrites the earlier one) *)
Theorem write_ids_seq (t : tree) w1 w2 :
  write_ids (write_ids t w1) w2 = write_ids t (w2 ++ w1).
Proof.
  induction t as [|i p v l IHl r IHr]; [reflexivity|].
  cbn [write_ids]. rewrite IHl, IHr, assoc_id_app.
  destruct v as [x|]; destruct (assoc_id w1 i), (assoc_id w2 i); reflexivity.
Qed.

Lemma assoc_id_app_comm (w1 w2 : list (N * V)) i :
  (forall j, In j (map fst w1) -> ~ In j (map fst w2)) ->
  assoc_id (w1 ++ w2) i = assoc_id (w2 ++ w1) i.
Proof.
  intros Hd. rewrite !assoc_id_app.
  destruct (assoc_id w1 i) as [x|] eqn:E1.
  - rewrite (assoc_id_none w2 i); [reflexivity|]. apply Hd. eapply assoc_id_some_key. exact E1.
  - destruct (assoc_id w2 i); reflexivity.
Qed.

Theorem write_ids_seq_disjoint (t : tree) w1 w2 :
  (forall i, In i (map fst w1) -> ~ In i (map fst w2)) ->
  write_ids (write_ids t w1) w2 = write_ids t (w1 ++ w2).
Proof.
  intros Hd. rewrite write_ids_seq. apply write_ids_ext. intros i _. symmetry.
  apply assoc_id_app_comm. exact Hd.
Qed.

Theorem write_ids_comm (t : tree) w1 w2 :
  (forall i, In i (map fst w1) -> ~ In i (map fst w2)) ->
  write_ids (write_ids t w1) w2 = write_ids (write_ids t w2) w1.
Proof. intros Hd. rewrite (write_ids_seq_disjoint t w1 w2 Hd). symmetry. apply write_ids_seq. Qed.

(** one-by-one application of a write list *)
Definition write_each (t : tree) (w : list (N * V)) : tree :=
  fold_left (fun t e => write_ids t [e]) w t.

Lemma write_each_rev w : forall t : tree, write_each t w = write_ids t (rev w).
Proof.
  unfold write_each. induction w as [|e w IH]; intros t; cbn [fold_left rev].
  - symmetry. apply write_ids_nil.
  - rewrite IH. apply write_ids_seq.
Qed.

Lemma assoc_id_nodup (ws : list (N * V)) i x : NoDup (map fst ws) -> (assoc_id ws i = Some x <-> In (i, x) ws).
Proof.
  intros Hnd. split; [apply assoc_id_some_in|].
  induction ws as [|[j y] ws IH]; intros H; [destruct H|].
  cbn [map fst] in Hnd. inversion Hnd as [|j' l' Hj Hws]; subst. cbn [assoc_id].
  destruct H as [E|H].
  - inversion E; subst. rewrite N.eqb_refl. reflexivity.
  - destruct (N.eqb_spec j i) as [->|Hne]; [|exact (IH Hws H)].
    exfalso. apply Hj. apply (in_map fst) in H. exact H.
Qed.

Lemma assoc_id_perm (w w' : list (N * V)) i :
  NoDup (map fst w) -> Permutation w w' -> assoc_id w i = assoc_id w' i.
Proof.
  intros Hnd Hp. apply option_ext. intros x.
  rewrite !assoc_id_nodup by (exact Hnd || exact (Permutation_NoDup (Permutation_map fst Hp) Hnd)).
  split; apply Permutation_in; [exact Hp | symmetry; exact Hp].
Qed.

Theorem write_each_perm (t : tree) w w' :
  NoDup (map fst w') -> Permutation w w' -> write_each t w = write_ids t w'.
Proof.
  intros Hnd Hp. rewrite write_each_rev. apply write_ids_ext. intros i _.
  symmetry. apply assoc_id_perm; [exact Hnd|].
  eapply Permutation_trans; [apply Permutation_sym; exact Hp | apply Permutation_rev].
Qed.

(** any order ([w] is any permutation) of the per-entry writes of two workers yields the sequential
    result, provided no slot is written twice; for order-preserving schedules with repeated writes
    see [MutTravExtra.interleave_sequential] *)
Theorem interleaving_irrelevant (t : tree) (w1 w2 w : list (N * V)) :
  NoDup (map fst (w1 ++ w2)) -> Permutation w (w1 ++ w2) ->
  fold_left (fun t e => write_ids t [e]) w t = write_ids (write_ids t w1) w2.
Proof.
  intros Hnd Hp. fold (write_each t w). rewrite (write_each_perm t w (w1 ++ w2) Hnd Hp).
  symmetry. apply write_ids_seq_disjoint.
  rewrite map_app in Hnd. destruct (nodup_app_inv _ _ Hnd) as [_ [_ Hd]]. exact Hd.
Qed.

Corollary interleaving_sequential (t : tree) (w1 w2 w : list (N * V)) :
  NoDup (map fst (w1 ++ w2)) -> Permutation w (w1 ++ w2) ->
  write_each t w = write_each (write_each t w1) w2.
Proof.
  intros Hnd Hp. unfold write_each at 1. rewrite (interleaving_irrelevant t w1 w2 w Hnd Hp).
  rewrite map_app in Hnd. destruct (nodup_app_inv _ _ Hnd) as [H1 [H2 _]].
  rewrite (write_each_perm t w1 w1 H1 (Permutation_refl _)).
  rewrite (write_each_perm _ w2 w2 H2 (Permutation_refl _)). reflexivity.
Qed.

Lemma subtree_leaf (pa : path) : subtree (@Leaf pfx V) pa = Leaf.
Proof. destruct pa; reflexivity. Qed.

(** ([subtree]/[subst] recurse structurally on the tree, so these are not conversions) *)
Lemma subtree_nil (T : tree) : subtree T [] = T.
Proof. destruct T; reflexivity. Qed.
Lemma subst_nil (T n : tree) : subst T [] n = n.
Proof. destruct T; reflexivity. Qed.

Lemma in_ids_child i p v (l r : tree) (b : bool) j :
  In j (ids (if b then r else l)) -> In j (ids (Node i p v l r)).
Proof. intros H. cbn [Slots.ids]. right. apply in_app_iff. destruct b; auto. Qed.

Lemma in_entries_id_child i p v (l r : tree) (b : bool) e :
  In e (entries_id (if b then r else l)) -> In e (entries_id (Node i p v l r)).
Proof. intros H. cbn [entries_id]. apply in_app_iff. right. apply in_app_iff. destruct b; auto. Qed.

Lemma subtree_incl {A} (f : tree -> list A) :
  (forall i p v l r (b : bool), incl (f (if b then r else l)) (f (Node i p v l r))) ->
  forall (pa : path) (T : tree), incl (f (subtree T pa)) (f T).
Proof.
  intros Hc. induction pa as [|b pa IH]; intros T; [rewrite subtree_nil; apply incl_refl|].
  destruct T as [|i p v l r]; [apply incl_refl|]. cbn [subtree].
  eapply incl_tran; [apply IH | apply Hc].
Qed.

Theorem subtree_ids_incl (pa : path) : forall T : tree, incl (ids (subtree T pa)) (ids T).
Proof. apply subtree_incl. intros i p v l r b j. apply in_ids_child. Qed.

Theorem subtree_entries_id_incl (pa : path) : forall T : tree,
  incl (entries_id (subtree T pa)) (entries_id T).
Proof. apply subtree_incl. intros i p v l r b e. apply in_entries_id_child. Qed.

Theorem subtree_entries_incl (pa : path) : forall T : tree,
  incl (entries (subtree T pa)) (entries T).
Proof.
  apply subtree_incl. intros i p v l r b e. exact (in_entries_child _ _ i p v l r b e).
Qed.

Lemma subtree_nodup (pa : path) : forall T : tree, NoDup (ids T) -> NoDup (ids (subtree T pa)).
Proof.
  induction pa as [|b pa IH]; intros T H; [rewrite subtree_nil; exact H|].
  destruct T as [|i p v l r]; [constructor|]. cbn [subtree]. apply IH. eapply nodup_ids_child. exact H.
Qed.

Theorem subtree_slots_disjoint (pa1 : path) : forall (T : tree) (pa2 : path),
  NoDup (ids T) -> ~ prefix_of pa1 pa2 -> ~ prefix_of pa2 pa1 ->
  forall i, In i (ids (subtree T pa1)) -> ~ In i (ids (subtree T pa2)).
Proof.
  intros T pa2 Hnd H12 H21. revert T Hnd. revert pa1 pa2 H12 H21. refine (incomparable_ind _ _ _).
  - intros b r1 r2 T Hnd i H1 H2. destruct T as [|j p v l r]; [destruct H1|].
    cbn [subtree] in H1, H2. apply subtree_ids_incl in H1, H2.
    destruct (nodup_ids_node Hnd) as [_ [_ [_ Hd]]].
    destruct b; [exact (Hd i H2 H1) | exact (Hd i H1 H2)].
  - intros b r1 r2 _ _ IH T Hnd i. destruct T as [|j p v l r]; [intros []|].
    cbn [subtree]. apply IH. eapply nodup_ids_child. exact Hnd.
Qed.

Corollary split_slots_disjoint (T : tree) (pa : path) :
  NoDup (ids T) ->
  forall i, In i (ids (subtree T (pa ++ [false]))) -> ~ In i (ids (subtree T (pa ++ [true]))).
Proof.
  intros Hnd. apply subtree_slots_disjoint; [exact Hnd| |]; intros H.
  - eapply sides_disjoint; [exact H | apply prefix_of_refl].
  - eapply sides_disjoint; [apply prefix_of_refl | exact H].
Qed.

Corollary subtree_refs_disjoint (T : tree) (pa1 pa2 : path) :
  NoDup (ids T) -> ~ prefix_of pa1 pa2 -> ~ prefix_of pa2 pa1 ->
  forall i, In i (map slot3 (entries_id (subtree T pa1))) ->
            ~ In i (map slot3 (entries_id (subtree T pa2))).
Proof.
  intros Hnd H12 H21 i H1 H2.
  apply (subtree_slots_disjoint pa1 T pa2 Hnd H12 H21 i); apply slots_in_ids; assumption.
Qed.

Lemma writes_of_slots g items : map fst (writes_of g items) = map slot3 items.
Proof.
  unfold writes_of. rewrite map_map. apply map_ext. intros [[i p] x]. reflexivity.
Qed.

Corollary subtree_writes_commute (T : tree) (pa1 pa2 : path) items1 items2 g1 g2 :
  NoDup (ids T) -> ~ prefix_of pa1 pa2 -> ~ prefix_of pa2 pa1 ->
  incl items1 (entries_id (subtree T pa1)) -> incl items2 (entries_id (subtree T pa2)) ->
  write_ids (write_ids T (writes_of g1 items1)) (writes_of g2 items2)
  = write_ids (write_ids T (writes_of g2 items2)) (writes_of g1 items1).
Proof.
  intros Hnd H12 H21 I1 I2. apply write_ids_comm. intros i. rewrite !writes_of_slots. intros H1 H2.
  apply (subtree_refs_disjoint T pa1 pa2 Hnd H12 H21 i).
  - eapply incl_map; [exact I1 | exact H1].
  - eapply incl_map; [exact I2 | exact H2].
Qed.

(** the path stays inside the tree (its end may be a [Leaf] hanging off a node) *)
Fixpoint path_in (t : tree) (pa : path) {struct pa} : Prop :=
  match pa, t with
  | [], _ => True
  | b :: pa', Node _ _ _ l r => path_in (if b then r else l) pa'
  | _ :: _, Leaf => False
  end.

Lemma subtree_path_in (pa : path) : forall T : tree, subtree T pa <> Leaf -> path_in T pa.
Proof.
  induction pa as [|b pa IH]; intros T H; [exact I|].
  destruct T as [|i p v l r]; [apply H; reflexivity|]. cbn [path_in]. apply IH. exact H.
Qed.

Theorem subtree_subst (pa : path) : forall (T n : tree),
  path_in T pa -> subtree (subst T pa n) pa = n.
Proof.
  induction pa as [|b pa IH]; intros T n H; [rewrite subst_nil; apply subtree_nil|].
  destruct T as [|i p v l r]; [destruct H|]. cbn [path_in] in H. cbn [subst].
  destruct b; cbn [subtree]; apply IH; exact H.
Qed.

Theorem subtree_app (pa1 : path) : forall (T : tree) (pa2 : path),
  subtree T (pa1 ++ pa2) = subtree (subtree T pa1) pa2.
Proof.
  induction pa1 as [|b pa1 IH]; intros T pa2; [rewrite subtree_nil; reflexivity|].
  destruct T as [|i p v l r]; cbn [app subtree]; [symmetry; apply subtree_leaf | apply IH].
Qed.

Lemma subst_same (pa : path) : forall T : tree, subst T pa (subtree T pa) = T.
Proof.
  induction pa as [|b pa IH]; intros T; [rewrite subst_nil; apply subtree_nil|].
  destruct T as [|i p v l r]; [reflexivity|]. cbn [subst subtree]. destruct b; rewrite IH; reflexivity.
Qed.

Lemma subst_outside (pa : path) : forall (T n : tree), ~ path_in T pa -> subst T pa n = T.
Proof.
  induction pa as [|b pa IH]; intros T n H; [exfalso; apply H; exact I|].
  destruct T as [|i p v l r]; [reflexivity|]. cbn [path_in] in H. cbn [subst].
  destruct b; rewrite IH by exact H; reflexivity.
Qed.

Lemma subst_subst (pa : path) : forall (T n n' : tree),
  subst (subst T pa n) pa n' = subst T pa n'.
Proof.
  induction pa as [|b pa IH]; intros T n n'; [rewrite !subst_nil; reflexivity|].
  destruct T as [|i p v l r]; [reflexivity|]. cbn [subst]. destruct b; cbn [subst]; rewrite IH; reflexivity.
Qed.

Lemma subst_app (pa1 : path) : forall (T n : tree) (pa2 : path),
  subst T (pa1 ++ pa2) n = subst T pa1 (subst (subtree T pa1) pa2 n).
Proof.
  induction pa1 as [|b pa1 IH]; intros T n pa2; [rewrite subst_nil, subtree_nil; reflexivity|].
  destruct T as [|i p v l r]; cbn [app subst subtree]; [reflexivity|].
  destruct b; rewrite IH; reflexivity.
Qed.

Theorem subst_entries_id_ctx (pa : path) : forall T : tree, path_in T pa ->
  exists pre post, forall n : tree, entries_id (subst T pa n) = pre ++ entries_id n ++ post.
Proof.
  induction pa as [|b pa IH]; intros T H.
  - exists [], []. intros n. rewrite subst_nil. cbn [app]. symmetry. apply app_nil_r.
  - destruct T as [|i p v l r]; [destruct H|]. cbn [path_in] in H.
    destruct (IH _ H) as [pre [post E]]. destruct b.
    + exists ((match v with Some x => [(i, p, x)] | None => [] end) ++ entries_id l ++ pre), post.
      intros n. cbn [subst entries_id]. rewrite E, <- !app_assoc. reflexivity.
    + exists ((match v with Some x => [(i, p, x)] | None => [] end) ++ pre), (post ++ entries_id r).
      intros n. cbn [subst entries_id]. rewrite E, <- !app_assoc. reflexivity.
Qed.

Definition own_id (i : N) (p : pfx) (v : option V) : list (N * pfx * V) :=
  match v with Some x => [(i, p, x)] | None => [] end.

Theorem subst_set_tval_entries_id (T : tree) (pa : path) i p v l r v' :
  subtree T pa = Node i p v l r ->
  exists pre post,
    entries_id T = pre ++ own_id i p v ++ post /\
    entries_id (subst T pa (set_tval (subtree T pa) v')) = pre ++ own_id i p v' ++ post.
Proof.
  intros Hs.
  assert (Hin : path_in T pa) by (apply subtree_path_in; rewrite Hs; discriminate).
  destruct (subst_entries_id_ctx pa T Hin) as [pre [post E]].
  exists pre, ((entries_id l ++ entries_id r) ++ post). split.
  - rewrite <- (subst_same pa T) at 1. rewrite E, Hs. cbn [entries_id]. unfold own_id.
    rewrite <- !app_assoc. reflexivity.
  - rewrite E, Hs. cbn [set_tval entries_id]. unfold own_id. rewrite <- !app_assoc. reflexivity.
Qed.

Corollary subst_set_tval_in (T : tree) (pa : path) i p v l r v' e :
  subtree T pa = Node i p v l r -> ~ In e (own_id i p v) -> ~ In e (own_id i p v') ->
  (In e (entries_id (subst T pa (set_tval (subtree T pa) v'))) <-> In e (entries_id T)).
Proof.
  intros Hs H1 H2. destruct (subst_set_tval_entries_id T pa i p v l r v' Hs) as [pre [post [E1 E2]]].
  rewrite E1, E2, !in_app_iff. tauto.
Qed.

Notation shape := (Mutate.skel pfx V).

Lemma subst_image {B} (f : tree -> B) (g : N -> pfx -> option V -> B -> B -> B) :
  (forall i p v l r, f (Node i p v l r) = g i p v (f l) (f r)) ->
  forall (pa : path) (T n : tree), f n = f (subtree T pa) -> f (subst T pa n) = f T.
Proof.
  intros Hf. induction pa as [|b pa IH]; intros T n H; [rewrite subtree_nil in H; rewrite subst_nil; exact H|].
  destruct T as [|i p v l r]; [reflexivity|]. cbn [subtree] in H. cbn [subst].
  destruct b; rewrite !Hf, IH by exact H; reflexivity.
Qed.

Theorem subst_set_tval_shape (T : tree) (pa : path) v :
  shape (subst T pa (set_tval (subtree T pa) v)) = shape T.
Proof.
  apply (subst_image shape (fun i p _ => Node i p None)); [reflexivity|]. destruct (subtree T pa); reflexivity.
Qed.

Lemma skel_shape (t t' : tree) : skel t = skel t' -> shape t = shape t'.
Proof.
  revert t'. induction t as [|i p v l IHl r IHr]; intros [|i' p' v' l' r'] H; try discriminate; [reflexivity|].
  cbn [skel] in H. inversion H; subst. cbn [Mutate.skel]. rewrite (IHl l'), (IHr r') by assumption. reflexivity.
Qed.

Notation nentries := (Slots.nentries pfx V).

Lemma entries_of_ctx (T T' : tree) pre post o o' :
  entries_id T = pre ++ o ++ post -> entries_id T' = pre ++ o' ++ post ->
  entries T = map (drop_id pfx V) pre ++ map (drop_id pfx V) o ++ map (drop_id pfx V) post /\
  entries T' = map (drop_id pfx V) pre ++ map (drop_id pfx V) o' ++ map (drop_id pfx V) post.
Proof.
  intros E E'. rewrite <- !entries_id_entries, E, E', !map_app. split; reflexivity.
Qed.

Theorem vm_write_virtual (T : tree) (m : vmut pfx) p x g :
  mvirt pfx m = Some p ->
  vm_remove T m = (T, None) /\ vm_set T m x = (T, inr x) /\ vm_value_mut T m g = (T, None).
Proof. intros H. unfold vm_remove, vm_set, vm_value_mut. rewrite H. auto. Qed.

Lemma vm_write_node (T : tree) (m : vmut pfx) i p v l r v' :
  vm_tree T m = Node i p v l r ->
  let T' := subst T (mpath pfx m) (set_tval (vm_tree T m) v') in
  ids T' = ids T /\ shape T' = shape T /\
  subtree T' (mpath pfx m) = Node i p v' l r /\
  (exists pre post, entries_id T = pre ++ own_id i p v ++ post /\
                    entries_id T' = pre ++ own_id i p v' ++ post) /\
  (nentries T' = nentries T - Z.of_nat (length (own_id i p v)) + Z.of_nat (length (own_id i p v')))%Z.
Proof.
  intros Hs T'. subst T'. unfold vm_tree in *.
  split; [apply subst_ids|]. split; [apply subst_set_tval_shape|].
  split; [rewrite subtree_subst by (apply subtree_path_in; rewrite Hs; discriminate); rewrite Hs; reflexivity|].
  destruct (subst_set_tval_entries_id T (mpath pfx m) i p v l r v' Hs) as [pre [post [E1 E2]]].
  split; [exists pre, post; split; assumption|].
  unfold Slots.nentries. rewrite !length_entries_id, E1, E2, !app_length. lia.
Qed.

(** [TrieViewMut::remove] *)
Theorem vm_remove_node (T : tree) (m : vmut pfx) i p v l r :
  mvirt pfx m = None -> vm_tree T m = Node i p v l r ->
  let T' := fst (vm_remove T m) in
  snd (vm_remove T m) = v /\
  ids T' = ids T /\ shape T' = shape T /\ vm_tree T' m = Node i p None l r /\
  (exists pre post, entries_id T = pre ++ own_id i p v ++ post /\ entries_id T' = pre ++ post) /\
  nentries T' = (nentries T - (if is_some v then 1 else 0))%Z.
Proof.
  intros Hv Hs. unfold vm_remove. rewrite Hv. cbn [fst snd].
  destruct (vm_write_node T m i p v l r None Hs) as [A [B [C [D E]]]].
  split; [rewrite Hs; reflexivity|]. split; [exact A|]. split; [exact B|]. split; [exact C|].
  split; [exact D|]. rewrite E. destruct v; cbn; lia.
Qed.

(** [TrieViewMut::set] *)
Theorem vm_set_node (T : tree) (m : vmut pfx) x i p v l r :
  mvirt pfx m = None -> vm_tree T m = Node i p v l r ->
  let T' := fst (vm_set T m x) in
  snd (vm_set T m x) = inl v /\
  ids T' = ids T /\ shape T' = shape T /\ vm_tree T' m = Node i p (Some x) l r /\
  (exists pre post, entries_id T = pre ++ own_id i p v ++ post /\
                    entries_id T' = pre ++ [(i, p, x)] ++ post) /\
  nentries T' = (nentries T + (if is_some v then 0 else 1))%Z.
Proof.
  intros Hv Hs. unfold vm_set. rewrite Hv. cbn [fst snd].
  destruct (vm_write_node T m i p v l r (Some x) Hs) as [A [B [C [D E]]]].
  split; [rewrite Hs; reflexivity|]. split; [exact A|]. split; [exact B|]. split; [exact C|].
  split; [exact D|]. rewrite E. destruct v; cbn; lia.
Qed.

(** [value_mut] + a write through the reference: the has-value flag is kept, hence the whole
    skeleton and the number of entries *)
Theorem vm_value_mut_node (T : tree) (m : vmut pfx) g i p v l r :
  mvirt pfx m = None -> vm_tree T m = Node i p v l r ->
  let T' := fst (vm_value_mut T m g) in
  snd (vm_value_mut T m g) = match v with Some x => Some (p, x) | None => None end /\
  ids T' = ids T /\ skel T' = skel T /\ vm_tree T' m = Node i p (option_map g v) l r /\
  (exists pre post, entries_id T = pre ++ own_id i p v ++ post /\
                    entries_id T' = pre ++ own_id i p (option_map g v) ++ post) /\
  nentries T' = nentries T.
Proof.
  intros Hv Hs. unfold vm_value_mut. rewrite Hv. cbn [fst snd].
  destruct (vm_write_node T m i p v l r (option_map g v) Hs) as [A [B [C [D E]]]].
  rewrite Hs in *. cbn [tval pv].
  split; [reflexivity|]. split; [exact A|].
  split; [apply (subst_image skel (fun i p v => Node i p (option_map (fun _ => tt) v))); [reflexivity|];
          unfold vm_tree in Hs; rewrite Hs; destruct v; reflexivity|].
  split; [exact C|]. split; [exact D|]. rewrite E. destruct v; cbn; lia.
Qed.

(** a dangling real view (excluded for views obtained from the API) writes nothing *)
Theorem vm_write_leaf (T : tree) (m : vmut pfx) :
  vm_tree T m = Leaf ->
  fst (vm_remove T m) = T /\ (forall x, fst (vm_set T m x) = T) /\
  (forall g, fst (vm_value_mut T m g) = T).
Proof.
  unfold vm_remove, vm_set, vm_value_mut, vm_tree. intros H.
  destruct (mvirt pfx m); cbn [fst]; [auto|]. rewrite H. cbn [set_tval].
  assert (E : subst T (mpath pfx m) Leaf = T) by (rewrite <- H; apply subst_same).
  auto.
Qed.

(** the model of the counter drift of [TrieViewMut::remove]/[set]: the slots are untouched and the
    number of stored entries moves by -1 / +1 / 0 while the allocator (cached [len()]) is out of
    reach *)
Corollary vm_remove_count (T : tree) (m : vmut pfx) :
  vm_tree T m <> Leaf ->
  ids (fst (vm_remove T m)) = ids T /\
  nentries (fst (vm_remove T m)) = (nentries T - (if is_some (vm_value T m) then 1 else 0))%Z.
Proof.
  intros Hn. unfold vm_value. destruct (mvirt pfx m) as [q|] eqn:Hv.
  - unfold vm_remove. rewrite Hv. cbn. split; [reflexivity | lia].
  - destruct (vm_tree T m) as [|i p v l r] eqn:Hs; [contradiction|].
    destruct (vm_remove_node T m i p v l r Hv Hs) as [_ [A [_ [_ [_ E]]]]]. split; [exact A | exact E].
Qed.

Corollary vm_set_count (T : tree) (m : vmut pfx) x :
  vm_tree T m <> Leaf -> mvirt pfx m = None ->
  ids (fst (vm_set T m x)) = ids T /\
  nentries (fst (vm_set T m x)) = (nentries T + (if is_some (vm_value T m) then 0 else 1))%Z.
Proof.
  intros Hn Hv. unfold vm_value. rewrite Hv.
  destruct (vm_tree T m) as [|i p v l r] eqn:Hs; [contradiction|].
  destruct (vm_set_node T m x i p v l r Hv Hs) as [_ [A [_ [_ [_ E]]]]]. split; [exact A | exact E].
Qed.

Corollary vm_value_mut_count (T : tree) (m : vmut pfx) g :
  ids (fst (vm_value_mut T m g)) = ids T /\
  nentries (fst (vm_value_mut T m g)) = nentries T.
Proof.
  destruct (mvirt pfx m) as [q|] eqn:Hv.
  - unfold vm_value_mut. rewrite Hv. cbn. auto.
  - destruct (vm_tree T m) as [|i p v l r] eqn:Hs.
    + destruct (vm_write_leaf T m Hs) as [_ [_ E]]. rewrite E. auto.
    + destruct (vm_value_mut_node T m g i p v l r Hv Hs) as [_ [A [_ [_ [_ E]]]]]. auto.
Qed.

Lemma write_ids_node_other i p v (l r : tree) ws :
  assoc_id ws i = None -> write_ids (Node i p v l r) ws = Node i p v (write_ids l ws) (write_ids r ws).
Proof. intros E. cbn [write_ids]. rewrite E. destruct v; reflexivity. Qed.

Lemma write_ids_child i p v (l r : tree) (b : bool) ws :
  NoDup (ids (Node i p v l r)) -> (forall j, In j (map fst ws) -> In j (ids (if b then r else l))) ->
  write_ids (Node i p v l r) ws = with_child pfx V i p v l r b (write_ids (if b then r else l) ws).
Proof.
  intros Hnd Hws. destruct (nodup_ids_node Hnd) as [Hi [_ [_ Hd]]].
  rewrite write_ids_node_other.
  - destruct b; cbn [with_child]; [rewrite (write_ids_foreign l) | rewrite (write_ids_foreign r)];
      try reflexivity; intros j Hj Hin; [exact (Hd j Hj (Hws j Hin)) | exact (Hd j (Hws j Hin) Hj)].
  - apply assoc_id_none. intros Hin. apply Hi, in_app_iff. apply Hws in Hin. destruct b; auto.
Qed.

Theorem write_ids_local (pa : path) : forall (T : tree) ws,
  NoDup (ids T) -> (forall i, In i (map fst ws) -> In i (ids (subtree T pa))) ->
  write_ids T ws = subst T pa (write_ids (subtree T pa) ws).
Proof.
  induction pa as [|b pa IH]; intros T ws Hnd Hws.
  - rewrite subtree_nil, subst_nil. reflexivity.
  - destruct T as [|i p v l r]; [reflexivity|]. cbn [subtree] in Hws.
    rewrite (write_ids_child i p v l r b ws Hnd) by (intros j Hj; exact (subtree_ids_incl pa _ j (Hws j Hj))).
    rewrite (IH _ ws (nodup_ids_child b Hnd) Hws). destruct b; reflexivity.
Qed.

Lemma write_ids_root_only i p x (l r : tree) y :
  NoDup (ids (Node i p (Some x) l r)) ->
  write_ids (Node i p (Some x) l r) [(i, y)] = Node i p (Some y) l r.
Proof.
  intros Hnd. destruct (nodup_ids_node Hnd) as [Hi _].
  cbn [write_ids assoc_id]. rewrite N.eqb_refl.
  rewrite !write_ids_foreign; [reflexivity| |]; intros j Hj [<-|[]]; apply Hi; apply in_app_iff; auto.
Qed.

Lemma subtree_root_in (pa : path) (t : tree) j p v l r : subtree t pa = Node j p v l r -> In j (ids t).
Proof. intros E. apply (subtree_ids_incl pa). rewrite E. left. reflexivity. Qed.

Lemma subtree_below_neq {i p v} {l r : tree} {b : bool} {pa} :
  NoDup (ids (Node i p v l r)) -> subtree (if b then r else l) pa <> Node i p v l r.
Proof.
  intros Hnd E. apply subtree_root_in in E.
  destruct (nodup_ids_node Hnd) as [Hi _]. apply Hi, in_app_iff. destruct b; auto.
Qed.

Theorem subtree_path_unique (pa : path) : forall (T : tree) (pa' : path),
  NoDup (ids T) -> subtree T pa <> Leaf -> subtree T pa = subtree T pa' -> pa = pa'.
Proof.
  induction pa as [|b pa IH]; intros T pa' Hnd Hn E.
  - destruct pa' as [|b' pa']; [reflexivity|]. exfalso. rewrite subtree_nil in *.
    destruct T as [|i p v l r]; [exact (Hn eq_refl)|]. symmetry in E. exact (subtree_below_neq Hnd E).
  - destruct T as [|i p v l r]; [exfalso; exact (Hn eq_refl)|].
    destruct pa' as [|b' pa']; [exfalso; exact (subtree_below_neq Hnd E)|]. cbn [subtree] in Hn, E.
    destruct (bool_dec b b') as [<-|Hne]; [f_equal; exact (IH _ pa' (nodup_ids_child b Hnd) Hn E)|].
    exfalso. destruct (subtree (if b then r else l) pa) as [|j pj vj lj rj] eqn:Es; [exact (Hn eq_refl)|].
    apply subtree_root_in in Es. symmetry in E. apply subtree_root_in in E.
    destruct (nodup_ids_node Hnd) as [_ [_ [_ Hd]]].
    destruct b, b'; [exact (Hne eq_refl) | exact (Hd j E Es) | exact (Hd j Es E) | exact (Hne eq_refl)].
Qed.

End MA.

Section MB.
Variables (pfx V : Type).
Variables (peq contains : pfx -> pfx -> bool) (is_bit_set : pfx -> N -> bool)
          (plen : pfx -> N) (lcp : pfx -> pfx -> pfx) (pzero : pfx)
          (mcmp : pfx -> pfx -> comparison).
Variable bits : pfx -> list bool.
Variable ok : pfx -> Prop.
Hypothesis LAWS : prefix_laws pfx peq contains is_bit_set plen lcp pzero mcmp bits ok.

Notation tree := (Trie.tree pfx V).
Notation view := (Views.view pfx V).
Notation vmut := (Views.vmut pfx).
Notation mpath := (Views.mpath pfx).
Notation mvirt := (Views.mvirt pfx).
Notation ids := (Slots.ids pfx V).
Notation to_right := (to_right pfx is_bit_set plen).
Notation tpfx := (tpfx pfx V pzero).
Notation find_walk := (find_walk pfx V peq contains is_bit_set plen).
Notation v_find := (v_find pfx V peq contains is_bit_set plen).
Notation find_exact_walk := (find_exact_walk pfx V peq contains is_bit_set plen).
Notation v_find_exact := (v_find_exact pfx V peq contains is_bit_set plen).
Notation find_lpm_walk := (find_lpm_walk pfx V peq contains is_bit_set plen).
Notation v_find_lpm := (v_find_lpm pfx V peq contains is_bit_set plen).
Notation v_left := (v_left pfx V is_bit_set plen pzero).
Notation v_right := (v_right pfx V is_bit_set plen pzero).
Notation v_prefix := (v_prefix pfx V pzero).
Notation find_walk_m := (find_walk_m pfx V peq contains is_bit_set plen).
Notation vm_find := (vm_find pfx V peq contains is_bit_set plen).
Notation find_exact_walk_m := (find_exact_walk_m pfx V peq contains is_bit_set plen).
Notation vm_find_exact := (vm_find_exact pfx V peq contains is_bit_set plen).
Notation find_lpm_walk_m := (find_lpm_walk_m pfx V peq contains is_bit_set plen).
Notation vm_find_lpm := (vm_find_lpm pfx V peq contains is_bit_set plen).
Notation vm_has_left := (vm_has_left pfx V is_bit_set plen pzero).
Notation vm_has_right := (vm_has_right pfx V is_bit_set plen pzero).
Notation vm_left := (vm_left pfx V is_bit_set plen pzero).
Notation vm_right := (vm_right pfx V is_bit_set plen pzero).
Notation vm_split := (vm_split pfx V is_bit_set plen pzero).
Notation vm_prefix := (vm_prefix pfx V pzero).
Notation children_start := (children_start pfx V peq contains is_bit_set plen).
Notation children := (Trie.children pfx V peq contains is_bit_set plen).
Notation children_mut := (Trie.children_mut pfx V peq contains is_bit_set plen).
Notation into_children := (Trie.into_children pfx V peq contains is_bit_set plen).
Notation view_wf := (ViewsThm.view_wf pfx V pzero bits ok).
Notation v_entries := (ViewsThm.v_entries pfx V).
Notation descent_ind := (TrieWf.descent_ind pfx V peq contains is_bit_set plen).

(** the read-only view designated by a result of the mutable [find] loop *)
Definition loc_view (t : tree) (q : pfx) (r : path * bool) : view :=
  let '(pa, vi) := r in if vi then VVirt q (subtree t pa) else VNode (subtree t pa).

Theorem find_walk_m_sim (t : tree) : forall q,
  find_walk t q = option_map (loc_view t q) (find_walk_m t q).
Proof.
  intros q.
  induction t as [|i p v l r E|i p v l r E Hs|i p v l r ci cp cv cl cr E Ec C IH] using (descent_ind q);
    [reflexivity|cbn [Views.find_walk Views.find_walk_m]; unfold child_of in *; rewrite E..].
  - reflexivity.
  - destruct (if to_right p q then r else l) as [|ci cp cv cl cr] eqn:Ec; [reflexivity|]. rewrite Hs.
    destruct (contains q cp); [|reflexivity]. cbn [option_map loc_view subtree]. rewrite Ec. reflexivity.
  - rewrite Ec, C, IH. destruct (find_walk_m (Node ci cp cv cl cr) q) as [[pa vi]|]; [|reflexivity].
    cbn [option_map loc_view subtree]. rewrite Ec. reflexivity.
Qed.

Corollary find_walk_m_none (t : tree) q : find_walk_m t q = None <-> find_walk t q = None.
Proof.
  rewrite find_walk_m_sim. destruct (find_walk_m t q) as [[pa vi]|]; cbn; split; intros H; congruence.
Qed.

(** the converse holds up to the choice of the path: two different paths may lead to equal
    subtrees when slots are not distinct.  That is all [_partial] in the name says; with distinct
    slots the path is determined ([find_walk_m_iff]). *)
Corollary find_walk_m_conv_partial (t : tree) q pa (vi : bool) :
  find_walk t q = Some (if vi then VVirt q (subtree t pa) else VNode (subtree t pa)) ->
  exists pa', find_walk_m t q = Some (pa', vi) /\ subtree t pa' = subtree t pa.
Proof.
  rewrite find_walk_m_sim. destruct (find_walk_m t q) as [[pa' vi']|]; [|discriminate].
  cbn [option_map loc_view]. intros H. exists pa'. destruct vi, vi'; inversion H; auto.
Qed.

Lemma children_start_nodes (t : tree) : forall q,
  Forall (fun c => is_node c = true) (children_start t q).
Proof.
  intros q.
  induction t as [|i p v l r E|i p v l r E Hs|i p v l r ci cp cv cl cr E Ec C IH] using (descent_ind q);
    [constructor|cbn [Trie.children_start]; unfold child_of in *; rewrite E..].
  - repeat constructor.
  - destruct (if to_right p q then r else l) as [|ci cp cv cl cr]; [constructor|]. rewrite Hs.
    destruct (contains q cp); repeat constructor.
  - rewrite Ec, C. exact IH.
Qed.

Lemma find_walk_m_node (t : tree) : forall q pa vi,
  find_walk_m t q = Some (pa, vi) -> subtree t pa <> Leaf.
Proof.
  intros q pa vi H E. pose proof (children_start_nodes t q) as Hn.
  pose proof (find_walk_children pfx V peq contains is_bit_set plen t q) as Hc.
  rewrite find_walk_m_sim, H in Hc. cbn [option_map] in Hc. rewrite Hc in Hn.
  inversion Hn as [|c cs Hc' _]; subst. destruct vi; cbn in Hc'; rewrite E in Hc'; discriminate.
Qed.

Theorem find_walk_m_iff (t : tree) q pa (vi : bool) :
  NoDup (ids t) ->
  (find_walk_m t q = Some (pa, vi) <->
   find_walk t q = Some (if vi then VVirt q (subtree t pa) else VNode (subtree t pa))).
Proof.
  intros Hnd. split; [intros H; rewrite find_walk_m_sim, H; reflexivity|]. intros H.
  destruct (find_walk_m_conv_partial t q pa vi H) as [pa' [F E]].
  rewrite F. f_equal. f_equal.
  apply (subtree_path_unique pfx V pa' t pa Hnd); [|exact E].
  eapply find_walk_m_node. exact F.
Qed.

Theorem find_exact_walk_m_sim (t : tree) : forall q,
  find_exact_walk t q = option_map (fun pa => VNode (subtree t pa)) (find_exact_walk_m t q).
Proof.
  intros q.
  induction t as [|i p v l r E|i p v l r E Hs|i p v l r ci cp cv cl cr E Ec C IH] using (descent_ind q);
    [reflexivity|cbn [Views.find_exact_walk Views.find_exact_walk_m]; unfold child_of in *; rewrite E..].
  - destruct (is_some v); reflexivity.
  - destruct (if to_right p q then r else l) as [|ci cp cv cl cr]; [reflexivity|]. rewrite Hs. reflexivity.
  - rewrite Ec, C, IH. destruct (find_exact_walk_m (Node ci cp cv cl cr) q); [|reflexivity].
    cbn [option_map subtree]. rewrite Ec. reflexivity.
Qed.

Corollary find_exact_walk_m_none (t : tree) q :
  find_exact_walk_m t q = None <-> find_exact_walk t q = None.
Proof.
  rewrite find_exact_walk_m_sim. destruct (find_exact_walk_m t q); cbn; split; intros H; congruence.
Qed.

Corollary find_exact_walk_m_conv_partial (t : tree) q pa :
  find_exact_walk t q = Some (VNode (subtree t pa)) ->
  exists pa', find_exact_walk_m t q = Some pa' /\ subtree t pa' = subtree t pa.
Proof.
  rewrite find_exact_walk_m_sim. destruct (find_exact_walk_m t q) as [pa'|]; [|discriminate].
  cbn [option_map]. intros H. exists pa'. inversion H; auto.
Qed.

Lemma find_exact_walk_m_node (t : tree) : forall q pa,
  find_exact_walk_m t q = Some pa -> subtree t pa <> Leaf.
Proof.
  intros q pa H E. pose proof (find_exact_walk_m_sim t q) as S.
  (* an exact match is a match of [find] that carries a value, and a [Leaf] carries none *)
  rewrite H, find_exact_walk_eq in S. cbn [option_map] in S. rewrite E in S.
  exact (Bool.diff_false_true (proj2 (if_valued_some pfx V S))).
Qed.

Theorem find_exact_walk_m_iff (t : tree) q pa :
  NoDup (ids t) ->
  (find_exact_walk_m t q = Some pa <-> find_exact_walk t q = Some (VNode (subtree t pa))).
Proof.
  intros Hnd. split; [intros H; rewrite find_exact_walk_m_sim, H; reflexivity|]. intros H.
  destruct (find_exact_walk_m_conv_partial t q pa H) as [pa' [F E]].
  rewrite F. f_equal.
  apply (subtree_path_unique pfx V pa' t pa Hnd); [|exact E].
  eapply find_exact_walk_m_node. exact F.
Qed.

(** [find_lpm]: the mutable loop accumulates the reversed path [cur] from the root [t0] of the
    descent and remembers the reversed path of the best node *)
Definition lpm_loc (t0 : tree) (rp : path) : view := VNode (subtree t0 (rev rp)).

Lemma lpm_loc_best (t0 : tree) {t : tree} cur (v : option V) best :
  subtree t0 (rev cur) = t ->
  (if is_some v then Some (VNode t) else option_map (lpm_loc t0) best)
  = option_map (lpm_loc t0) (if is_some v then Some cur else best).
Proof. intros <-. destruct (is_some v); reflexivity. Qed.

Theorem find_lpm_walk_m_sim (t0 t : tree) : forall q cur best,
  subtree t0 (rev cur) = t ->
  find_lpm_walk t q (option_map (lpm_loc t0) best)
  = option_map (lpm_loc t0) (find_lpm_walk_m t q cur best).
Proof.
  intros q.
  induction t as [|i p v l r E|i p v l r E Hs|i p v l r ci cp cv cl cr E Ec C IH] using (descent_ind q);
    intros cur best Hc; [reflexivity|..].
  all: cbn [Views.find_lpm_walk Views.find_lpm_walk_m]; unfold child_of in *.
  all: rewrite E, (lpm_loc_best t0 cur v best Hc).
  - reflexivity.
  - destruct (if to_right p q then r else l) as [|ci cp cv cl cr]; [reflexivity|]. rewrite Hs. reflexivity.
  - rewrite Ec, C. apply IH. cbn [rev]. rewrite subtree_app, Hc. cbn [subtree]. rewrite Ec. reflexivity.
Qed.

Corollary find_lpm_walk_m_root (t : tree) q :
  find_lpm_walk t q None
  = option_map (fun rp => VNode (subtree t (rev rp))) (find_lpm_walk_m t q [] None).
Proof.
  apply (find_lpm_walk_m_sim t t q [] None). apply (subtree_nil pfx V).
Qed.

Lemma v_tree_vm_view (T : tree) (m : vmut) : v_tree (vm_view T m) = vm_tree T m.
Proof. unfold vm_view. destruct (mvirt m); reflexivity. Qed.

Theorem vm_find_sim (T : tree) (m : vmut) q :
  option_map (vm_view T) (vm_find T m q) = v_find (vm_view T m) q.
Proof.
  unfold Views.vm_find, Views.v_find. rewrite v_tree_vm_view.
  destruct (vm_tree T m) as [|i p v l r] eqn:E; [reflexivity|].
  destruct (contains q p && negb (peq p q)).
  - cbn [option_map]. unfold vm_view, vm_tree in *. cbn [Views.mvirt Views.mpath]. rewrite E. reflexivity.
  - rewrite find_walk_m_sim.
    destruct (find_walk_m (Node i p v l r) q) as [[pa vi]|]; [|reflexivity].
    cbn [option_map loc_view]. unfold vm_view, vm_tree in *. cbn [Views.mvirt Views.mpath].
    rewrite (subtree_app pfx V), E. destruct vi; reflexivity.
Qed.

(** [view_mut_at] locates what [view_at] locates *)
Corollary vm_find_root_sim (T : tree) q :
  option_map (vm_view T) (vm_find T (vm_root pfx) q) = view_at pfx V peq contains is_bit_set plen T q.
Proof.
  rewrite vm_find_sim. unfold vm_view, vm_root, vm_tree. cbn [Views.mvirt Views.mpath].
  rewrite subtree_nil. reflexivity.
Qed.

Theorem vm_find_exact_sim (T : tree) (m : vmut) q :
  option_map (vm_view T) (vm_find_exact T m q) = v_find_exact (vm_view T m) q.
Proof.
  unfold Views.vm_find_exact, Views.v_find_exact. rewrite v_tree_vm_view, find_exact_walk_m_sim.
  destruct (find_exact_walk_m (vm_tree T m) q) as [pa|]; [|reflexivity].
  cbn [option_map]. unfold vm_view, vm_tree. cbn [Views.mvirt Views.mpath].
  rewrite (subtree_app pfx V). reflexivity.
Qed.

Theorem vm_find_lpm_sim (T : tree) (m : vmut) q :
  option_map (vm_view T) (vm_find_lpm T m q) = v_find_lpm (vm_view T m) q.
Proof.
  unfold Views.vm_find_lpm, Views.v_find_lpm. rewrite v_tree_vm_view.
  destruct (vm_tree T m) as [|i p v l r] eqn:E; [reflexivity|].
  destruct (contains p q); [|reflexivity].
  rewrite find_lpm_walk_m_root.
  destruct (find_lpm_walk_m (Node i p v l r) q [] None) as [rpa|]; [|reflexivity].
  cbn [option_map]. unfold vm_view, vm_tree in *. cbn [Views.mvirt Views.mpath].
  rewrite (subtree_app pfx V), E. reflexivity.
Qed.

Lemma subtree_side (t : tree) (b : bool) : subtree t [b] = if b then tright t else tleft t.
Proof. destruct t as [|i p v l r]; [destruct b; reflexivity|]. cbn [subtree tleft tright]. destruct b; apply (subtree_nil pfx V). Qed.

Theorem vm_left_sim (T : tree) (m : vmut) :
  option_map (vm_view T) (vm_left T m) = v_left (vm_view T m).
Proof.
  unfold Views.vm_left, vm_view. destruct (mvirt m) as [p|]; cbn [Views.v_left].
  - destruct (negb (to_right p (tpfx (vm_tree T m)))); reflexivity.
  - destruct (tleft (vm_tree T m)) as [|i p v l r] eqn:E; cbn [is_node]; [reflexivity|].
    cbn [option_map Views.mvirt]. unfold vm_tree in *. cbn [Views.mpath].
    rewrite (subtree_app pfx V), subtree_side, E. reflexivity.
Qed.

Theorem vm_right_sim (T : tree) (m : vmut) :
  option_map (vm_view T) (vm_right T m) = v_right (vm_view T m).
Proof.
  unfold Views.vm_right, vm_view. destruct (mvirt m) as [p|]; cbn [Views.v_right].
  - destruct (to_right p (tpfx (vm_tree T m))); reflexivity.
  - destruct (tright (vm_tree T m)) as [|i p v l r] eqn:E; cbn [is_node]; [reflexivity|].
    cbn [option_map Views.mvirt]. unfold vm_tree in *. cbn [Views.mpath].
    rewrite (subtree_app pfx V), subtree_side, E. reflexivity.
Qed.

Lemma vm_find_below (T : tree) (m : vmut) q m' :
  vm_find T m q = Some m' -> prefix_of (mpath m) (mpath m').
Proof.
  unfold Views.vm_find. destruct (vm_tree T m) as [|i p v l r]; [discriminate|].
  destruct (contains q p && negb (peq p q)); [intros [= <-]; apply prefix_of_refl|].
  destruct (find_walk_m (Node i p v l r) q) as [[pa vi]|]; [|discriminate].
  intros [= <-]. apply prefix_of_app.
Qed.

Lemma vm_find_exact_below (T : tree) (m : vmut) q m' :
  vm_find_exact T m q = Some m' -> prefix_of (mpath m) (mpath m') /\ mvirt m' = None.
Proof.
  unfold Views.vm_find_exact. destruct (find_exact_walk_m (vm_tree T m) q) as [pa|]; [|discriminate].
  intros [= <-]. split; [apply prefix_of_app | reflexivity].
Qed.

Lemma vm_find_lpm_below (T : tree) (m : vmut) q m' :
  vm_find_lpm T m q = Some m' -> prefix_of (mpath m) (mpath m') /\ mvirt m' = None.
Proof.
  unfold Views.vm_find_lpm. destruct (vm_tree T m) as [|i p v l r]; [discriminate|].
  destruct (contains p q); [|discriminate].
  destruct (find_lpm_walk_m (Node i p v l r) q [] None) as [rpa|]; [|discriminate].
  intros [= <-]. split; [apply prefix_of_app | reflexivity].
Qed.

Lemma vm_left_below (T : tree) (m m' : vmut) :
  vm_left T m = Some m' -> prefix_of (mpath m) (mpath m') /\ mvirt m' = None.
Proof.
  unfold Views.vm_left. destruct (mvirt m).
  - destruct (negb _); [|discriminate]. intros [= <-]. split; [apply prefix_of_refl | reflexivity].
  - destruct (is_node _); [|discriminate]. intros [= <-]. split; [apply prefix_of_app | reflexivity].
Qed.

Lemma vm_right_below (T : tree) (m m' : vmut) :
  vm_right T m = Some m' -> prefix_of (mpath m) (mpath m') /\ mvirt m' = None.
Proof.
  unfold Views.vm_right. destruct (mvirt m).
  - destruct (Trie.to_right _ _ _ _ _); [|discriminate]. intros [= <-]. split; [apply prefix_of_refl | reflexivity].
  - destruct (is_node _); [|discriminate]. intros [= <-]. split; [apply prefix_of_app | reflexivity].
Qed.

Theorem vm_split_eq (T : tree) (m : vmut) : vm_split T m = (vm_left T m, vm_right T m).
Proof.
  unfold Views.vm_split, Views.vm_left, Views.vm_right. destruct (mvirt m) as [p|]; [|reflexivity].
  destruct (to_right p (tpfx (vm_tree T m))); reflexivity.
Qed.

Corollary vm_split_sim (T : tree) (m : vmut) :
  (option_map (vm_view T) (fst (vm_split T m)), option_map (vm_view T) (snd (vm_split T m)))
  = (v_left (vm_view T m), v_right (vm_view T m)).
Proof. rewrite vm_split_eq. cbn [fst snd]. rewrite vm_left_sim, vm_right_sim. reflexivity. Qed.

Theorem vm_has_left_spec (T : tree) (m : vmut) : vm_has_left T m = true <-> vm_left T m <> None.
Proof.
  unfold Views.vm_has_left, Views.vm_left. destruct (mvirt m) as [p|].
  - destruct (negb (to_right p (tpfx (vm_tree T m)))); split; intros H; congruence.
  - destruct (is_node (tleft (vm_tree T m))); split; intros H; congruence.
Qed.

Theorem vm_has_right_spec (T : tree) (m : vmut) : vm_has_right T m = true <-> vm_right T m <> None.
Proof.
  unfold Views.vm_has_right, Views.vm_right. destruct (mvirt m) as [p|].
  - destruct (to_right p (tpfx (vm_tree T m))); split; intros H; congruence.
  - destruct (is_node (tright (vm_tree T m))); split; intros H; congruence.
Qed.

Theorem vm_prefix_sim (T : tree) (m : vmut) : vm_prefix T m = v_prefix (vm_view T m).
Proof. unfold Views.vm_prefix, vm_view. destruct (mvirt m); reflexivity. Qed.

Theorem vm_value_sim (T : tree) (m : vmut) : vm_value T m = v_value (vm_view T m).
Proof. unfold vm_value, vm_view. destruct (mvirt m); reflexivity. Qed.

Theorem vm_iter_mut_spec (T : tree) (m : vmut) : vm_iter_mut T m = entries_id (vm_tree T m).
Proof. unfold vm_iter_mut. apply iter_mut_items_spec. Qed.

Theorem v_iter_vm_view (T : tree) (m : vmut) : v_iter (vm_view T m) = entries_id (vm_tree T m).
Proof. unfold v_iter. rewrite v_tree_vm_view. apply iter_items_spec. Qed.

Theorem vm_iter_mut_sim (T : tree) (m : vmut) : vm_iter_mut T m = v_iter (vm_view T m).
Proof. rewrite vm_iter_mut_spec, v_iter_vm_view. reflexivity. Qed.

Corollary vm_iter_mut_refs (T : tree) (m : vmut) :
  NoDup (ids T) ->
  NoDup (map (slot3 pfx V) (vm_iter_mut T m)) /\ incl (vm_iter_mut T m) (entries_id T).
Proof.
  intros Hnd. rewrite vm_iter_mut_spec. unfold vm_tree. split.
  - apply entry_slots_nodup. apply subtree_nodup. exact Hnd.
  - apply subtree_entries_id_incl.
Qed.

Corollary vm_split_refs_disjoint (T : tree) (m ml mr : vmut) :
  NoDup (ids T) -> mvirt m = None -> vm_split T m = (Some ml, Some mr) ->
  forall i, In i (map (slot3 pfx V) (vm_iter_mut T ml)) -> ~ In i (map (slot3 pfx V) (vm_iter_mut T mr)).
Proof.
  intros Hnd Hv Hs i. rewrite !vm_iter_mut_spec. unfold Views.vm_split in Hs. rewrite Hv in Hs.
  destruct (is_node (tleft (vm_tree T m))); [|discriminate].
  destruct (is_node (tright (vm_tree T m))); [|discriminate].
  inversion Hs; subst. unfold vm_tree. cbn [Views.mpath]. intros H1 H2.
  apply (split_slots_disjoint pfx V T (mpath m) Hnd i); apply slots_in_ids; assumption.
Qed.

Definition vmut_wf (T : tree) (m : vmut) : Prop := view_wf (vm_view T m).

(** a specification of a read-only call, given by cases on its result, holds of the mutable twin
    that locates the same view *)
Lemma spec_transport {A} {f : A -> view} {o : option A} {ov : option view}
    {P : view -> Prop} {P' : A -> Prop} {Q : Prop} :
  option_map f o = ov -> (forall a, P (f a) -> P' a) ->
  match ov with Some v' => P v' | None => Q end -> match o with Some a => P' a | None => Q end.
Proof. intros <- HP. destruct o; [apply HP | exact (fun H => H)]. Qed.

Lemma vm_view_real (T : tree) (m : vmut) : v_is_virtual (vm_view T m) = false -> mvirt m = None.
Proof. unfold vm_view. destruct (mvirt m); [discriminate | reflexivity]. Qed.

Theorem vm_find_spec (T : tree) (m : vmut) q :
  vmut_wf T m -> ok q ->
  match vm_find T m q with
  | Some m' =>
    vmut_wf T m' /\ bits (vm_prefix T m') = bits q /\
    forall e, In e (v_entries (vm_view T m')) <->
              In e (v_entries (vm_view T m)) /\ prefix_of (bits q) (TrieWf.key pfx V bits e)
  | None => forall e, In e (v_entries (vm_view T m)) -> ~ prefix_of (bits q) (TrieWf.key pfx V bits e)
  end.
Proof.
  intros Hwf Hq.
  refine (spec_transport (vm_find_sim T m q) _
            (v_find_spec pfx V peq contains is_bit_set plen lcp pzero mcmp bits ok LAWS (vm_view T m) q Hwf Hq)).
  intros m' H. rewrite vm_prefix_sim. exact H.
Qed.

Theorem vm_find_exact_spec (T : tree) (m : vmut) q :
  vmut_wf T m -> ok q ->
  match vm_find_exact T m q with
  | Some m' => vmut_wf T m' /\ mvirt m' = None /\ bits (vm_prefix T m') = bits q /\
               exists x, vm_value T m' = Some x /\ In (vm_prefix T m', x) (v_entries (vm_view T m))
  | None => forall e, In e (v_entries (vm_view T m)) -> TrieWf.key pfx V bits e <> bits q
  end.
Proof.
  intros Hwf Hq.
  refine (spec_transport (vm_find_exact_sim T m q) _
            (v_find_exact_spec pfx V peq contains is_bit_set plen lcp pzero mcmp bits ok LAWS (vm_view T m) q Hwf Hq)).
  intros m' [A [R [B C]]]. rewrite vm_prefix_sim, vm_value_sim.
  exact (conj A (conj (vm_view_real T m' R) (conj B C))).
Qed.

Theorem vm_find_lpm_spec (T : tree) (m : vmut) q :
  vmut_wf T m -> ok q ->
  match vm_find_lpm T m q with
  | Some m' => exists e, mvirt m' = None /\ v_prefix_value (vm_view T m') = Some e /\
                         is_lpm pfx V bits (v_entries (vm_view T m)) q e
  | None => no_cover pfx V bits (v_entries (vm_view T m)) q
  end.
Proof.
  intros Hwf Hq.
  refine (spec_transport (vm_find_lpm_sim T m q) _
            (v_find_lpm_spec pfx V peq contains is_bit_set plen lcp pzero mcmp bits ok LAWS (vm_view T m) q Hwf Hq)).
  intros m' [e [R BC]]. exists e. exact (conj (vm_view_real T m' R) BC).
Qed.

Lemma vm_side_sim (T : tree) (m : vmut) (s : bool) :
  option_map (vm_view T) (if s then vm_right T m else vm_left T m)
  = if s then v_right (vm_view T m) else v_left (vm_view T m).
Proof. destruct s; [apply vm_right_sim | apply vm_left_sim]. Qed.

Theorem vm_side_spec (T : tree) (m : vmut) (s : bool) :
  vmut_wf T m ->
  match (if s then vm_right T m else vm_left T m) with
  | Some m' =>
    vmut_wf T m' /\ mvirt m' = None /\
    forall e, In e (v_entries (vm_view T m')) <->
              In e (v_entries (vm_view T m)) /\
              prefix_of (bits (vm_prefix T m) ++ [s]) (TrieWf.key pfx V bits e)
  | None => forall e, In e (v_entries (vm_view T m)) ->
                      ~ prefix_of (bits (vm_prefix T m) ++ [s]) (TrieWf.key pfx V bits e)
  end.
Proof.
  intros Hwf. rewrite vm_prefix_sim.
  refine (spec_transport (vm_side_sim T m s) _
            (v_side_spec pfx V peq contains is_bit_set plen lcp pzero mcmp bits ok LAWS (vm_view T m) s Hwf)).
  intros m' [A [R C]]. exact (conj A (conj (vm_view_real T m' R) C)).
Qed.

Theorem iter_mut_items_eq (t : tree) : iter_mut_items pfx V t = iter_items pfx V t.
Proof. rewrite iter_mut_items_spec, iter_items_spec. reflexivity. Qed.

Theorem into_iter_items_eq (t : tree) : into_iter_items pfx V t = iter_items pfx V t.
Proof. rewrite into_iter_items_spec, iter_items_spec. reflexivity. Qed.

Theorem children_spec (t : tree) q : children t q = flat_map entries_id (children_start t q).
Proof. unfold Trie.children. rewrite iter_run_spec by apply children_start_nodes. reflexivity. Qed.

Theorem children_mut_eq (t : tree) q : children_mut t q = children t q.
Proof.
  unfold Trie.children_mut, Trie.children, iter_run.
  rewrite (run_ext (iter_mut_expand pfx V) (iter_expand pfx V) (iter_mut_expand_eq pfx V)). reflexivity.
Qed.

Theorem into_children_eq (t : tree) q : into_children t q = children t q.
Proof.
  unfold Trie.into_children, Trie.children, iter_run.
  rewrite (run_ext (into_iter_expand pfx V) (iter_expand pfx V) (into_iter_expand_eq pfx V)). reflexivity.
Qed.

Theorem children_find (t : tree) q :
  children t q = match find_walk t q with Some v' => entries_id (v_tree v') | None => [] end.
Proof.
  rewrite children_spec. pose proof (find_walk_children pfx V peq contains is_bit_set plen t q) as H.
  destruct (find_walk t q) as [v'|]; rewrite H; cbn [flat_map]; [apply app_nil_r | reflexivity].
Qed.

Corollary children_mut_find (t : tree) q :
  children_mut t q
  = match find_walk_m t q with Some (pa, _) => entries_id (subtree t pa) | None => [] end.
Proof.
  rewrite children_mut_eq, children_find, find_walk_m_sim.
  destruct (find_walk_m t q) as [[pa vi]|]; [|reflexivity]. destruct vi; reflexivity.
Qed.

Theorem children_mut_refs (t : tree) q :
  NoDup (ids t) ->
  NoDup (map (slot3 pfx V) (children_mut t q)) /\ incl (children_mut t q) (entries_id t).
Proof.
  intros Hnd. rewrite children_mut_find. destruct (find_walk_m t q) as [[pa vi]|].
  - split; [apply entry_slots_nodup; apply subtree_nodup; exact Hnd | apply subtree_entries_id_incl].
  - split; [constructor | intros e []].
Qed.

Theorem iter_mut_refs (t : tree) :
  NoDup (ids t) ->
  NoDup (map (slot3 pfx V) (iter_mut_items pfx V t)) /\ iter_mut_items pfx V t = entries_id t.
Proof.
  intros Hnd. rewrite iter_mut_items_spec. split; [apply entry_slots_nodup; exact Hnd | reflexivity].
Qed.

Notation get_node := (Trie.get_node pfx V peq contains is_bit_set plen).
Notation modify := (Trie.modify pfx V peq contains is_bit_set plen).
Notation get_lpm := (Trie.get_lpm pfx V peq contains is_bit_set plen).
Notation get_lpm_mut := (Trie.get_lpm_mut pfx V peq contains is_bit_set plen).
Notation update_value := (Trie.update_value pfx V peq contains is_bit_set plen).

Lemma get_node_in (t : tree) {q i p v} :
  get_node t q = Some (i, p, v) ->
  In i (ids t) /\ forall x, v = Some x -> In (i, p, x) (entries_id t).
Proof.
  revert i p v.
  induction t as [|i0 p0 v0 l r E|i0 p0 v0 l r E Hs|i0 p0 v0 l r ci cp cv cl cr E Ec C IH] using (descent_ind q);
    intros i p v H; [discriminate|cbn [Trie.get_node] in H; unfold child_of in *; rewrite E in H..].
  - inversion H; subst. split; [left; reflexivity|]. intros x ->. left. reflexivity.
  - destruct (if to_right p0 q then r else l) as [|ci cp cv cl cr]; [discriminate|]. rewrite Hs in H. discriminate.
  - rewrite Ec, C in H. destruct (IH _ _ _ H) as [A B]. rewrite <- Ec in A, B. split.
    + eapply in_ids_child. exact A.
    + intros x Hx. eapply in_entries_id_child. apply B. exact Hx.
Qed.

(** [get_mut(q)] followed by a write of [y] through the reference = the keyed update *)
Theorem get_mut_write (t : tree) : forall q i p x y (h : pfx -> option V -> pfx * option V),
  NoDup (ids t) -> get_node t q = Some (i, p, Some x) -> h p (Some x) = (p, Some y) ->
  write_ids t [(i, y)] = modify t q h.
Proof.
  intros q.
  induction t as [|i0 p0 v0 l r E|i0 p0 v0 l r E Hs|i0 p0 v0 l r ci cp cv cl cr E Ec C IH] using (descent_ind q);
    intros i p x y h Hnd Hg Hh; [discriminate|..].
  all: cbn [Trie.get_node] in Hg; cbn [Trie.modify]; unfold child_of in *; rewrite E in Hg |- *.
  - inversion Hg; subst. rewrite Hh. apply write_ids_root_only. exact Hnd.
  - destruct (if to_right p0 q then r else l) as [|ci cp cv cl cr]; [discriminate|]. rewrite Hs in Hg. discriminate.
  - rewrite Ec, C in Hg |- *.
    rewrite <- (IH i p x y h); [|rewrite <- Ec; eapply nodup_ids_child; exact Hnd|exact Hg|exact Hh].
    rewrite <- Ec. apply write_ids_child; [exact Hnd|]. intros j [<-|[]]. rewrite Ec.
    exact (proj1 (get_node_in _ Hg)).
Qed.

(** the model of writes through [get_mut]/[and_modify] *)
Corollary update_value_write (m : pmap pfx V) q g i p x :
  NoDup (ids (root m)) -> get_node (root m) q = Some (i, p, Some x) ->
  update_value m q g = mkmap (write_ids (root m) [(i, g x)]) (al m).
Proof.
  intros Hnd Hg. unfold Trie.update_value. f_equal. symmetry.
  apply (get_mut_write (root m) q i p x (g x)); [exact Hnd | exact Hg | reflexivity].
Qed.

Theorem get_lpm_mut_spec (t : tree) q :
  option_map (drop_id pfx V) (get_lpm_mut t q) = get_lpm t q /\
  forall e, get_lpm_mut t q = Some e -> In e (entries_id t).
Proof. split; [apply get_lpm_mut_eq | intros [[i p] x]; apply get_lpm_mut_slot]. Qed.

End MB.

Arguments vm_find_below {pfx V peq contains is_bit_set plen T m q m'}.
Arguments vm_find_exact_below {pfx V peq contains is_bit_set plen T m q m'}.
Arguments vm_find_lpm_below {pfx V peq contains is_bit_set plen T m q m'}.
Arguments vm_left_below {pfx V is_bit_set plen pzero T m m'}.
Arguments vm_right_below {pfx V is_bit_set plen pzero T m m'}.

Print Assumptions write_ids_keys.
Print Assumptions write_ids_skel.
Print Assumptions entry_slots_nodup'.
Print Assumptions write_through_items.
Print Assumptions write_through_all.
Print Assumptions write_ids_seq.
Print Assumptions write_ids_comm.
Print Assumptions write_ids_seq_disjoint.
Print Assumptions interleaving_irrelevant.
Print Assumptions interleaving_sequential.
Print Assumptions subtree_ids_incl.
Print Assumptions subtree_entries_id_incl.
Print Assumptions subtree_slots_disjoint.
Print Assumptions split_slots_disjoint.
Print Assumptions subtree_writes_commute.
Print Assumptions write_ids_local.
Print Assumptions subtree_path_unique.
Print Assumptions subtree_subst.
Print Assumptions subtree_app.
Print Assumptions subst_entries_id_ctx.
Print Assumptions subst_set_tval_entries_id.
Print Assumptions subst_set_tval_shape.
Print Assumptions vm_write_virtual.
Print Assumptions vm_remove_node.
Print Assumptions vm_set_node.
Print Assumptions vm_value_mut_node.
Print Assumptions vm_remove_count.
Print Assumptions vm_set_count.
Print Assumptions vm_value_mut_count.
Print Assumptions find_walk_m_sim.
Print Assumptions find_walk_m_iff.
Print Assumptions find_exact_walk_m_sim.
Print Assumptions find_exact_walk_m_iff.
Print Assumptions find_lpm_walk_m_sim.
Print Assumptions vm_find_sim.
Print Assumptions vm_find_exact_sim.
Print Assumptions vm_find_lpm_sim.
Print Assumptions vm_left_sim.
Print Assumptions vm_right_sim.
Print Assumptions vm_split_eq.
Print Assumptions vm_has_left_spec.
Print Assumptions vm_has_right_spec.
Print Assumptions vm_prefix_sim.
Print Assumptions vm_value_sim.
Print Assumptions vm_iter_mut_spec.
Print Assumptions vm_iter_mut_sim.
Print Assumptions vm_iter_mut_refs.
Print Assumptions vm_split_refs_disjoint.
Print Assumptions vm_find_spec.
Print Assumptions vm_find_exact_spec.
Print Assumptions vm_find_lpm_spec.
Print Assumptions vm_side_spec.
Print Assumptions iter_mut_items_eq.
Print Assumptions into_iter_items_eq.
Print Assumptions children_spec.
Print Assumptions children_mut_eq.
Print Assumptions into_children_eq.
Print Assumptions children_find.
Print Assumptions children_mut_refs.
Print Assumptions get_mut_write.
Print Assumptions update_value_write.
Print Assumptions get_lpm_mut_spec.
