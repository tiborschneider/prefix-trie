(** C14 (model-level part) stated directly about the ARENA transcription: the slot indices — the
    arena-level meaning of the [&mut T] references — handed out by mutable traversals never alias.

    - [a_v_iter_mut tb l]: [TrieViewMut::iter_mut] / [values_mut] / [into_iter] at a view location:
      [IterMut] started at the location's slot.
    - [arena_C14_view_iter_mut]: at EVERY location reachable by navigation on a reachable arena, the
      slots of the items are pairwise distinct and the items are exactly the view's read-only iteration.
    - [arena_C14_split]: the two halves [split()] returns (equivalently [left()] and [right()]) hand
      out disjoint slot sets: concatenating the two traversals yields no slot twice. *)
From Coq Require Import List ZArith.
From PT Require Import Laws Trie Views Slots MutTrav MutTravExtra Arena ArenaThm Arena3 Arena3Thm ArenaProps ArenaViews ArenaWrite.
Import ListNotations.

Section AA.
Variables (pfx V : Type).
Variables (peq contains : pfx -> pfx -> bool) (is_bit_set : pfx -> N -> bool)
          (plen : pfx -> N) (lcp : pfx -> pfx -> pfx) (pzero : pfx)
          (mcmp : pfx -> pfx -> comparison).
Variable bits : pfx -> list bool.
Variable ok : pfx -> Prop.
Hypothesis LAWS : prefix_laws pfx peq contains is_bit_set plen lcp pzero mcmp bits ok.

Notation anode := (Arena.anode pfx V).
Notation vloc := (Arena3.vloc pfx).
Notation vmut := (Views.vmut pfx).
Notation minv := (Slots.minv pfx V).
Notation Rep := (ArenaThm.Rep pfx V).
Notation areach := (ArenaProps.areach pfx V peq contains is_bit_set plen lcp pzero ok).
Notation a_vreach := (ArenaViews.a_vreach pfx V peq contains is_bit_set plen lcp ok).
Notation mloc_rep := (Arena3Thm.mloc_rep pfx V).
Notation a_iter_mut := (ArenaWrite.a_iter_mut pfx V).
Notation a_v_iter := (ArenaViews.a_v_iter pfx V).
Notation a_vm_split := (Arena3.a_vm_split pfx V is_bit_set plen).
Notation slot3 := (MutTrav.slot3 pfx V).
Notation drop3 := (ArenaWrite.drop3 pfx V).

Definition a_v_iter_mut (tb : list anode) (l : vloc) : res (list (N * pfx * V)) :=
  a_iter_mut (S (length tb)) tb [Arena3.loc_idx l].

Lemma v_iter_mirrors tb l : a_v_iter tb l = (items <- a_v_iter_mut tb l ;; Ok (map drop3 items)).
Proof. apply (ArenaWrite.iter_mirrors pfx V). Qed.

Lemma v_iter_mut_sim am m l (mm : vmut) : Rep am m -> minv m -> mloc_rep (tbl am) (root m) l mm ->
  a_v_iter_mut (tbl am) l = Ok (Trie.entries_id (vm_tree (root m) mm)).
Proof.
  intros R M [Rm _].
  exact (ArenaWrite.iter_mut_sim1 pfx V _ _ _ Rm
           (ArenaViews.vm_tree_fits pfx V peq contains is_bit_set plen lcp pzero am m mm R M)).
Qed.

Lemma vm_items_nodup m (mm : vmut) : minv m -> NoDup (map slot3 (Trie.entries_id (vm_tree (root m) mm))).
Proof.
  intros M. apply (MutTrav.entry_slots_nodup pfx V). unfold vm_tree.
  exact (MutTrav.subtree_nodup pfx V (mpath pfx mm) (root m)
           (Slots.slots_nodup pfx V peq contains is_bit_set plen lcp pzero _ _ M)).
Qed.

Theorem arena_C14_view_iter_mut am l : areach am -> a_vreach (tbl am) l ->
  exists items, a_v_iter_mut (tbl am) l = Ok items /\ a_v_iter (tbl am) l = Ok (map drop3 items) /\
                NoDup (map slot3 items).
Proof.
  intros H HL.
  destruct (ArenaViews.setup pfx V peq contains is_bit_set plen lcp pzero mcmp bits ok LAWS am l H HL)
    as (m & mm & R & M & _ & (MR & _) & _).
  exists (Trie.entries_id (vm_tree (root m) mm)).
  pose proof (v_iter_mut_sim am m l mm R M MR) as E. split; [exact E|].
  split; [rewrite v_iter_mirrors, E; reflexivity|exact (vm_items_nodup m mm M)].
Qed.

Theorem arena_C14_split am l l1 l2 : areach am -> a_vreach (tbl am) l ->
  a_vm_split (tbl am) l = Ok (Some l1, Some l2) ->
  exists i1 i2, a_v_iter_mut (tbl am) l1 = Ok i1 /\ a_v_iter_mut (tbl am) l2 = Ok i2 /\
                NoDup (map slot3 i1 ++ map slot3 i2).
Proof.
  intros H HL ES.
  destruct (ArenaViews.setup pfx V peq contains is_bit_set plen lcp pzero mcmp bits ok LAWS am l H HL)
    as (m & mm & R & M & _ & (MR & _) & _).
  destruct (Arena3Thm.vm_split_sim pfx V peq contains is_bit_set plen lcp pzero (tbl am) (root m) l mm MR) as (o1 & o2 & E & W1 & W2).
  rewrite ES in E. injection E as <- <-.
  destruct (Views.vm_split pfx V is_bit_set plen pzero (root m) mm) as [[m1|] [m2|]] eqn:SP; cbn in W1, W2; try contradiction.
  exists (Trie.entries_id (vm_tree (root m) m1)), (Trie.entries_id (vm_tree (root m) m2)).
  split; [exact (v_iter_mut_sim am m l1 m1 R M W1)|]. split; [exact (v_iter_mut_sim am m l2 m2 R M W2)|].
  apply TrieWf.nodup_app_intro; [exact (vm_items_nodup m m1 M)|exact (vm_items_nodup m m2 M)|].
  intros i H1 H2.
  exact (MutTravExtra.vm_split_slots_disjoint pfx V is_bit_set plen pzero (root m) mm m1 m2
           (Slots.slots_nodup pfx V peq contains is_bit_set plen lcp pzero _ _ M) SP i
           (MutTrav.slots_in_ids pfx V _ i H1) (MutTrav.slots_in_ids pfx V _ i H2)).
Qed.

End AA.

Print Assumptions arena_C14_view_iter_mut.
Print Assumptions arena_C14_split.
