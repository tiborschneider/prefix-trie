(** C01, return values, about the ARENA transcription: every mutating call of the arena-level code
    that returns a value ([insert], [remove], [remove_keep_tree], [entry(q).insert(x)],
    [OccupiedEntry::remove]) returns what the abstract map returns — the value stored under the key of [q] before the call
    ([Refine.a_get es q], where [es] is the arena's iteration before the call), [None] if there is none —
    and leaves an arena that iterates the abstract result. *)
From Coq Require Import List ZArith.
From PT Require Import Laws Slots Refine Arena ArenaThm Arena2 Arena2Thm ArenaProps ArenaRefine.
Import ListNotations.

Section AO.
Variables (pfx V : Type).
Variables (peq contains : pfx -> pfx -> bool) (is_bit_set : pfx -> N -> bool)
          (plen : pfx -> N) (lcp : pfx -> pfx -> pfx) (pzero : pfx)
          (mcmp : pfx -> pfx -> comparison).
Variable bits : pfx -> list bool.
Variable ok : pfx -> Prop.
Hypothesis LAWS : prefix_laws pfx peq contains is_bit_set plen lcp pzero mcmp bits ok.

Notation amap := (Arena.amap pfx V).
Notation areach := (ArenaProps.areach pfx V peq contains is_bit_set plen lcp pzero ok).
Notation a_entries := (Arena.a_entries pfx V).
Notation a_insert := (Arena.a_insert pfx V peq contains is_bit_set plen lcp).
Notation a_remove := (Arena.a_remove pfx V peq contains is_bit_set plen).
Notation a_remove_keep_tree := (Arena.a_remove_keep_tree pfx V peq contains is_bit_set plen).
Notation a_entry_insert := (Arena2.a_entry_insert pfx V peq contains is_bit_set plen lcp).
Notation a_entry_remove := (Arena2.a_entry_remove pfx V peq contains is_bit_set plen lcp).
Notation abs_get := (Refine.a_get pfx V bits).
Notation abs_insert := (Refine.a_insert pfx V bits).
Notation abs_without := (Refine.a_without pfx V bits).
Notation minv := (Slots.minv pfx V).
Notation Rep := (ArenaThm.Rep pfx V).
Notation nonview := (ArenaProps.nonview pfx V).
Notation to_hop := (ArenaProps.to_hop pfx V).
Notation refinable := (Refine.refinable pfx V ok).
Notation t_step2 := (Arena2.t_step2 pfx V peq contains is_bit_set plen lcp pzero).
Notation abs_step := (Refine.a_step pfx V bits).
Notation c_out := (Refine.c_out pfx V peq contains is_bit_set plen lcp).

Lemma mut_returns am es o (call : res (amap * option V)) :
  areach am -> nonview o = true -> refinable (to_hop o) -> a_entries am = Ok es ->
  (forall m, Rep am m -> minv m ->
     exists am', call = Ok (am', c_out m (to_hop o)) /\ Rep am' (t_step2 o m)) ->
  exists am', call = Ok (am', snd (abs_step es (to_hop o))) /\
              a_entries am' = Ok (fst (abs_step es (to_hop o))).
Proof.
  intros H NV RF E SIM.
  destruct (ArenaProps.areach_view pfx V peq contains is_bit_set plen lcp pzero mcmp bits ok LAWS am es H E)
    as (m & R & M & W & ->).
  destruct (SIM m R M) as (am' & EC & R'). exists am'. split.
  - rewrite EC, (proj2 (Refine.step_refines pfx V peq contains is_bit_set plen lcp pzero mcmp bits ok LAWS m (to_hop o) W RF)). reflexivity.
  - exact (ArenaRefine.step_entries pfx V peq contains is_bit_set plen lcp pzero mcmp bits ok LAWS o m am' M W NV RF R').
Qed.

Theorem arena_C01_insert_returns am es q x : areach am -> ok q -> a_entries am = Ok es ->
  exists am', a_insert am q x = Ok (am', abs_get es q) /\ a_entries am' = Ok (abs_insert es q x).
Proof.
  intros H Hq E.
  exact (mut_returns am es (AOld (AIns q x)) _ H eq_refl (conj Hq I) E
           (fun m => ArenaThm.insert_sim pfx V peq contains is_bit_set plen lcp pzero am m q x)).
Qed.

Theorem arena_C01_remove_returns am es q : areach am -> ok q -> a_entries am = Ok es ->
  (exists am', a_remove am q = Ok (am', abs_get es q) /\ a_entries am' = Ok (abs_without es q)) /\
  (exists am', a_remove_keep_tree am q = Ok (am', abs_get es q) /\ a_entries am' = Ok (abs_without es q)).
Proof.
  intros H Hq E. split.
  - exact (mut_returns am es (AOld (ARem q)) _ H eq_refl (conj Hq I) E
             (fun m => ArenaThm.remove_sim pfx V peq contains is_bit_set plen lcp pzero am m q)).
  - exact (mut_returns am es (AOld (ARemKeep q)) _ H eq_refl (conj Hq I) E
             (fun m => ArenaThm.remove_keep_tree_sim pfx V peq contains is_bit_set plen lcp pzero am m q)).
Qed.

(** [entry(q).insert(x)] (occupied or vacant) and [OccupiedEntry::remove] *)
Theorem arena_C01_entry_returns am es q x : areach am -> ok q -> a_entries am = Ok es ->
  (exists am', a_entry_insert am q x = Ok (am', abs_get es q) /\ a_entries am' = Ok (abs_insert es q x)) /\
  (exists am', a_entry_remove am q = Ok (am', abs_get es q) /\ a_entries am' = Ok (abs_without es q)).
Proof.
  intros H Hq E. split.
  - apply (mut_returns am es (AEntryIns q x) _ H eq_refl (conj Hq I) E). intros m R M.
    destruct (Arena2Thm.entry_insert_sim pfx V peq contains is_bit_set plen lcp pzero am m q x R M) as (am' & EC & R').
    rewrite (ArenaRefine.t_entry_insert_hstep pfx V peq contains is_bit_set plen lcp pzero) in EC.
    exists am'. split; [exact EC|exact R'].
  - apply (mut_returns am es (AEntryRem q) _ H eq_refl (conj Hq I) E). intros m R M.
    destruct (Arena2Thm.entry_remove_sim pfx V peq contains is_bit_set plen lcp pzero am m q R M) as (am' & EC & R').
    rewrite (ArenaRefine.t_entry_remove_hstep pfx V peq contains is_bit_set plen lcp pzero) in EC.
    exists am'. split; [exact EC|exact R'].
Qed.
End AO.

Print Assumptions arena_C01_insert_returns.
Print Assumptions arena_C01_remove_returns.
Print Assumptions arena_C01_entry_returns.
