(** Histories: every state reachable from the empty map by public mutating calls is well-formed,
    has consistent slot accounting, and (over [canon_op]: every call but remove_keep_tree,
    OccupiedEntry::remove, remove_children and the two view writes) the canonical shape.  The counter is treated in [HistoryExtra.v], the contents in [Refine.v]. *)
From Coq Require Import List NArith ZArith Bool Arith Lia Sorted Permutation.
From PT Require Import Laws Trie Views TrieWf Mutate Slots Retain Canon.
Import ListNotations.

Lemma fold_left_inv {S O : Type} (step : S -> O -> S) (P : S -> Prop) (Q : O -> Prop) :
  (forall s o, Q o -> P s -> P (step s o)) ->
  forall ops s, Forall Q ops -> P s -> P (fold_left step ops s).
Proof.
  intros Hstep. induction ops as [|o ops IH]; intros s Hall Hs; [exact Hs|].
  inversion Hall; subst. cbn [fold_left]. apply IH; [|apply Hstep]; assumption.
Qed.

Lemma fold_left_keeps {S O : Type} (step : S -> O -> S) (P : S -> Prop) :
  (forall s o, P s -> P (step s o)) -> forall ops s, P s -> P (fold_left step ops s).
Proof.
  intros Hstep ops s. apply (fold_left_inv step P (fun _ => True)); [auto | apply Forall_forall; auto].
Qed.

Lemma forallb_Forall {O : Type} (f : O -> bool) ops : forallb f ops = true -> Forall (fun o => f o = true) ops.
Proof. rewrite forallb_forall. apply Forall_forall. Qed.

Section H.
Variables (pfx V : Type).
Variables (peq contains : pfx -> pfx -> bool) (is_bit_set : pfx -> N -> bool)
          (plen : pfx -> N) (lcp : pfx -> pfx -> pfx) (pzero : pfx)
          (mcmp : pfx -> pfx -> comparison).
Variable bits : pfx -> list bool.
Variable ok : pfx -> Prop.
Hypothesis LAWS : prefix_laws pfx peq contains is_bit_set plen lcp pzero mcmp bits ok.

Notation tree := (tree pfx V).
Notation pmap := (pmap pfx V).
Notation wf_under := (wf_under pfx V bits ok).
Notation wf_root := (wf_root pfx V bits ok).
Notation get := (Trie.get pfx V peq contains is_bit_set plen).
Notation get_node := (Trie.get_node pfx V peq contains is_bit_set plen).
Notation modify := (Trie.modify pfx V peq contains is_bit_set plen).
Notation child_of := (TrieWf.child_of pfx V).
Notation to_right := (Trie.to_right pfx is_bit_set plen).
Notation insert := (Trie.insert pfx V peq contains is_bit_set plen lcp).
Notation vacant_insert := (Trie.vacant_insert pfx V peq contains is_bit_set plen lcp).
Notation occ_insert := (Trie.occ_insert pfx V peq contains is_bit_set plen).
Notation occ_remove := (Trie.occ_remove pfx V peq contains is_bit_set plen).
Notation update_value := (Trie.update_value pfx V peq contains is_bit_set plen).
Notation remove := (Trie.remove pfx V peq contains is_bit_set plen).
Notation remove_keep_tree := (Trie.remove_keep_tree pfx V peq contains is_bit_set plen).
Notation remove_children := (Trie.remove_children pfx V peq contains is_bit_set plen pzero).
Notation retain := (Trie.retain pfx V).
Notation clear := (Trie.clear pfx V pzero).
Notation empty := (Trie.empty pfx V pzero).
Notation from_list := (Trie.from_list pfx V peq contains is_bit_set plen lcp pzero).
Notation minv := (Slots.minv pfx V).
Notation cinv := (Slots.cinv pfx V).
Notation canonical := (Canon.canonical pfx V).
Notation canon_below := (Canon.canon_below pfx V).
Notation canon_gen := (Canon.canon_gen pfx V).
Notation skel := (Mutate.skel pfx V).
Local Notation modify_node := (Mutate.modify_node pfx V peq contains is_bit_set plen).
Local Notation get_node_node := (Mutate.get_node_node pfx V peq contains is_bit_set plen).

(** The mutator alphabet.  Closures are real Coq functions: the theorems quantify over all of them. *)
Inductive op :=
| OInsert (q : pfx) (x : V)                      (* insert *)
| OEntryInsert (q : pfx) (x : V)                 (* entry(q).insert(x): occupied or vacant *)
| OOrInsert (q : pfx) (x : V)                    (* entry(q).or_insert*(x), VacantEntry::insert* *)
| OOccRemove (q : pfx)                           (* OccupiedEntry::remove on an occupied entry *)
| OUpdate (q : pfx) (g : V -> V)                 (* get_mut / and_modify / OccupiedEntry::get_mut *)
| ORemove (q : pfx)
| ORemoveKeepTree (q : pfx)
| ORemoveChildren (q : pfx)
| ORetain (f : nat -> pfx -> V -> option bool)   (* retain; [None] = the closure panics *)
| OClear
| OCollect (perm : list (pfx * V) -> list (pfx * V))   (* into_iter().collect() after the caller reordered the items by [perm] *)
| OWrite (ws : list (N * V))                     (* writes through references of any mutable traversal *)
| OViewSet (pa : path) (x : V)                   (* TrieViewMut::set at the node reached by [pa] (a view at a node: a virtual view refuses [set]) *)
| OViewRemove (pa : path).                       (* TrieViewMut::remove *)

Definition occupied (m : pmap) (q : pfx) : bool :=
  match get (root m) q with Some _ => true | None => false end.

Definition step (m : pmap) (o : op) : pmap :=
  match o with
  | OInsert q x => fst (insert m q x)
  | OEntryInsert q x => if occupied m q then fst (occ_insert m q x) else vacant_insert m q x
  | OOrInsert q x => if occupied m q then m else vacant_insert m q x
  | OOccRemove q => if occupied m q then fst (occ_remove m q) else m
  | OUpdate q g => update_value m q g
  | ORemove q => fst (remove m q)
  | ORemoveKeepTree q => fst (remove_keep_tree m q)
  | ORemoveChildren q => remove_children m q
  | ORetain f => fst (fst (retain f m))
  | OClear => clear m
  | OCollect perm => from_list (perm (entries (root m)))
  | OWrite ws => mkmap (write_ids (root m) ws) (al m)
  | OViewSet pa x => mkmap (fst (vm_set (root m) (mkvmut pfx pa None) x)) (al m)
  | OViewRemove pa => mkmap (fst (vm_remove (root m) (mkvmut pfx pa None))) (al m)
  end.

Definition run (ops : list op) : pmap := fold_left step ops empty.

(** the arguments of an operation are valid prefixes; [collect] really permutes *)
Definition op_ok (o : op) : Prop :=
  match o with
  | OInsert q _ | OEntryInsert q _ | OOrInsert q _ | OOccRemove q | OUpdate q _
  | ORemove q | ORemoveKeepTree q | ORemoveChildren q => ok q
  | OCollect perm => forall l, Permutation (perm l) l
  | _ => True
  end.

(** value-only operations keep slots and stored prefixes, which is all that well-formedness reads *)

Lemma skel_wf_under : forall (t t' : tree) b, skel t = skel t' -> wf_under b t -> wf_under b t'.
Proof.
  induction t as [|i p v l IHl r IHr]; intros [|i' p' v' l' r'] b E; try discriminate E; [auto|].
  cbn [Mutate.skel] in E. inversion E; subst. intros [W0 [W1 [W2 W3]]]. cbn. repeat split; eauto.
Qed.

Lemma skel_wf_root (t t' : tree) : skel t = skel t' -> wf_root t -> wf_root t'.
Proof.
  intros E. pose proof (skel_wf_under t t' [] E) as U.
  destruct t, t'; try discriminate E; [intros []|]. inversion E; subst. intros [Eb H]. split; auto.
Qed.

(* about [Mutate.skel] (values erased); [MutTrav.write_ids_skel] is the same equation for the finer
   [MutTrav.skel], which keeps the has-value flags *)
Lemma write_ids_skel' (t : tree) ws : skel (write_ids t ws) = skel t.
Proof.
  induction t as [|i p v l IHl r IHr]; [reflexivity|]. cbn [write_ids Mutate.skel]. rewrite IHl, IHr. reflexivity.
Qed.

Lemma subst_set_skel pa : forall (t : tree) v, skel (subst t pa (set_tval (subtree t pa) v)) = skel t.
Proof.
  induction pa as [|s pa IH]; intros [|i p w l r] v; try reflexivity.
  cbn [subst subtree]. destruct s; cbn [Mutate.skel]; rewrite IH; reflexivity.
Qed.

Lemma subst_wf pa : forall b t n,
  wf_under b t -> (forall b', wf_under b' (subtree t pa) -> wf_under b' n) -> wf_under b (subst t pa n).
Proof.
  induction pa as [|s pa IH]; intros b t n Hwf Hn; cbn [subst].
  - destruct t; simpl in *; apply (Hn b); exact Hwf.
  - destruct t as [|i p v l r]; [exact I|]. destruct Hwf as [H0 [H1 [H2 H3]]].
    destruct s; cbn; repeat split; auto; apply IH; auto.
Qed.

Lemma root_of_wf_root (t : tree) : wf_root t -> exists i p v l r, t = Node i p v l r /\ bits p = [].
Proof. destruct t as [|i p v l r]; [intros []|]. intros [E _]. exists i, p, v, l, r. auto. Qed.

Lemma write_ids_wf_root ws t : wf_root t -> wf_root (write_ids t ws).
Proof. apply skel_wf_root. symmetry. apply write_ids_skel'. Qed.

Lemma subst_set_wf_root pa v t : wf_root t -> wf_root (subst t pa (set_tval (subtree t pa) v)).
Proof. apply skel_wf_root. symmetry. apply subst_set_skel. Qed.


Lemma wf_root_entries_ok (t : tree) e : wf_root t -> In e (entries t) -> ok (fst e).
Proof.
  intros Hr. apply (entries_ok pfx V bits ok []), (TrieWf.wf_root_under pfx V bits ok), Hr.
Qed.

Lemma step_wf m o : op_ok o -> wf_root (root m) -> wf_root (root (step m o)).
Proof.
  intros Ho Hwf. destruct o; cbn [step op_ok] in *.
  - (* OInsert *) destruct (insert m q x) as [m' o] eqn:E. eapply insert_spec in E; eauto. cbn. tauto.
  - (* OEntryInsert *) destruct (occupied m q) eqn:Oc.
    + unfold occupied in Oc. destruct (get (root m) q) as [y|] eqn:G; [|discriminate].
      destruct (occ_insert m q x) as [m' o] eqn:E. eapply occ_insert_spec in E; eauto. cbn. tauto.
    + eapply vacant_insert_spec; eauto.
  - (* OOrInsert *) destruct (occupied m q); [exact Hwf|]. eapply vacant_insert_spec; eauto.
  - (* OOccRemove *) destruct (occupied m q); [|exact Hwf].
    destruct (occ_remove m q) as [m' o] eqn:E. eapply occ_remove_spec in E; eauto. cbn. tauto.
  - (* OUpdate *) eapply update_value_spec; eauto.
  - (* ORemove *) destruct (remove m q) as [m' o] eqn:E. eapply remove_spec in E; eauto. cbn. tauto.
  - (* ORemoveKeepTree *) destruct (remove_keep_tree m q) as [m' o] eqn:E. eapply remove_keep_tree_spec in E; eauto. cbn. tauto.
  - (* ORemoveChildren *) eapply remove_children_spec; eauto.
  - (* ORetain *) destruct (retain f m) as [[m' pn] calls] eqn:E. cbn. eapply retain_wf; eauto.
  - (* OClear *) eapply clear_spec; eauto.
  - (* OCollect *) eapply from_list_spec; eauto. intros e He.
    exact (wf_root_entries_ok _ e Hwf (Permutation_in e (Ho _) He)).
  - (* OWrite *) cbn. apply write_ids_wf_root. exact Hwf.
  - (* OViewSet *) cbn. apply subst_set_wf_root. exact Hwf.
  - (* OViewRemove *) cbn. apply subst_set_wf_root. exact Hwf.
Qed.

(** the lemmas of [Slots] carry section variables that their statements do not mention ([lia]
    in their proofs generalises over them); [fin] supplies those arguments and the hypothesis *)
Ltac fin H := first [exact H | exact pzero | exact lcp | exact mcmp | exact peq | exact is_bit_set | exact plen | assumption | reflexivity].

Definition counts (o : op) : bool :=
  match o with OViewSet _ _ | OViewRemove _ => false | _ => true end.

(** What one call does to the storage, by the class of the operation ([r]: it rebuilds the map,
    [c]: its writes reach the counter).  Slots are taken from the free list and then from the end
    ([Slots.acct_post]); or the arena keeps its length while counter and contents move together
    ([Slots.shrinks]); or a view writes past the counter; or the map is rebuilt from nothing. *)
Inductive acct (m m' : pmap) : bool -> bool -> Prop :=
| acct_grow (G : Prop) : G -> Slots.acct_post pfx V G (root m) (al m) (root m') (al m') -> acct m m' false true
| acct_keep : Slots.shrinks pfx V (root m) (al m) (root m') (al m') -> acct m m' false true
| acct_view : Slots.ids pfx V (root m') = Slots.ids pfx V (root m) -> al m' = al m -> acct m m' false false
| acct_reset : minv m' -> cinv m' -> free (al m') = [] -> acct m m' true true.

(* the first index is [HistoryExtra.is_reset o], written out *)
Lemma step_acct m o :
  acct m (step m o)
       match o with OClear | OCollect _ => true | ORemoveChildren q => (plen q =? 0)%N | _ => false end
       (counts o).
Proof.
  destruct o; cbn [step counts].
  - (* OInsert *) apply (acct_grow _ _ True I), insert_acct; fin I.
  - (* OEntryInsert *) unfold occupied. destruct (get (root m) q) eqn:G.
    + apply acct_keep. eapply moved_mono; [|apply occ_insert_stays; fin I]. congruence.
    + apply (acct_grow _ _ _ G), vacant_insert_acct; fin I.
  - (* OOrInsert *) unfold occupied. destruct (get (root m) q) eqn:G; [apply acct_keep, shrinks_refl; fin I|].
    apply (acct_grow _ _ _ G), vacant_insert_acct; fin I.
  - (* OOccRemove *) destruct (occupied m q); apply acct_keep; [apply remove_keep_tree_shrinks | apply shrinks_refl]; fin I.
  - (* OUpdate *) apply acct_keep, update_value_shrinks; fin I.
  - (* ORemove *) apply acct_keep, remove_shrinks; fin I.
  - (* ORemoveKeepTree *) apply acct_keep, remove_keep_tree_shrinks; fin I.
  - (* ORemoveChildren *) unfold Trie.remove_children. destruct (plen q =? 0)%N; [apply acct_reset; [apply minv_empty|..]; reflexivity|].
    destruct (Trie.rc pfx V peq contains is_bit_set plen (root m) q (al m)) as [t a] eqn:H.
    apply acct_keep. cbn [root al]. eapply rc_acct; [exact lcp | exact pzero | exact H].
  - (* ORetain *) apply acct_keep, retain_shrinks; fin I.
  - (* OClear *) apply acct_reset; [apply minv_empty|..]; reflexivity.
  - (* OCollect *) apply acct_reset; [apply from_list_minv | apply from_list_cinv | apply from_list_free]; fin I.
  - (* OWrite *) apply acct_keep, ids_stays; try reflexivity; [apply write_ids_ids|]. intros _.
    unfold Slots.nentries. cbn [root al]. rewrite write_ids_entries. lia.
  - (* OViewSet *) apply acct_view; [apply subst_ids | reflexivity].
  - (* OViewRemove *) apply acct_view; [apply subst_ids | reflexivity].
Qed.

Lemma acct_minv m m' r c : acct m m' r c -> minv m -> minv m'.
Proof.
  unfold Slots.minv. intros [G _ [B _] | S | Ei Ea | M _ _] H.
  - eapply bal_slots; fin B.
  - eapply shrinks_slots; fin S.
  - rewrite Ea. unfold Slots.slots_ok in *. rewrite Ei. exact H.
  - exact M.
Qed.

Lemma step_minv m o : minv m -> minv (step m o).
Proof. exact (acct_minv _ _ _ _ (step_acct m o)). Qed.

Theorem reachable_wf ops : Forall op_ok ops -> wf_root (root (run ops)) /\ minv (run ops).
Proof.
  intros Hok. apply (fold_left_inv step (fun m => wf_root (root m) /\ minv m) op_ok); [|exact Hok|].
  - intros m o Ho [Hw Hm]. split; [apply step_wf; assumption | apply step_minv; assumption].
  - split; [eapply empty_spec; eauto | apply minv_empty].
Qed.

(** [clear] (and [remove_children] of the zero-length prefix) re-synchronise the counter *)
Theorem clear_resyncs m : cinv (clear m).
Proof. apply clear_cinv. Qed.

Definition canon_op (o : op) : bool :=
  match o with
  | OInsert _ _ | OEntryInsert _ _ | OOrInsert _ _ | OUpdate _ _ | ORemove _ | ORetain _ | OClear
  | OCollect _ | OWrite _ => true
  | _ => false
  end.

(** canonicity only depends on the structure and the has-value flags *)
Lemma write_ids_is_node (t : tree) ws : is_node (write_ids t ws) = is_node t.
Proof. destruct t; reflexivity. Qed.

Lemma write_ids_canon_below ws : forall t, canon_below t -> canon_below (write_ids t ws).
Proof.
  induction t as [|i p v l IHl r IHr]; intros H; [exact I|].
  cbn [write_ids]. destruct H as [H1 [H2 H3]]. cbn [Canon.canon_below]. split; [|split; auto].
  intros Hn. rewrite !write_ids_is_node. apply H1.
  destruct v as [x|]; [|reflexivity]. destruct (assoc_id ws i); discriminate.
Qed.

Lemma write_ids_canonical ws t : canonical t -> canonical (write_ids t ws).
Proof.
  destruct t as [|i p v l r]; [intros []|]. intros [H1 H2]. cbn [write_ids Canon.canonical].
  split; apply write_ids_canon_below; assumption.
Qed.

Lemma modify_is_node (t : tree) q h : is_node (modify t q h) = is_node t.
Proof.
  destruct t as [|i p v l r]; [reflexivity|]. rewrite modify_node.
  destruct (peq p q); [destruct (h p v); reflexivity|]. cbv zeta.
  destruct (child_of l r (to_right p q)) as [|ci cp cv cl cr]; [reflexivity|].
  destruct (contains cp q); [apply is_node_with_child | reflexivity].
Qed.

(** a modification that keeps "has a value" at the node it reaches keeps canonicity, at the root
    ([hp = false]) and below it *)
Lemma modify_canon_gen q h : forall t hp,
  (forall i p v, get_node t q = Some (i, p, v) -> is_none (snd (h p v)) = is_none v) ->
  canon_gen hp t -> canon_gen hp (modify t q h).
Proof.
  apply (TrieWf.descent_ind pfx V peq contains is_bit_set plen q
           (fun t => forall hp, _ -> canon_gen hp t -> canon_gen hp (modify t q h))).
  - intros hp _ H. exact H.
  - intros i p v l r E hp Hh [Hv Hk]. rewrite get_node_node, E in Hh. specialize (Hh i p v eq_refl).
    rewrite modify_node, E. destruct (h p v) as [p' v']. cbn [snd] in Hh. split; [|exact Hk].
    intros H1 ->. apply (Hv H1). destruct v; [discriminate Hh | reflexivity].
  - intros i p v l r E Hc hp _ H. rewrite modify_node, E. cbv zeta.
    destruct (child_of l r (to_right p q)); [|rewrite Hc]; exact H.
  - intros i p v l r ci cp cv cl cr E Ec C IH hp Hh H. rewrite modify_node, E. cbv zeta. rewrite Ec, C.
    rewrite get_node_node, E in Hh. cbv zeta in Hh. rewrite Ec, C in Hh.
    apply canon_with_child; [exact H | | rewrite Ec, modify_is_node; auto].
    apply canon_gen_true. apply IH; [exact Hh|]. apply canon_gen_true. rewrite <- Ec.
    destruct H as [_ [Hl Hr]]. destruct (to_right p q); assumption.
Qed.

Lemma modify_canonical q h t :
  (forall i p v, get_node t q = Some (i, p, v) -> is_none (snd (h p v)) = is_none v) ->
  canonical t -> canonical (modify t q h).
Proof.
  intros Hh C. apply canon_gen_false. apply modify_canon_gen; [exact Hh | apply canon_gen_false; exact C].
Qed.

Lemma step_canonical m o : canon_op o = true -> canonical (root m) -> canonical (root (step m o)).
Proof.
  intros Hc H. destruct o; cbn [step canon_op] in *; try discriminate.
  - (* OInsert *) apply insert_canonical; exact H.
  - (* OEntryInsert *) destruct (occupied m q) eqn:Oc.
    + unfold Trie.occ_insert. cbn [fst root]. apply modify_canonical; [|exact H].
      intros i p v Hg. cbn [snd is_none]. unfold occupied, Trie.get in Oc. rewrite Hg in Oc.
      destruct v; [reflexivity | discriminate].
    + apply vacant_insert_canonical; exact H.
  - (* OOrInsert *) destruct (occupied m q); [exact H | apply vacant_insert_canonical; exact H].
  - (* OUpdate *) unfold Trie.update_value. cbn [root]. apply modify_canonical; [|exact H].
    intros i p v _. cbn [snd]. destruct v; reflexivity.
  - (* ORemove *) apply remove_canonical; exact H.
  - (* ORetain *) apply retain_canonical_any; exact H.
  - (* OClear *) apply clear_canonical; exact H.
  - (* OCollect *) apply from_list_canonical; exact H.
  - (* OWrite *) cbn [root]. apply write_ids_canonical; exact H.
Qed.

Theorem reachable_canonical ops : forallb canon_op ops = true -> canonical (root (run ops)).
Proof.
  intros Hc. apply (fold_left_inv step (fun m => canonical (root m)) _ step_canonical _ _ (forallb_Forall _ _ Hc)).
  apply empty_canonical.
Qed.

(** the state after any prefix of a history is reachable too: the invariants hold after every step *)
Lemma run_app ops1 ops2 : run (ops1 ++ ops2) = fold_left step ops2 (run ops1).
Proof. unfold run. apply fold_left_app. Qed.

End H.
