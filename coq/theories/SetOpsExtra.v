(** Corollaries of the set-operation theorems ([UnionThm.v], [InterDiffThm.v]) in the form quoted
    by the property files C05–C08: for arbitrary pairs of well-formed subtrees [ta] (under any
    bound [ba]) and [tb] (under any bound [bb]; no relation between [ba] and [bb] is assumed), and
    for the output [out] of the machine,

    - keys of [out] strictly ascending, hence without repetition; exact membership of keys;
    - which stored representation and which values an item carries;
    - the list forms of difference / covering difference ([filter]) and their edge cases;
    - the longest-prefix-match annotations: [None] exactly when nothing covers, the match covers
      the key, the annotation is unique and equals [get_lpm] of any whole map with those entries;
    - view-level forms ([view_wf] views: the operand is the subtree at the view's real node). *)
From Coq Require Import List NArith Sorted.
From PT Require Import Bits BitsThm Laws Trie Views TrieWf Lookup Lookup2 ViewsThm SetOps.
From PT Require UnionThm InterDiffThm.
Import ListNotations.

Lemma ss_lex_nodup (ks : list (list bool)) : StronglySorted lex_lt ks -> NoDup ks.
Proof.
  induction 1 as [|k ks Hs IH Hf]; constructor; [|exact IH].
  intros Hin. rewrite Forall_forall in Hf. exact (lex_lt_irrefl _ (Hf _ Hin)).
Qed.

Lemma filter_all {A} (f : A -> bool) (l : list A) : (forall x, In x l -> f x = true) -> filter f l = l.
Proof.
  induction l as [|x l IH]; intros H; cbn [filter]; [reflexivity|].
  rewrite (H x (or_introl eq_refl)). f_equal. apply IH. intros y Hy. apply H. right. exact Hy.
Qed.

Lemma filter_none {A} (f : A -> bool) (l : list A) : (forall x, In x l -> f x = false) -> filter f l = [].
Proof.
  induction l as [|x l IH]; intros H; cbn [filter]; [reflexivity|].
  rewrite (H x (or_introl eq_refl)). apply IH. intros y Hy. apply H. right. exact Hy.
Qed.

Lemma some_of_ex {A} (P : A -> Prop) (o : option A) x : (exists y, o = Some y /\ P y) -> o = Some x -> P x.
Proof. intros [y [E H]] E'. rewrite E in E'. injection E' as <-. exact H. Qed.

Section SX.
Context {pfx L R : Type}.
Context {peq contains : pfx -> pfx -> bool} {is_bit_set : pfx -> N -> bool}
        {plen : pfx -> N} {lcp : pfx -> pfx -> pfx} {pzero : pfx}
        {mcmp : pfx -> pfx -> comparison}.
Context {bits : pfx -> list bool} {ok : pfx -> Prop}.
Hypothesis LAWS : prefix_laws pfx peq contains is_bit_set plen lcp pzero mcmp bits ok.

Notation treeL := (tree pfx L).
Notation treeR := (tree pfx R).
Notation wfL := (wf_under pfx L bits ok).
Notation wfR := (wf_under pfx R bits ok).
Notation keyL := (TrieWf.key pfx L bits).
Notation keyR := (TrieWf.key pfx R bits).
Notation uitem := (SetOps.uitem pfx L R).
Notation umitem := (SetOps.umitem pfx L R).
Notation lpmR := (SetOps.lpmR pfx R).
Notation ikey := (UnionThm.ikey pfx L R bits).
Notation union_spec := (UnionThm.union_spec pfx L R bits).
Notation inter_spec := (InterDiffThm.inter_spec pfx L R bits).
Notation diff_spec := (InterDiffThm.diff_spec pfx L R bits).
Notation cdiff_spec := (InterDiffThm.cdiff_spec pfx L R bits).
Notation union := (SetOps.union pfx L R contains is_bit_set plen pzero mcmp).
Notation intersection := (SetOps.intersection pfx L R contains is_bit_set plen pzero mcmp).
Notation intersection_mut := (SetOps.intersection_mut pfx L R contains is_bit_set plen pzero mcmp).
Notation difference := (SetOps.difference pfx L R contains is_bit_set plen pzero mcmp).
Notation difference_mut := (SetOps.difference_mut pfx L R contains is_bit_set plen pzero mcmp).
Notation covering_difference := (SetOps.covering_difference pfx L R contains is_bit_set plen pzero mcmp).

#[local] Arguments SetOps.ILeft {pfx L R}.
#[local] Arguments SetOps.IRight {pfx L R}.
#[local] Arguments SetOps.IBoth {pfx L R}.

Section Ann.
Context {T : Type}.
Notation is_lpmT := (Lookup.is_lpm pfx T bits).
Notation no_coverT := (Lookup.no_cover pfx T bits).

(** [ann] is the longest-prefix match of [p] among the entries [B]; [None] iff nothing covers.
    [union_spec] and [diff_spec] are stated with [UnionThm.lpm_ann] and [InterDiffThm.lpm_ann], which
    have this body: the lemmas below apply to them by conversion. *)
Definition lpm_ann (B : list (pfx * T)) (p : pfx) (ann : option (pfx * T)) : Prop :=
  match ann with
  | Some e => is_lpmT B p e
  | None => no_coverT B p
  end.

Lemma lpm_ann_none_iff {B p ann} : lpm_ann B p ann -> (ann = None <-> no_coverT B p).
Proof.
  destruct ann as [e|]; cbn [lpm_ann]; intros H; split; intros H'; try discriminate; try assumption;
    try reflexivity.
  exfalso. destruct H as [Hin [Hc _]]. exact (H' e Hin Hc).
Qed.

Lemma lpm_ann_some {B p e} : lpm_ann B p (Some e) ->
  In e B /\ prefix_of (bits (fst e)) (bits p) /\
  forall e', In e' B -> prefix_of (bits (fst e')) (bits p) -> length (bits (fst e')) <= length (bits (fst e)).
Proof. intros H. exact H. Qed.

Lemma lpm_ann_unique {b} {t : tree pfx T} {p a1 a2} :
  wf_under pfx T bits ok b t -> lpm_ann (entries t) p a1 -> lpm_ann (entries t) p a2 -> a1 = a2.
Proof. exact (lpm_answer_unique pfx T bits ok b t p a1 a2). Qed.

Lemma lpm_ann_get_lpm {Tm : tree pfx T} {B p ann} :
  wf_root pfx T bits ok Tm -> entries Tm = B -> ok p -> lpm_ann B p ann ->
  Trie.get_lpm pfx T peq contains is_bit_set plen Tm p = ann.
Proof.
  intros Hwf <- Hp Hann.
  exact (lpm_ann_unique (wf_root_under pfx T bits ok Tm Hwf) (get_lpm_spec_root pfx T _ _ _ _ _ _ _ _ _ LAWS Tm p Hwf Hp) Hann).
Qed.
End Ann.

(** the operand a view denotes — the subtree at its real node — is well-formed under its own
    root key, which the view's prefix covers *)
Lemma view_operand {T} {v : view pfx T} : view_wf pfx T pzero bits ok v ->
  wf_under pfx T bits ok (bits (tpfx pfx T pzero (v_tree v))) (v_tree v) /\
  prefix_of (bits (v_prefix pfx T pzero v)) (bits (tpfx pfx T pzero (v_tree v))).
Proof.
  intros [Hn [[b Hwf] Hv]].
  destruct v as [t|p t]; cbn [v_tree Views.v_prefix] in *;
    (destruct t as [|i p0 v0 l r]; [discriminate|]); cbn [tpfx].
  - split; [eapply wf_self; exact Hwf | apply prefix_of_refl].
  - split; [eapply wf_self; exact Hwf | exact (proj1 (proj2 Hv))].
Qed.

Lemma view_operand_wf {T} {v : view pfx T} : view_wf pfx T pzero bits ok v ->
  exists b, wf_under pfx T bits ok b (v_tree v).
Proof. intros H. exact (proj1 (proj2 H)). Qed.

Lemma view_at_wf {T} {Tm : tree pfx T} {q v} :
  wf_root pfx T bits ok Tm -> ok q ->
  view_at pfx T peq contains is_bit_set plen Tm q = Some v -> view_wf pfx T pzero bits ok v.
Proof.
  intros HT Hq E.
  exact (proj1 (v_find_some pfx T _ _ _ _ _ _ _ _ _ LAWS (view_of Tm) q v (view_wf_root pfx T pzero bits ok Tm HT) Hq E)).
Qed.

Definition iprefix (it : uitem) : pfx :=
  match it with ILeft p _ _ | IRight p _ _ | IBoth p _ _ => p end.
Definition ilval (it : uitem) : option L :=
  match it with ILeft _ l _ | IBoth _ l _ => Some l | IRight _ _ _ => None end.
Definition irval (it : uitem) : option R :=
  match it with IRight _ _ r | IBoth _ _ r => Some r | ILeft _ _ _ => None end.

Lemma union_some {ba bb} {ta : treeL} {tb : treeR} {out} :
  wfL ba ta -> wfR bb tb -> union ta tb = Some out -> union_spec (entries ta) (entries tb) out.
Proof.
  intros Ha Hb. apply some_of_ex.
  exact (UnionThm.union_correct pfx L R _ _ _ _ _ _ _ _ _ LAWS ba bb ta tb Ha Hb).
Qed.

Section USpec.
Context {A : list (pfx * L)} {B : list (pfx * R)} {out : list uitem}.
Hypothesis U : union_spec A B out.

Lemma union_keys_sorted : StronglySorted lex_lt (map ikey out).
Proof. apply UnionThm.ss_map. exact (proj1 U). Qed.

Lemma union_keys_nodup : NoDup (map ikey out).
Proof. apply ss_lex_nodup. exact union_keys_sorted. Qed.

Lemma union_keys_iff k : In k (map ikey out) <-> In k (map keyL A) \/ In k (map keyR B).
Proof.
  destruct U as (_ & Hi & Hca & Hcb). split.
  - intros Hin. apply in_map_iff in Hin. destruct Hin as [it [<- Hit]].
    specialize (Hi it Hit). destruct it as [p l ann|p ann r|p l r]; cbn [UnionThm.ikey].
    + left. apply in_map_iff. exists (p, l). split; [reflexivity | apply Hi].
    + right. apply in_map_iff. exists (p, r). split; [reflexivity | apply Hi].
    + left. apply in_map_iff. exists (p, l). split; [reflexivity | apply Hi].
  - intros [Hin|Hin]; apply in_map_iff in Hin; destruct Hin as [e [<- He]].
    + destruct (Hca e He) as [it [Hit Hk]]. apply in_map_iff. exists it. split; [exact Hk | exact Hit].
    + destruct (Hcb e He) as [it [Hit Hk]]. apply in_map_iff. exists it. split; [exact Hk | exact Hit].
Qed.

Lemma union_item_char {it} : In it out ->
  match ilval it with
  | Some l => In (iprefix it, l) A
  | None => forall e, In e A -> bits (fst e) <> ikey it
  end /\
  match irval it with
  | Some r => exists pr, In (pr, r) B /\ bits pr = ikey it /\ (ilval it = None -> pr = iprefix it)
  | None => forall e, In e B -> bits (fst e) <> ikey it
  end.
Proof.
  destruct U as (_ & Hi & _). intros Hit. specialize (Hi it Hit).
  destruct it as [p l ann|p ann r|p l r]; cbn [ilval irval iprefix UnionThm.ikey].
  - destruct Hi as (H1 & H2 & _). split; [exact H1 | exact H2].
  - destruct Hi as (H1 & H2 & _). split; [exact H2|]. exists p. split; [exact H1|]. split; reflexivity.
  - destruct Hi as (H1 & pr & H2 & H3). split; [exact H1|]. exists pr. split; [exact H2|]. split; [exact H3 | discriminate].
Qed.

Lemma union_presence {it} : In it out ->
  (ilval it <> None <-> In (ikey it) (map keyL A)) /\
  (irval it <> None <-> In (ikey it) (map keyR B)).
Proof.
  intros Hit. destruct (union_item_char Hit) as [HL HR]. split.
  - destruct (ilval it) as [l|]; split; try congruence.
    + intros _. apply in_map_iff. exists (iprefix it, l). split; [reflexivity | exact HL].
    + intros Hin. apply in_map_iff in Hin. destruct Hin as [e [Hk He]]. destruct (HL e He Hk).
  - destruct (irval it) as [r|]; split; try congruence.
    + intros _. destruct HR as (pr & H1 & H2 & _). apply in_map_iff. exists (pr, r). split; [exact H2 | exact H1].
    + intros Hin. apply in_map_iff in Hin. destruct Hin as [e [Hk He]]. destruct (HR e He Hk).
Qed.

Lemma union_item_sound {it} : In it out ->
  (forall l, ilval it = Some l -> In (iprefix it, l) A) /\
  (forall r, irval it = Some r -> exists pr, In (pr, r) B /\ bits pr = ikey it) /\
  (forall r, ilval it = None -> irval it = Some r -> In (iprefix it, r) B).
Proof.
  intros Hit. destruct (union_item_char Hit) as [HL HR]. split; [|split].
  - intros l E. rewrite E in HL. exact HL.
  - intros r E. rewrite E in HR. destruct HR as (pr & H1 & H2 & _). exists pr. split; assumption.
  - intros r El E. rewrite E in HR. destruct HR as (pr & H1 & _ & H3). rewrite <- (H3 El). exact H1.
Qed.
End USpec.

Lemma union_item_left {ba} {ta : treeL} {B out} {p l} :
  wfL ba ta -> union_spec (entries ta) B out -> In (p, l) (entries ta) ->
  exists it, In it out /\ iprefix it = p /\ ilval it = Some l.
Proof.
  intros Ha U Hin. pose proof U as (_ & _ & Hca & _). destruct (Hca _ Hin) as [it [Hit Hk]]. cbn [fst] in Hk.
  exists it. split; [exact Hit|]. destruct (union_item_char U Hit) as [HL _].
  destruct (ilval it) as [l'|]; [|destruct (HL _ Hin); symmetry; exact Hk].
  pose proof (entries_key_inj pfx L bits ok ba ta _ _ Ha HL Hin Hk) as E. injection E as -> ->. split; reflexivity.
Qed.

Lemma union_item_right {bb A} {tb : treeR} {out pr r} :
  wfR bb tb -> union_spec A (entries tb) out -> In (pr, r) (entries tb) ->
  exists it, In it out /\ ikey it = bits pr /\ irval it = Some r /\ (ilval it = None -> iprefix it = pr).
Proof.
  intros Hb U Hin. pose proof U as (_ & _ & _ & Hcb). destruct (Hcb _ Hin) as [it [Hit Hk]]. cbn [fst] in Hk.
  exists it. split; [exact Hit|]. split; [exact Hk|]. destruct (union_item_char U Hit) as [_ HR].
  destruct (irval it) as [r'|]; [|destruct (HR _ Hin); symmetry; exact Hk].
  destruct HR as (q & H1 & H2 & H3).
  pose proof (entries_key_inj pfx R bits ok bb tb _ _ Hb H1 Hin (eq_trans H2 Hk)) as E. injection E as -> ->.
  split; [reflexivity | intros El; symmetry; exact (H3 El)].
Qed.

Lemma union_ann_left {A B} {out p} {l ann} : union_spec A B out -> In (ILeft p l ann) out -> lpm_ann B p ann.
Proof. intros (_ & Hi & _) Hit. exact (proj2 (proj2 (Hi _ Hit))). Qed.

Lemma union_ann_right {A B} {out p} {ann r} : union_spec A B out -> In (IRight p ann r) out -> lpm_ann A p ann.
Proof. intros (_ & Hi & _) Hit. exact (proj2 (proj2 (Hi _ Hit))). Qed.

Lemma union_left_ok {ba} {ta : treeL} {B out} {p l ann} :
  wfL ba ta -> union_spec (entries ta) B out -> In (ILeft p l ann) out -> ok p.
Proof.
  intros Ha (_ & Hi & _) Hit. exact (entries_ok pfx L bits ok ba ta (p, l) Ha (proj1 (Hi _ Hit))).
Qed.

Lemma union_right_ok {bb A} {tb : treeR} {out p} {ann r} :
  wfR bb tb -> union_spec A (entries tb) out -> In (IRight p ann r) out -> ok p.
Proof.
  intros Hb (_ & Hi & _) Hit. exact (entries_ok pfx R bits ok bb tb (p, r) Hb (proj1 (Hi _ Hit))).
Qed.

Notation projU := (UnionThm.projU pfx L R).
Notation projM := (UnionThm.projM pfx L R).

Lemma projU_parts it : projU it = (iprefix it, ilval it, irval it).
Proof. destruct it; reflexivity. Qed.

Lemma union_mut_keys {out outm} : map projM outm = map projU out ->
  map (fun it : umitem => bits (fst (fst it))) outm = map ikey out.
Proof.
  intros M.
  assert (E1 : map (fun it : umitem => bits (fst (fst it))) outm
               = map (fun x => bits (fst (fst x))) (map projM outm)).
  { rewrite map_map. apply map_ext. intros [[p l] r]. reflexivity. }
  assert (E2 : map ikey out = map (fun x => bits (fst (fst x))) (map projU out)).
  { rewrite map_map. apply map_ext. intros it. destruct it; reflexivity. }
  rewrite E1, E2, M. reflexivity.
Qed.

Notation ikey3 := (fun it : pfx * L * R => bits (fst (fst it))).

Lemma inter_some {ba bb} {ta : treeL} {tb : treeR} {out} :
  wfL ba ta -> wfR bb tb -> intersection ta tb = Some out -> inter_spec (entries ta) (entries tb) out.
Proof.
  intros Ha Hb. apply some_of_ex.
  exact (InterDiffThm.intersection_correct pfx L R _ _ _ _ _ _ _ _ _ LAWS ba bb ta tb Ha Hb).
Qed.

Section ISpec.
Context {A : list (pfx * L)} {B : list (pfx * R)} {out : list (pfx * L * R)}.
Hypothesis I : inter_spec A B out.

Lemma inter_keys_sorted : StronglySorted lex_lt (map ikey3 out).
Proof. apply UnionThm.ss_map. exact (proj1 I). Qed.

Lemma inter_keys_nodup : NoDup (map ikey3 out).
Proof. apply ss_lex_nodup. exact inter_keys_sorted. Qed.

Lemma inter_keys_iff k : In k (map ikey3 out) <-> In k (map keyL A) /\ In k (map keyR B).
Proof.
  destruct I as (_ & Hs & Hc). split.
  - intros Hin. apply in_map_iff in Hin. destruct Hin as [[[p l] r] [<- Hit]]. cbn [fst].
    destruct (Hs p l r Hit) as [H1 [pr [H2 H3]]]. split; apply in_map_iff.
    + exists (p, l). split; [reflexivity | exact H1].
    + exists (pr, r). split; [exact H3 | exact H2].
  - intros [H1 H2]. apply in_map_iff in H1. destruct H1 as [ea [<- Ha]].
    apply in_map_iff in H2. destruct H2 as [eb [Hk Hb]].
    apply in_map_iff. exists (fst ea, snd ea, snd eb). split; [reflexivity|].
    apply Hc; [exact Ha | exact Hb | symmetry; exact Hk].
Qed.
End ISpec.

Lemma intersection_disjoint_views {va : view pfx L} {vb : view pfx R} :
  view_wf pfx L pzero bits ok va -> view_wf pfx R pzero bits ok vb ->
  ~ prefix_of (bits (v_prefix pfx L pzero va)) (bits (v_prefix pfx R pzero vb)) ->
  ~ prefix_of (bits (v_prefix pfx R pzero vb)) (bits (v_prefix pfx L pzero va)) ->
  intersection (v_tree va) (v_tree vb) = Some [] /\ intersection_mut (v_tree va) (v_tree vb) = Some [].
Proof.
  intros Ha Hb N1 N2. destruct (view_operand Ha) as [Wa Pa]. destruct (view_operand Hb) as [Wb Pb].
  assert (E : intersection (v_tree va) (v_tree vb) = Some []).
  { eapply (InterDiffThm.intersection_disjoint pfx L R _ _ _ _ _ _ _ _ _ LAWS); [exact Wa | exact Wb | |].
    - intros H. destruct (prefix_of_comparable _ _ _ (prefix_of_trans _ _ _ Pa H) Pb); contradiction.
    - intros H. destruct (prefix_of_comparable _ _ _ Pa (prefix_of_trans _ _ _ Pb H)); contradiction. }
  split; [exact E|]. destruct (InterDiffThm.intersection_mut_mirrors pfx L R _ _ _ _ _ _ _ _ _ LAWS _ _ _ _ Wa Wb) as (out & outm & E1 & E2 & M & _).
  rewrite E in E1. injection E1 as <-. destruct outm; [exact E2 | discriminate M].
Qed.

Notation ditem := (pfx * L * lpmR)%type.
Notation dkey := (fun it : ditem => bits (fst (fst it))).

Lemma diff_some {ba bb} {ta : treeL} {tb : treeR} {out} :
  wfL ba ta -> wfR bb tb -> difference ta tb = Some out -> diff_spec (entries ta) (entries tb) out.
Proof.
  intros Ha Hb. apply some_of_ex.
  exact (InterDiffThm.difference_correct pfx L R _ _ _ _ _ _ _ _ _ LAWS ba bb ta tb Ha Hb).
Qed.

(** the key of [e] is not stored in [B] (decidable form) *)
Definition key_absent (B : list (pfx * R)) (e : pfx * L) : bool :=
  negb (existsb (fun e' => Bits.beq (bits (fst e')) (bits (fst e))) B).
(** no key of [B] covers the key of [e] (decidable form) *)
Definition uncovered (B : list (pfx * R)) (e : pfx * L) : bool :=
  negb (existsb (fun e' => Bits.is_prefix (bits (fst e')) (bits (fst e))) B).

Lemma key_absent_spec B e : key_absent B e = true <-> forall e', In e' B -> bits (fst e') <> bits (fst e).
Proof. apply InterDiffThm.negb_existsb. intros e'. apply beq_spec. Qed.

Lemma uncovered_spec B e :
  uncovered B e = true <-> forall e', In e' B -> ~ prefix_of (bits (fst e')) (bits (fst e)).
Proof. apply InterDiffThm.negb_existsb. intros e'. apply is_prefix_spec. Qed.

Lemma diff_filter {ba bb} {ta : treeL} {tb : treeR} {out} :
  wfL ba ta -> wfR bb tb -> difference ta tb = Some out ->
  map fst out = filter (key_absent (entries tb)) (entries ta).
Proof.
  intros Ha Hb. apply (some_of_ex (fun out => map fst out = filter (key_absent (entries tb)) (entries ta))).
  exact (InterDiffThm.difference_filter pfx L R _ _ _ _ _ _ _ _ _ LAWS ba bb ta tb Ha Hb).
Qed.

Section DSpec.
Context {A : list (pfx * L)} {B : list (pfx * R)} {out : list ditem}.
Hypothesis D : diff_spec A B out.

Lemma diff_keys_sorted : StronglySorted lex_lt (map dkey out).
Proof. apply UnionThm.ss_map. exact (proj1 D). Qed.

Lemma diff_keys_nodup : NoDup (map dkey out).
Proof. apply ss_lex_nodup. exact diff_keys_sorted. Qed.

Lemma diff_in_iff e :
  In e (map fst out) <-> In e A /\ forall e', In e' B -> bits (fst e') <> bits (fst e).
Proof.
  destruct D as (_ & Hs & Hc). split.
  - intros Hin. apply in_map_iff in Hin. destruct Hin as [[[p l] ann] [<- Hit]]. cbn [fst].
    destruct (Hs p l ann Hit) as (H1 & H2 & _). split; assumption.
  - intros [Hin Hn]. destruct (Hc e Hin Hn) as [ann Hit]. apply in_map_iff.
    exists (fst e, snd e, ann). split; [destruct e; reflexivity | exact Hit].
Qed.

Lemma diff_ann {p l ann} : In (p, l, ann) out -> lpm_ann B p ann.
Proof. destruct D as (_ & Hs & _). intros Hit. exact (proj2 (proj2 (Hs p l ann Hit))). Qed.
End DSpec.

Lemma diff_item_ok {ba} {ta : treeL} {B out} {p l ann} :
  wfL ba ta -> diff_spec (entries ta) B out -> In (p, l, ann) out -> ok p.
Proof.
  intros Ha (_ & Hs & _) Hit. exact (entries_ok pfx L bits ok ba ta (p, l) Ha (proj1 (Hs p l ann Hit))).
Qed.

Lemma diff_right_empty {ba bb} {ta : treeL} {tb : treeR} {out} :
  wfL ba ta -> wfR bb tb -> entries tb = [] -> difference ta tb = Some out ->
  map fst out = entries ta /\ forall it, In it out -> snd it = None.
Proof.
  intros Ha Hb Eb E. split.
  - rewrite (diff_filter Ha Hb E), Eb. apply filter_all. intros; reflexivity.
  - intros [[p l] ann] Hit. pose proof (diff_ann (diff_some Ha Hb E) Hit) as H.
    rewrite Eb in H. destruct ann as [e|]; [|reflexivity]. destruct H as [[] _].
Qed.

Lemma difference_mut_ann {ba bb} {ta : treeL} {tb : treeR} {outm p} {i l ann} :
  wfL ba ta -> wfR bb tb -> difference_mut ta tb = Some outm -> In (p, (i, l), ann) outm ->
  In (p, l) (entries ta) /\ (forall e, In e (entries tb) -> bits (fst e) <> bits p) /\
  lpm_ann (entries tb) p ann.
Proof.
  intros Ha Hb E Hit. destruct (InterDiffThm.difference_mut_mirrors pfx L R _ _ _ _ _ _ _ _ _ LAWS _ _ _ _ Ha Hb) as (out & outm' & E1 & E2 & M & _).
  rewrite E in E2. injection E2 as <-.
  assert (Hin : In (p, l, ann) out).
  { rewrite M. apply in_map_iff. exists (p, (i, l), ann). split; [reflexivity | exact Hit]. }
  destruct (diff_some Ha Hb E1) as (_ & Hs & _). exact (Hs p l ann Hin).
Qed.

Lemma cdiff_some {ba bb} {ta : treeL} {tb : treeR} {out} :
  wfL ba ta -> wfR bb tb -> covering_difference ta tb = Some out ->
  cdiff_spec (entries ta) (entries tb) out.
Proof.
  intros Ha Hb. apply some_of_ex.
  exact (InterDiffThm.covering_difference_correct pfx L R _ _ _ _ _ _ _ _ _ LAWS ba bb ta tb Ha Hb).
Qed.

Lemma cdiff_keys_nodup {A B out} : cdiff_spec A B out -> NoDup (map keyL out).
Proof. intros C. apply ss_lex_nodup. apply UnionThm.ss_map. exact (proj1 C). Qed.

Lemma cdiff_filter {ba} {ta : treeL} {B out} :
  wfL ba ta -> cdiff_spec (entries ta) B out -> out = filter (uncovered B) (entries ta).
Proof.
  intros Ha [Hs Hm]. apply (filter_char pfx L bits); [exact (entries_sorted pfx L bits ok ba ta Ha) | exact Hs|].
  intros e. rewrite Hm, uncovered_spec. reflexivity.
Qed.

Lemma cdiff_right_empty {ba} {ta : treeL} {out} :
  wfL ba ta -> cdiff_spec (entries ta) [] out -> out = entries ta.
Proof.
  intros Ha C. rewrite (cdiff_filter Ha C). apply filter_all. intros; reflexivity.
Qed.

Lemma cdiff_right_zero {A B out} :
  cdiff_spec A B out -> (exists e, In e B /\ bits (fst e) = []) -> out = [].
Proof.
  intros [_ Hm] [e0 [H0 Hk]]. destruct out as [|e out]; [reflexivity|]. exfalso.
  destruct (proj1 (Hm e) (or_introl eq_refl)) as [_ Hn]. apply (Hn e0 H0). rewrite Hk. apply prefix_of_nil.
Qed.

Lemma cdiff_sub_diff {A B} {out outd e} :
  cdiff_spec A B out -> diff_spec A B outd -> In e out -> In e (map fst outd).
Proof.
  intros [_ Hm] D Hin. apply (diff_in_iff D). destruct (proj1 (Hm e) Hin) as [H1 H2].
  split; [exact H1|]. intros e' He' Hk. apply (H2 e' He'). rewrite Hk. apply prefix_of_refl.
Qed.

End SX.

Arguments lpm_ann : clear implicits.
Arguments iprefix : clear implicits.
Arguments ilval : clear implicits.
Arguments irval : clear implicits.
Arguments key_absent : clear implicits.
Arguments uncovered : clear implicits.

Print Assumptions lpm_ann_get_lpm.
Print Assumptions view_at_wf.
Print Assumptions union_item_left.
Print Assumptions union_item_right.
Print Assumptions union_presence.
Print Assumptions union_keys_iff.
Print Assumptions inter_keys_iff.
Print Assumptions intersection_disjoint_views.
Print Assumptions diff_in_iff.
Print Assumptions diff_right_empty.
Print Assumptions difference_mut_ann.
Print Assumptions cdiff_filter.
Print Assumptions cdiff_right_zero.
