(** The arena transcriptions of [Arena2.v] refine the tree model of [Trie.v] / [Views.v]:
    on every arena that represents a tree ([ArenaThm.Rep]) under [Slots.minv], each operation
    returns [Ok] -- never [Panic], never [OutOfFuel] -- with the outputs of the tree operation,
    and its result represents the result of the tree operation.  Two exceptions.  [remove_children]
    needs [rc_guard] besides (a selector of non-zero length is not [peq] to the root's key; without
    it the arena code and the tree model differ: [Arena2Test.unlawful_eq_remove_children] in
    [Arena2.v]).  It is a hypothesis of [remove_children_fuel_bound], [remove_children_sim] and
    [step2_sim_guard], the [remove_children] clauses of [Rep_total2] are conditional on it, and the
    history section [Hist] obtains it from the invariant [rootz] under [PEQ_LEN] / [ZERO_LEN].  An
    occupied entry handle used again after its value was taken out [unwrap]s a [None] in its
    accessors ([occ_reuse_panics]). *)
From Coq Require Import List NArith ZArith Bool Arith Lia ZifyN ZifyBool ZifyNat Permutation.
From PT Require Import Trie Views Slots Arena ArenaThm Arena2.
From PT Require Mutate Retain.
Import ListNotations.

Section A2T.
Variables (pfx V : Type).
Variables (peq contains : pfx -> pfx -> bool) (is_bit_set : pfx -> N -> bool)
          (plen : pfx -> N) (lcp : pfx -> pfx -> pfx) (pzero : pfx).

Notation tree := (Trie.tree pfx V).
Notation pmap := (Trie.pmap pfx V).
Notation anode := (Arena.anode pfx V).
Notation amap := (Arena.amap pfx V).
Notation to_right := (Trie.to_right pfx is_bit_set plen).
Notation with_child := (Trie.with_child pfx V).
Notation tpfx := (Trie.tpfx pfx V pzero).
Notation get := (Trie.get pfx V peq contains is_bit_set plen).
Notation get_node := (Trie.get_node pfx V peq contains is_bit_set plen).
Notation ins := (Trie.ins pfx V peq contains is_bit_set plen lcp).
Notation vins := (Trie.vins pfx V peq contains is_bit_set plen lcp).
Notation insert := (Trie.insert pfx V peq contains is_bit_set plen lcp).
Notation modify := (Trie.modify pfx V peq contains is_bit_set plen).
Notation remove_self := (Trie.remove_self pfx V).
Notation free_all := (Trie.free_all pfx V).
Notation rc := (Trie.rc pfx V peq contains is_bit_set plen).
Notation ret := (Trie.ret pfx V).
Notation empty := (Trie.empty pfx V pzero).
Notation clear := (Trie.clear pfx V pzero).
Notation remove_children := (Trie.remove_children pfx V peq contains is_bit_set plen pzero).
Notation retain := (Trie.retain pfx V).
Notation vacant_insert := (Trie.vacant_insert pfx V peq contains is_bit_set plen lcp).
Notation occ_insert := (Trie.occ_insert pfx V peq contains is_bit_set plen).
Notation occ_remove := (Trie.occ_remove pfx V peq contains is_bit_set plen).
Notation update_value := (Trie.update_value pfx V peq contains is_bit_set plen).

Notation rd := (Arena.rd pfx V).
Notation wr := (Arena.wr pfx V).
Notation child_of := (Arena.child_of pfx V).
Notation with_link := (Arena.with_link pfx V).
Notation set_child := (Arena.set_child pfx V).
Notation a_new_node := (Arena.a_new_node pfx V).
Notation a_insert_loop := (Arena.a_insert_loop pfx V peq contains is_bit_set plen lcp).
Notation a_remove_node := (Arena.a_remove_node pfx V).
Notation a_empty := (Arena.a_empty pfx V pzero).

Notation a_clear := (Arena2.a_clear pfx V pzero).
Notation a_free_loop := (Arena2.a_free_loop pfx V).
Notation a_do_remove_children := (Arena2.a_do_remove_children pfx V).
Notation a_rc_loop := (Arena2.a_rc_loop pfx V peq contains is_bit_set plen lcp).
Notation a_remove_children_fuel := (Arena2.a_remove_children_fuel pfx V peq contains is_bit_set plen lcp pzero).
Notation a_remove_children := (Arena2.a_remove_children pfx V peq contains is_bit_set plen lcp pzero).
Notation a_retain_rec := (Arena2.a_retain_rec pfx V).
Notation a_retain_fuel := (Arena2.a_retain_fuel pfx V).
Notation a_retain := (Arena2.a_retain pfx V).
Notation a_entry_loop := (Arena2.a_entry_loop pfx V peq contains is_bit_set plen lcp).
Notation a_entry := (Arena2.a_entry pfx V peq contains is_bit_set plen lcp).
Notation a_vacant_insert := (Arena2.a_vacant_insert pfx V).
Notation a_occ_insert := (Arena2.a_occ_insert pfx V).
Notation a_occ_remove := (Arena2.a_occ_remove pfx V).
Notation a_occ_update := (Arena2.a_occ_update pfx V).
Notation a_node_update := (Arena2.a_node_update pfx V).
Notation a_entry_insert := (Arena2.a_entry_insert pfx V peq contains is_bit_set plen lcp).
Notation a_entry_remove := (Arena2.a_entry_remove pfx V peq contains is_bit_set plen lcp).
Notation a_entry_and_modify := (Arena2.a_entry_and_modify pfx V peq contains is_bit_set plen lcp).
Notation a_get_mut_loop := (Arena2.a_get_mut_loop pfx V peq contains is_bit_set plen).
Notation a_get_mut := (Arena2.a_get_mut pfx V peq contains is_bit_set plen).
Notation a_vm_walk := (Arena2.a_vm_walk pfx V).
Notation a_vm_set := (Arena2.a_vm_set pfx V).
Notation a_vm_remove := (Arena2.a_vm_remove pfx V).
Notation a_vm_value_mut := (Arena2.a_vm_value_mut pfx V).

Notation slot := (ArenaThm.slot pfx V).
Notation slot_upd_eq := (ArenaThm.slot_upd_eq pfx V).
Notation slot_upd_neq := (ArenaThm.slot_upd_neq pfx V).
Notation rd_ok := (ArenaThm.rd_ok pfx V).
Notation wr_ok := (ArenaThm.wr_ok pfx V).
Notation rep := (ArenaThm.rep pfx V).
Notation link := (ArenaThm.link pfx V).
Notation Rep := (ArenaThm.Rep pfx V).
Notation rep_node_inv := (ArenaThm.rep_node_inv pfx V).
Notation rep_some_inv := (ArenaThm.rep_some_inv pfx V).
Notation csel := (ArenaThm.csel pfx V).
Notation ssel := (ArenaThm.ssel pfx V).
Notation rep_node_rt := (ArenaThm.rep_node_rt pfx V).
Notation rep_set_root := (ArenaThm.rep_set_root pfx V).
Notation rep_child_frame := (ArenaThm.rep_child_frame pfx V).
Notation height := (ArenaThm.height pfx V).
Notation height_child := (ArenaThm.height_child pfx V).
Notation nodup_node_rt := (ArenaThm.nodup_node_rt pfx V).
Notation direction_ins_sim := (ArenaThm.direction_ins_sim pfx V peq contains is_bit_set plen lcp).
Notation nonleaf := (ArenaThm.nonleaf pfx V).
Notation Forall2_push := (ArenaThm.Forall2_push pfx V).
Notation Rep_height := (ArenaThm.Rep_height pfx V peq contains is_bit_set plen lcp pzero).
Notation Rep_modify := (ArenaThm.Rep_modify pfx V peq contains is_bit_set plen lcp pzero).
Notation within_ssel := (ArenaThm.within_ssel pfx V).
Notation hung := (ArenaThm.hung pfx V).
Notation swap := (ArenaThm.swap pfx V).
Notation npost := (ArenaThm.npost pfx V).
Notation swap_refl := (ArenaThm.swap_refl pfx V).
Notation swap_hung := (ArenaThm.swap_hung pfx V).
Notation hung_child := (ArenaThm.hung_child pfx V).
Notation swap_lift := (ArenaThm.swap_lift pfx V).
Notation swap_trans := (ArenaThm.swap_trans pfx V).
Notation coll_lift := (ArenaThm.coll_lift pfx V).
Notation npost_trans := (ArenaThm.npost_trans pfx V).
Notation npost_frame := (ArenaThm.npost_frame pfx V).
Notation hung_off := (ArenaThm.hung_off pfx V).
Notation ahead_none := (ArenaThm.ahead_none).
Notation remove_node_sim := (ArenaThm.remove_node_sim pfx V).
Notation Rep_empty := (ArenaThm.Rep_empty pfx V pzero).
Notation live := (ArenaThm.live pfx V).
Notation edge := (ArenaThm.edge pfx V).
Notation ids := (Slots.ids pfx V).
Notation minv := (Slots.minv pfx V).
Notation slots_nodup := (Slots.slots_nodup pfx V peq contains is_bit_set plen lcp pzero).
Notation subst_ids := (Slots.subst_ids pfx V).
Notation slots_ok_ext := (Slots.slots_ok_ext pfx V).
Notation update_value_minv := (Slots.update_value_minv pfx V peq contains is_bit_set plen).
Notation minv_empty := (Slots.minv_empty pfx V pzero).
Notation free_all_acct := (Slots.free_all_acct pfx V peq contains is_bit_set plen lcp pzero).

Lemma is_node_link (t : tree) : is_some (link t) = is_node t.
Proof. destruct t; reflexivity. Qed.

(** the same relation as [ArenaThm.within]; [sub_ssel], [remove_self_sub], [shr_sub] and [ret_sub]
    are stated over it *)
Definition sub (t' t : tree) : Prop :=
  incl (ids t') (ids t) /\ (NoDup (ids t) -> NoDup (ids t')).

Lemma sub_ssel i p v l r rt : sub (ssel rt l r) (Node i p v l r).
Proof using peq contains is_bit_set plen lcp pzero. exact (within_ssel i p v l r rt). Qed.

Lemma remove_self_sub hp i p v l r a t' fl a' :
  remove_self hp i p v l r a = (t', fl, a') -> sub t' (Node i p v l r).
Proof using peq contains is_bit_set plen lcp pzero.
  intros H. destruct (Mutate.remove_self_cases pfx V H) as [[->|[->| ->]] _].
  - apply ArenaThm.within_node; apply ArenaThm.within_refl.
  - exact (ArenaThm.within_csel pfx V i p v l r false).
  - exact (ArenaThm.within_csel pfx V i p v l r true).
Qed.

(** removal steps only drop slots *)
Lemma shr_sub {hp t a t' fl a' rm} : Mutate.shr pfx V hp t a t' fl a' rm -> sub t' t.
Proof.
  induction 1 as [| hp i p v l r a t' fl a' RS | hp i p v l r s c' fl a a' rm t'' a'' H IH E
                  | hp t a t1 a1 rm1 t2 fl a2 rm2 H1 IH1 H2 IH2].
  - apply ArenaThm.within_refl.
  - exact (remove_self_sub _ _ _ _ _ _ _ _ _ _ RS).
  - destruct fl; [unfold Trie.absorb in E; destruct (hp && is_none v)|]; inversion E; subst.
    + exact (within_ssel i p v l r s).
    + apply (ArenaThm.within_wc pfx V i p v l r s Leaf), ArenaThm.within_leaf.
    + exact (ArenaThm.within_wc pfx V i p v l r s c' IH).
  - exact (ArenaThm.within_trans pfx V _ _ _ IH2 IH1).
Qed.

Lemma ret_sub f : forall t hp s t' st s', ret f hp t s = (t', st, s') -> sub t' t.
Proof using peq contains is_bit_set plen lcp pzero.
  intros t hp s t' st s' H. apply Retain.ret_graph_sound in H.
  destruct (Retain.ret_run pfx V f H) as (cv & rest & S & _). exact (shr_sub S).
Qed.

Theorem clear_sim am m : Rep (a_clear am) (clear m).
Proof. exact Rep_empty. Qed.

(** the allocator after the trees on the stack (top first) have been released *)
Definition fall (ts : list tree) (a : alloc) : alloc := fold_left (fun a t => free_all t a) ts a.

Lemma fall_alen ts : forall a, alen (fall ts a) = alen a.
Proof.
  induction ts as [|t ts IH]; intros a; cbn [fall fold_left]; [reflexivity|].
  fold (fall ts (free_all t a)). rewrite IH. apply (free_all_acct t a).
Qed.

Lemma fall_nonleaf t ts a : fall (nonleaf t ++ ts) a = fall ts (free_all t a).
Proof. destruct t; reflexivity. Qed.

Lemma stack_ext tb tb' st ts :
  Forall2 (fun i t => rep tb (Some i) t) st ts ->
  (forall j, In j (flat_map ids ts) -> slot tb' j = slot tb j) ->
  Forall2 (fun i t => rep tb' (Some i) t) st ts.
Proof.
  induction 1 as [|i t st ts R F IH]; intros E; constructor.
  - eapply (ArenaThm.rep_ext pfx V); [exact R|]. intros j Hj. apply E. cbn [flat_map]. apply in_or_app. auto.
  - apply IH. intros j Hj. apply E. cbn [flat_map]. apply in_or_app. auto.
Qed.

Lemma free_loop_sim al : forall fuel tb fr cnt st ts,
  Forall2 (fun i t => rep tb (Some i) t) st ts ->
  NoDup (flat_map ids ts) ->
  (list_sum (map (@tsize pfx V) ts) < fuel)%nat ->
  exists tb', a_free_loop fuel (mkamap tb fr cnt) st
              = Ok (mkamap tb' (free (fall ts (mkalloc fr al cnt))) (count (fall ts (mkalloc fr al cnt)))) /\
    length tb' = length tb /\
    (forall j, ~ In j (flat_map ids ts) -> slot tb' j = slot tb j).
Proof.
  induction fuel as [|f IH]; intros tb fr cnt st ts F ND Hf; [lia|].
  destruct F as [|i t st' ts' R F']; [exists tb; cbn; auto|].
  destruct (rep_some_inv _ _ _ R) as (p & v & l & r & ->).
  apply rep_node_inv in R. destruct R as (_ & Hs & Rl & Rr).
  cbn [Arena2.a_free_loop tbl afree acount]. rewrite (rd_ok _ _ _ Hs). cbn [rbind nval nleft nright npfx].
  rewrite (wr_ok _ Hs). cbn [rbind].
  change (match link l with Some x => x :: st' | None => st' end) with (push (link l) st').
  change (match link r with Some x => x :: push (link l) st' | None => push (link l) st' end)
    with (push (link r) (push (link l) st')).
  set (tb1 := upd tb (N.to_nat i) (mkanode p None None None)).
  set (ts2 := nonleaf r ++ nonleaf l ++ ts').
  (* the trees now on the stack hold the slots of the old ones, bar [i] *)
  assert (P : Permutation (flat_map ids (Node i p v l r :: ts')) (i :: flat_map ids ts2)).
  { unfold ts2. rewrite !(ArenaThm.flat_map_nonleaf pfx V) by reflexivity. cbn [flat_map Slots.ids app].
    constructor. rewrite <- app_assoc. apply Permutation_app_swap_app. }
  apply (Permutation_NoDup P) in ND. inversion ND as [|? ? NI2 ND2]; subst.
  assert (F1 : Forall2 (fun i t => rep tb1 (Some i) t) (push (link r) (push (link l) st')) ts2).
  { apply stack_ext with (tb := tb).
    - apply Forall2_push; [exact Rr|]. apply Forall2_push; assumption.
    - intros j Hj. apply slot_upd_neq. intros ->. contradiction. }
  set (a1 := push_free i (dec_if v (mkalloc fr al cnt))).
  assert (Ea : mkamap tb1 (i :: fr) (cnt - (if is_some v then 1 else 0))%Z
               = mkamap tb1 (free a1) (count a1)).
  { unfold a1. destruct v; cbn [is_some is_none negb dec_if add_count push_free free count];
      rewrite ?Z.sub_0_r; reflexivity. }
  assert (Ea1 : a1 = mkalloc (free a1) al (count a1)) by (unfold a1; destruct v; reflexivity).
  rewrite Ea.
  assert (Hf2 : (list_sum (map (@tsize pfx V) ts2) < f)%nat).
  { cbn [map tsize] in Hf. rewrite list_sum_cons in Hf. unfold ts2. rewrite !(ArenaThm.size_nonleaf pfx V). lia. }
  destruct (IH tb1 (free a1) (count a1) _ ts2 F1 ND2 Hf2) as (tb' & E & L' & Fr').
  rewrite <- Ea1 in E. unfold ts2 in E. rewrite !fall_nonleaf in E.
  exists tb'. split; [exact E|]. split; [rewrite L'; apply upd_length|].
  intros j Hj. rewrite Fr'.
  - apply slot_upd_neq. intros ->. apply Hj. apply (Permutation_in _ (Permutation_sym P)). left. reflexivity.
  - intros H2. apply Hj. apply (Permutation_in _ (Permutation_sym P)). right. exact H2.
Qed.

Lemma do_remove_children_sim fuel tb fr al cnt h hr hv g gr i p v l r rt ci cp cv cl cr :
  csel rt l r = Node ci cp cv cl cr -> hung tb h hr hv g gr (Node i p v l r) ->
  (length (ids (Node ci cp cv cl cr)) < fuel)%nat ->
  let a' := free_all (Node ci cp cv cl cr) (mkalloc fr al cnt) in
  exists tb', a_do_remove_children fuel (mkamap tb fr cnt) i rt = Ok (mkamap tb' (free a') (count a')) /\
    alen a' = al /\ swap tb tb' h hr (Node i p v l r) (with_child i p v l r rt Leaf).
Proof.
  intros C HU Hf a'. pose proof HU as (R & ND & _).
  destruct (rep_node_rt rt R) as (n & Hs & _ & _ & Hc & _ & Rc & _).
  destruct (nodup_node_rt rt ND) as (NIc & _ & NDc & _).
  rewrite C in Hc, Rc, NIc, NDc. cbn [ArenaThm.link] in Hc, Rc.
  unfold Arena2.a_do_remove_children. cbn [tbl afree acount].
  rewrite (ArenaThm.get_child_ok pfx V _ Hs). cbn [rbind]. rewrite Hc. cbn [unwrap rbind].
  rewrite (ArenaThm.clear_child_ok pfx V _ Hs). cbn [rbind].
  set (tb1 := upd tb (N.to_nat i) (with_link n rt None)).
  destruct (free_loop_sim al fuel tb1 fr cnt [ci] [Node ci cp cv cl cr]) as (tb' & E & L' & F').
  - constructor; [apply (ArenaThm.rep_upd pfx V); assumption|constructor].
  - cbn [flat_map]. rewrite app_nil_r. exact NDc.
  - cbn [map]. rewrite list_sum_cons. cbn [list_sum fold_right]. rewrite (ArenaThm.tsize_ids pfx V peq contains is_bit_set plen lcp). lia.
  - cbn [fall fold_left] in E. fold a' in E. rewrite E. exists tb'. split; [reflexivity|].
    cbn [flat_map] in F'. rewrite app_nil_r in F'.
    split; [apply (free_all_acct (Node ci cp cv cl cr) (mkalloc fr al cnt))|].
    apply (swap_lift rt Leaf HU). rewrite C.
    split; [rewrite L'; apply upd_length|]. split; [constructor|]. split; [apply (ArenaThm.within_leaf pfx V)|]. split.
    + exists n. split; [exact Hs|]. rewrite (F' i NIc). eapply slot_upd_eq; exact Hs.
    + intros j Hj Nj. rewrite (F' j Hj). apply slot_upd_neq. congruence.
Qed.

Lemma rc_sim q fuel : forall ffuel tb fr al cnt h hr hv g gr i p v l r par pr,
  hung tb h hr hv g gr (Node i p v l r) ->
  (height (Node i p v l r) <= fuel)%nat -> (length (ids (Node i p v l r)) <= ffuel)%nat ->
  peq p q = false ->
  forall t' a', rc (Node i p v l r) q (mkalloc fr al cnt) = (t', a') ->
  exists tb', a_rc_loop fuel ffuel (mkamap tb fr cnt) i par pr q = Ok (mkamap tb' (free a') (count a')) /\
    alen a' = al /\ swap tb tb' h hr (Node i p v l r) t'.
Proof.
  induction fuel as [|f IH]; intros ffuel tb fr al cnt h hr hv g gr i p v l r par pr HU Hf Hff EQ t' a' H;
    [inversion Hf|]. pose proof HU as (R & _).
  set (rt := to_right p q) in *. apply (height_child rt) in Hf.
  assert (Lc : (length (ids (csel rt l r)) < ffuel)%nat).
  { cbn [Slots.ids length] in Hff. rewrite app_length in Hff. destruct rt; cbn [ArenaThm.csel]; lia. }
  cbn [Arena2.a_rc_loop tbl]. rewrite (direction_ins_sim _ _ _ q R). cbn [rbind ArenaThm.dir_ins_of].
  rewrite EQ. fold rt.
  pose proof (hung_child rt HU) as HUc.
  cbn [Trie.rc] in H. rewrite EQ in H. fold rt in H.
  change (if rt then r else l) with (csel rt l r) in H.
  assert (SAME : (t', a') = (Node i p v l r, mkalloc fr al cnt) ->
          exists tb', Ok (mkamap tb fr cnt) = Ok (mkamap tb' (free a') (count a')) /\
            alen a' = al /\ swap tb tb' h hr (Node i p v l r) t').
  { intros E2. injection E2 as -> ->. exists tb. split; [reflexivity|]. split; [reflexivity|exact (swap_refl HU)]. }
  assert (FREE : forall ci cp cv cl cr, csel rt l r = Node ci cp cv cl cr ->
          (t', a') = (with_child i p v l r rt Leaf, free_all (Node ci cp cv cl cr) (mkalloc fr al cnt)) ->
          exists tb', a_do_remove_children ffuel (mkamap tb fr cnt) i rt = Ok (mkamap tb' (free a') (count a')) /\
            alen a' = al /\ swap tb tb' h hr (Node i p v l r) t').
  { intros ci cp cv cl cr C E2. injection E2 as -> ->. rewrite C in Lc.
    exact (do_remove_children_sim ffuel tb fr al cnt h hr hv g gr i p v l r rt ci cp cv cl cr C HU Lc). }
  destruct (csel rt l r) as [|ci cp cv cl cr] eqn:C.
  { apply SAME. congruence. }
  destruct (contains cp q).
  - (* Enter *)
    destruct f as [|f]; [inversion Hf|].
    destruct (peq cp q) eqn:EQc.
    + (* the next iteration reaches the selector *)
      destruct HUc as (Rc & _). cbn [ArenaThm.link] in Rc.
      cbn [Arena2.a_rc_loop tbl]. rewrite (direction_ins_sim _ _ _ q Rc). cbn [rbind ArenaThm.dir_ins_of].
      rewrite EQc. apply (FREE ci cp cv cl cr eq_refl). congruence.
    + destruct (rc (Node ci cp cv cl cr) q (mkalloc fr al cnt)) as [c' a1] eqn:RC.
      injection H as <- <-.
      destruct (IH ffuel tb fr al cnt (Some i) rt v h hr ci cp cv cl cr i rt HUc Hf (Nat.lt_le_incl _ _ Lc) EQc _ _ RC)
        as (tb' & E & Al & SW).
      rewrite E. exists tb'. split; [reflexivity|]. split; [exact Al|].
      rewrite <- C in SW. exact (swap_lift rt c' HU SW).
  - destruct (contains q cp).
    + (* NewChild: the selector lies on the edge *)
      apply (FREE ci cp cv cl cr eq_refl). congruence.
    + apply SAME. congruence.
Qed.

(** the guard of [remove_children]: a selector that is not of length zero is not the root's key *)
Definition rc_guard (m : pmap) (q : pfx) : Prop :=
  (plen q =? 0)%N = false -> peq (tpfx (root m)) q = false.

Theorem remove_children_fuel_bound am m q fuel ffuel :
  Rep am m -> minv m -> rc_guard m q ->
  (length (tbl am) <= fuel)%nat -> (length (tbl am) <= ffuel)%nat ->
  exists am', a_remove_children_fuel fuel ffuel am q = Ok am' /\ Rep am' (remove_children m q).
Proof.
  intros R M G F FF. unfold Arena2.a_remove_children_fuel, Trie.remove_children.
  destruct (plen q =? 0)%N eqn:Z.
  { eexists. split; [reflexivity|]. apply clear_sim. }
  specialize (G Z).
  pose proof (Rep_height _ _ R M) as HH. pose proof (slots_nodup _ _ M) as NDt.
  pose proof (ArenaThm.minv_size pfx V peq contains is_bit_set plen lcp pzero _ _ M) as SZ.
  destruct am as [tb fr cnt]. destruct m as [t [fr' al cnt']].
  destruct R as (R & Ef & El & Ec).
  cbn [tbl afree acount root Trie.al free alen count] in *. subst fr' cnt'.
  destruct (rep_some_inv _ _ _ R) as (p & v & l & r & ->). cbn [Trie.tpfx] in G.
  destruct (rc (Node 0%N p v l r) q (mkalloc fr al cnt)) as [t' a'] eqn:RC.
  destruct (rc_sim q fuel ffuel tb fr al cnt None false None None false 0%N p v l r 0%N false) with (5 := RC)
    as (tb' & E & Al & (L' & R' & _ & Lk & _)); [repeat split; assumption|lia|lia|exact G|].
  rewrite E. eexists. split; [reflexivity|].
  split; [cbn [tbl root]; change (Some 0%N) with (link (Node 0%N p v l r)); rewrite <- Lk; exact R'|].
  cbn [tbl afree acount root Trie.al]. rewrite L', Al. auto.
Qed.


Theorem remove_children_sim am m q : Rep am m -> minv m -> rc_guard m q ->
  exists am', a_remove_children am q = Ok am' /\ Rep am' (remove_children m q).
Proof. intros R M G. apply (remove_children_fuel_bound am m q _ _ R M G); lia. Qed.

(** inverts a chain [x <- c ;; ...] = Ok _: one equation [c = Ok x] per bind, named [E], [E0],
    [E1], ... in program order *)
Ltac rinv H :=
  repeat match type of H with
  | rbind ?c _ = Ok _ =>
    let E := fresh "E" in destruct c eqn:E; cbn [rbind] in H; [|discriminate H|discriminate H]
  | (match ?x with pair _ _ => _ end) = Ok _ => destruct x
  end.

Lemma rd_slot tb i n : rd tb i = Ok n -> slot tb i = Some n.
Proof. unfold Arena.rd, ArenaThm.slot. destruct (nth_error tb (N.to_nat i)); congruence. Qed.

Lemma wr_inv tb i n tb' : wr tb i n = Ok tb' -> tb' = upd tb (N.to_nat i) n /\ exists n0, slot tb i = Some n0.
Proof.
  unfold Arena.wr, ArenaThm.slot. destruct (nth_error tb (N.to_nat i)) as [n0|]; [|discriminate].
  intros [= <-]. eauto.
Qed.

(** slot [j] holds a node with prefix [p] and value [v], whatever its links *)
Definition holds (tb : list anode) (j : N) (p : pfx) (v : option V) : Prop :=
  exists n, slot tb j = Some n /\ npfx n = p /\ nval n = v.

Lemma set_child_holds {tb i c rt tb' o j p v} :
  set_child tb i c rt = Ok (tb', o) -> holds tb j p v -> holds tb' j p v.
Proof.
  unfold Arena.set_child. intros H (n & Hn & Hp & Hv). rinv H. injection H as <- _.
  apply wr_inv in E0. destruct E0 as (-> & _). apply rd_slot in E.
  destruct (N.eq_dec i j) as [->|Nij].
  - rewrite Hn in E. injection E as <-. eexists. split; [eapply slot_upd_eq; eauto|].
    rewrite (ArenaThm.npfx_with_link pfx V), (ArenaThm.nval_with_link pfx V). auto.
  - exists n. rewrite slot_upd_neq by exact Nij. auto.
Qed.

Lemma new_node_holds {am p v new am1} : a_new_node am p v = Ok (new, am1) -> holds (tbl am1) new p v.
Proof.
  unfold Arena.a_new_node. destruct (afree am) as [|idx f].
  - intros [= <- <-]. cbn [tbl]. eexists. split; [apply (ArenaThm.slot_app_new pfx V)|auto].
  - intros H. rinv H. injection H as <- <-. cbn [tbl].
    apply wr_inv in E. destruct E as (-> & n0 & Hn0). eexists. split; [eapply slot_upd_eq; eauto|auto].
Qed.

Lemma holds_rd {A tb j p v} (k : res A) : holds tb j p v -> (_ <- rd tb j ;; k) = k.
Proof. intros (n & Hn & _). rewrite (rd_ok _ _ _ Hn). reflexivity. Qed.

Lemma ins_vacant q : forall t x a, get t q = None ->
  ins t q x a = (fst (vins t q x a), None, snd (vins t q x a)).
Proof.
  intros t x a G. rewrite (Mutate.vins_ins pfx V peq contains is_bit_set plen lcp).
  pose proof (Mutate.ins_ret pfx V peq contains is_bit_set plen lcp t q x a) as O. rewrite G in O.
  destruct (ins t q x a) as [[t' o] a']. cbn [fst snd] in O. subst o. reflexivity.
Qed.

Lemma vacant_insert_insert m q x : get (root m) q = None ->
  vacant_insert m q x = fst (insert m q x) /\ snd (insert m q x) = None.
Proof.
  intros G. unfold Trie.vacant_insert, Trie.insert. rewrite (ins_vacant q _ x (al m) G).
  destruct (vins (root m) q x (al m)). auto.
Qed.

(** arena level, without any invariant: where [entry] hands out a vacant handle, [_insert] on it
    does what the loop of [insert] does from the same position *)
Lemma entry_then_vacant q x : forall fuel am idx i d am' o,
  a_entry_loop fuel (tbl am) idx q = Ok (AVac i d) ->
  a_insert_loop fuel am idx q x = Ok (am', o) ->
  o = None /\ exists new, a_vacant_insert am i d q x = Ok (am', new) /\ holds (tbl am') new q (Some x).
Proof.
  induction fuel as [|f IH]; intros am idx i d am' o HE HI; [discriminate|].
  cbn [Arena2.a_entry_loop Arena.a_insert_loop] in HE, HI.
  destruct (Arena.a_direction_ins pfx V peq contains is_bit_set plen lcp (tbl am) idx q) as [d0| |]; cbn [rbind] in HE, HI; try discriminate.
  destruct d0 as [|next rt|rt|rt crt|bp rt prt].
  - (* Reached *)
    rinv HE. cbn [rbind] in HI. rinv HI.
    destruct (is_some (nval a)) eqn:SV; [discriminate|]. injection HE as <- <-.
    destruct (nval a) eqn:NV; [discriminate|]. injection HI as <- <-.
    split; [reflexivity|]. cbn [Arena2.a_vacant_insert]. rewrite E. cbn [rbind]. rewrite E0. cbn [rbind].
    eexists. split; [reflexivity|]. cbn [tbl].
    apply wr_inv in E0. destruct E0 as (-> & n0 & Hn0). eexists. split; [eapply slot_upd_eq; eauto|auto].
  - (* Enter *) eapply IH; eauto.
  - (* NewLeaf *)
    injection HE as <- <-. rinv HI. injection HI as <- <-. split; [reflexivity|].
    cbn [Arena2.a_vacant_insert]. rewrite E. cbn [rbind]. rewrite E0. cbn [rbind].
    pose proof (set_child_holds E0 (new_node_holds E)) as X.
    rewrite (holds_rd _ X). eexists. split; [reflexivity|exact X].
  - (* NewChild *)
    injection HE as <- <-. rinv HI. injection HI as <- <-. split; [reflexivity|].
    cbn [Arena2.a_vacant_insert]. rewrite E. cbn [rbind]. rewrite E0. cbn [rbind]. rewrite E1. cbn [rbind].
    rewrite E2. cbn [rbind].
    pose proof (set_child_holds E2
                  (set_child_holds E0 (new_node_holds E))) as X.
    rewrite (holds_rd _ X). eexists. split; [reflexivity|exact X].
  - (* NewBranch *)
    injection HE as <- <-. rinv HI. injection HI as <- <-. split; [reflexivity|].
    cbn [Arena2.a_vacant_insert]. rewrite E. cbn [rbind]. rewrite E0. cbn [rbind]. rewrite E1. cbn [rbind].
    rewrite E2. cbn [rbind]. rewrite E3. cbn [rbind]. rewrite E4. cbn [rbind].
    pose proof (set_child_holds E4
                  (set_child_holds E3
                     (set_child_holds E1 (new_node_holds E0)))) as X.
    rewrite (holds_rd _ X). eexists. split; [reflexivity|exact X].
Qed.

Lemma entry_loop_sim q : forall t fuel tb i,
  rep tb (Some i) t -> (ArenaThm.height pfx V t <= fuel)%nat ->
  match get_node t q with
  | Some (j, _, Some _) => a_entry_loop fuel tb i q = Ok (AOcc j)
  | _ => exists j d, a_entry_loop fuel tb i q = Ok (AVac j d)
  end.
Proof.
  intros t fuel. revert t. induction fuel as [|f IH]; intros t tb i R Hf;
    destruct (rep_some_inv _ _ _ R) as (p & v & l & r & ->); [inversion Hf|].
  apply (height_child (to_right p q)) in Hf.
  destruct (rep_node_rt (to_right p q) R) as (n & Hs & _ & Hv & _ & _ & Rc & _).
  cbn [Arena2.a_entry_loop]. rewrite (direction_ins_sim _ _ _ q R).
  cbn [rbind ArenaThm.dir_ins_of Trie.get_node].
  change (if to_right p q then r else l) with (csel (to_right p q) l r).
  destruct (peq p q).
  { rewrite (rd_ok _ _ _ Hs). cbn [rbind]. rewrite Hv. destruct v; cbn [is_some is_none negb]; eauto. }
  destruct (csel (to_right p q) l r) as [|ci cp cv cl cr]; [eauto|].
  destruct (contains cp q).
  - exact (IH _ _ _ Rc Hf).
  - destruct (contains q cp); eauto.
Qed.

Theorem entry_fuel_bound am m q fuel : Rep am m -> minv m -> (length (tbl am) <= fuel)%nat ->
  match get_node (root m) q with
  | Some (j, _, Some _) => a_entry_loop fuel (tbl am) 0%N q = Ok (AOcc j)
  | _ => exists j d, a_entry_loop fuel (tbl am) 0%N q = Ok (AVac j d)
  end.
Proof.
  intros R M F. apply entry_loop_sim; [apply R|]. pose proof (Rep_height _ _ R M). lia.
Qed.

Lemma entry_sim am m q : Rep am m -> minv m ->
  match get_node (root m) q with
  | Some (j, _, Some _) => a_entry am q = Ok (AOcc j)
  | _ => exists j d, a_entry am q = Ok (AVac j d)
  end.
Proof. intros R M. apply (entry_fuel_bound am m q _ R M). lia. Qed.

Lemma entry_vacant am m q : Rep am m -> minv m -> get (root m) q = None ->
  exists j d, a_entry am q = Ok (AVac j d).
Proof.
  intros R M G. pose proof (entry_sim am m q R M) as HE. unfold Trie.get in G.
  destruct (get_node (root m) q) as [[[j pj] [y|]]|]; [discriminate|exact HE..].
Qed.

Theorem vacant_insert_sim am m q x : Rep am m -> minv m -> get (root m) q = None ->
  exists idx d am' new,
    a_entry am q = Ok (AVac idx d) /\ a_vacant_insert am idx d q x = Ok (am', new) /\
    Rep am' (vacant_insert m q x) /\ holds (tbl am') new q (Some x).
Proof.
  intros R M G. destruct (entry_vacant am m q R M G) as (j & d & HE).
  destruct (ArenaThm.insert_fuel_bound pfx V peq contains is_bit_set plen lcp pzero am m q x (S (length (tbl am))) R M ltac:(lia)) as (am' & HI & R').
  destruct (vacant_insert_insert m q x G) as (EV & EO).
  destruct (entry_then_vacant q x _ am 0%N j d am' _ HE HI) as (_ & new & HV & X).
  exists j, d, am', new. rewrite EV. auto.
Qed.

Lemma get_of_node t q i p v : get_node t q = Some (i, p, v) -> get t q = v.
Proof. unfold Trie.get. intros ->. reflexivity. Qed.

Theorem occ_insert_sim am m q x i p y : Rep am m -> minv m ->
  get_node (root m) q = Some (i, p, Some y) ->
  exists am', a_entry am q = Ok (AOcc i) /\ a_occ_insert am i q x = Ok (am', y) /\
    Rep am' (fst (occ_insert m q x)) /\ snd (occ_insert m q x) = Some y.
Proof.
  intros R M G. pose proof (entry_sim am m q R M) as HE. rewrite G in HE.
  destruct (Rep_modify am m q (fun _ _ => (q, Some x)) i p (Some y) (al m) R M G eq_refl eq_refl)
    as (n & Hn & Hp & Hv & R').
  unfold Arena2.a_occ_insert. rewrite (rd_ok _ _ _ Hn). cbn [rbind]. rewrite (wr_ok _ Hn). cbn [rbind].
  rewrite Hv. cbn [unwrap rbind]. eexists. split; [exact HE|]. split; [reflexivity|].
  unfold Trie.occ_insert. cbn [fst snd]. unfold Trie.get. rewrite G.
  split; [|reflexivity]. destruct R as (_ & _ & _ & Rc). rewrite Rc. exact R'.
Qed.

Theorem occ_remove_sim am m q i p y : Rep am m -> minv m ->
  get_node (root m) q = Some (i, p, Some y) ->
  exists am', a_entry am q = Ok (AOcc i) /\ a_occ_remove am i = Ok (am', y) /\
    Rep am' (fst (occ_remove m q)) /\ snd (occ_remove m q) = Some y.
Proof.
  intros R M G. pose proof (entry_sim am m q R M) as HE. rewrite G in HE.
  destruct (Rep_modify am m q (fun p _ => (p, None)) i p (Some y) (dec_if (Some y) (al m)) R M G eq_refl eq_refl)
    as (n & Hn & Hp & Hv & R').
  unfold Arena2.a_occ_remove. rewrite (rd_ok _ _ _ Hn). cbn [rbind]. rewrite (wr_ok _ Hn). cbn [rbind].
  rewrite Hv. cbn [unwrap rbind]. eexists. split; [exact HE|]. split; [reflexivity|].
  unfold Trie.occ_remove. cbn [fst snd]. unfold Trie.get. rewrite G.
  split; [|reflexivity]. destruct R as (_ & _ & _ & Rc). rewrite Rc, Hp. exact R'.
Qed.

(** [OccupiedEntry::get_mut] and a write through the reference *)
Theorem occ_update_sim am m q g i p y : Rep am m -> minv m ->
  get_node (root m) q = Some (i, p, Some y) ->
  exists am', a_occ_update am i g = Ok am' /\ Rep am' (update_value m q g).
Proof.
  intros R M G.
  destruct (Rep_modify am m q (fun p v => (p, option_map g v)) i p (Some y) (al m) R M G eq_refl eq_refl)
    as (n & Hn & Hp & Hv & R').
  unfold Arena2.a_occ_update. rewrite (rd_ok _ _ _ Hn). cbn [rbind]. rewrite Hv. cbn [unwrap rbind].
  rewrite (wr_ok _ Hn). cbn [rbind]. eexists. split; [reflexivity|].
  unfold Trie.update_value. destruct R as (_ & _ & _ & Rc). rewrite Rc, Hp. exact R'.
Qed.

(** an occupied handle whose value was taken out ([OccupiedEntry::remove], or a view's [remove]):
    the accessors that [unwrap] panic *)
Theorem occ_reuse_panics am m q x g i p : Rep am m -> minv m ->
  get_node (root m) q = Some (i, p, None) ->
  a_occ_insert am i q x = Panic /\ a_occ_remove am i = Panic /\ a_occ_update am i g = Panic.
Proof.
  intros R M G.
  destruct (Rep_modify am m q (fun p v => (p, v)) i p None (al m) R M G eq_refl eq_refl)
    as (n & Hn & Hp & Hv & _).
  unfold Arena2.a_occ_insert, Arena2.a_occ_remove, Arena2.a_occ_update.
  rewrite (rd_ok _ _ _ Hn). cbn [rbind]. rewrite !(wr_ok _ Hn). cbn [rbind]. rewrite Hv.
  cbn [unwrap rbind]. auto.
Qed.

(** [Entry::insert] *)
Theorem entry_insert_sim am m q x : Rep am m -> minv m ->
  exists am', a_entry_insert am q x = Ok (am', snd (t_entry_insert pfx V peq contains is_bit_set plen lcp m q x)) /\
              Rep am' (fst (t_entry_insert pfx V peq contains is_bit_set plen lcp m q x)).
Proof.
  intros R M. unfold Arena2.a_entry_insert, Arena2.t_entry_insert.
  destruct (get (root m) q) as [y|] eqn:G.
  - unfold Trie.get in G. destruct (get_node (root m) q) as [[[i p] v]|] eqn:GN; [|discriminate]. subst v.
    destruct (occ_insert_sim am m q x i p y R M GN) as (am' & HE & HO & R' & O).
    rewrite HE. cbn [rbind]. rewrite HO. cbn [rbind]. rewrite O. eauto.
  - destruct (vacant_insert_sim am m q x R M G) as (idx & d & am' & new & HE & HV & R' & _).
    rewrite HE. cbn [rbind]. rewrite HV. cbn [rbind]. eauto.
Qed.

Theorem entry_remove_sim am m q : Rep am m -> minv m ->
  exists am', a_entry_remove am q = Ok (am', snd (t_entry_remove pfx V peq contains is_bit_set plen m q)) /\
              Rep am' (fst (t_entry_remove pfx V peq contains is_bit_set plen m q)).
Proof.
  intros R M. unfold Arena2.a_entry_remove, Arena2.t_entry_remove.
  destruct (get (root m) q) as [y|] eqn:G.
  - unfold Trie.get in G. destruct (get_node (root m) q) as [[[i p] v]|] eqn:GN; [|discriminate]. subst v.
    destruct (occ_remove_sim am m q i p y R M GN) as (am' & HE & HO & R' & O).
    rewrite HE. cbn [rbind]. rewrite HO. cbn [rbind]. rewrite O. eauto.
  - destruct (entry_vacant am m q R M G) as (j & d & ->). cbn [rbind]. eauto.
Qed.

(** a write through [Option<&mut T>] at the node reached *)
Lemma node_update_sim am m q g i p v : Rep am m -> minv m ->
  get_node (root m) q = Some (i, p, v) ->
  exists tb', a_node_update (tbl am) i g = Ok tb' /\
    Rep (mkamap tb' (afree am) (acount am)) (update_value m q g).
Proof.
  intros R M G.
  destruct (Rep_modify am m q (fun p v => (p, option_map g v)) i p v (al m) R M G eq_refl eq_refl)
    as (n & Hn & Hp & Hv & R').
  unfold Arena2.a_node_update. rewrite (rd_ok _ _ _ Hn). cbn [rbind]. rewrite (wr_ok _ Hn).
  eexists. split; [reflexivity|]. cbn [fst snd] in R'. rewrite Hp, Hv.
  unfold Trie.update_value. destruct R as (_ & _ & _ & Rc). rewrite Rc. exact R'.
Qed.

Lemma update_value_same m q g :
  (forall i p v, get_node (root m) q = Some (i, p, v) -> v = None) -> update_value m q g = m.
Proof.
  intros H. unfold Trie.update_value. rewrite (ArenaThm.modify_same pfx V peq contains is_bit_set plen); [destruct m; reflexivity|].
  intros i p v G. rewrite (H i p v G). reflexivity.
Qed.

(** [Entry::and_modify] *)
Theorem entry_and_modify_sim am m q g : Rep am m -> minv m ->
  exists am', a_entry_and_modify am q g = Ok am' /\ Rep am' (update_value m q g).
Proof.
  intros R M. unfold Arena2.a_entry_and_modify. pose proof (entry_sim am m q R M) as HE.
  destruct (get_node (root m) q) as [[[i p] [y|]]|] eqn:GN.
  - rewrite HE. cbn [rbind]. destruct (node_update_sim am m q g i p (Some y) R M GN) as (tb' & -> & R').
    cbn [rbind]. eauto.
  - destruct HE as (j & d & ->). cbn [rbind]. eexists. split; [reflexivity|].
    rewrite update_value_same; [exact R|]. intros i' p' v' G'. congruence.
  - destruct HE as (j & d & ->). cbn [rbind]. eexists. split; [reflexivity|].
    rewrite update_value_same; [exact R|]. intros i' p' v' G'. congruence.
Qed.

Lemma get_mut_loop_sim q g t fuel tb i :
  rep tb (Some i) t -> (ArenaThm.height pfx V t <= fuel)%nat ->
  a_get_mut_loop fuel tb i q g
  = match get_node t q with Some (j, _, _) => a_node_update tb j g | None => Ok tb end.
Proof.
  exact (ArenaThm.descent_sim pfx V peq contains is_bit_set plen q (fun f tb i => a_get_mut_loop f tb i q g) (fun tb j => a_node_update tb j g)
                     (fun tb => Ok tb) (fun _ _ _ => eq_refl) fuel t tb i).
Qed.

Theorem get_mut_fuel_bound am m q g fuel : Rep am m -> minv m -> (length (tbl am) <= fuel)%nat ->
  exists tb', a_get_mut_loop fuel (tbl am) 0%N q g = Ok tb' /\
    Rep (mkamap tb' (afree am) (acount am)) (update_value m q g).
Proof.
  intros R M F. pose proof (Rep_height _ _ R M) as HH.
  rewrite (get_mut_loop_sim q g (root m) fuel (tbl am) 0%N (proj1 R)) by lia.
  destruct (get_node (root m) q) as [[[i p] v]|] eqn:GN.
  - exact (node_update_sim am m q g i p v R M GN).
  - eexists. split; [reflexivity|]. rewrite update_value_same; [destruct am; exact R|].
    intros i' p' v' G'. congruence.
Qed.

Theorem get_mut_sim am m q g : Rep am m -> minv m ->
  exists am', a_get_mut am q g = Ok am' /\ Rep am' (update_value m q g).
Proof.
  intros R M. destruct (get_mut_fuel_bound am m q g (S (length (tbl am))) R M ltac:(lia)) as (tb' & E & R').
  unfold Arena2.a_get_mut. rewrite E. cbn [rbind]. eauto.
Qed.

Lemma subtree_leaf pa : subtree (@Leaf pfx V) pa = Leaf.
Proof. destruct pa; reflexivity. Qed.

Lemma subtree_in pa : forall (t : tree) i p v l r, subtree t pa = Node i p v l r -> In i (ids t).
Proof.
  induction pa as [|b pa IH]; intros [|k pk vk lk rk] i p v l r S; cbn [subtree] in S; try discriminate.
  - injection S as -> _ _ _ _. cbn. auto.
  - apply IH in S. cbn [Slots.ids In]. rewrite in_app_iff. destruct b; auto.
Qed.

(** [TrieViewMut] at the node reached from the root by the path [pa] ([view_mut().left()/right()...]):
    the walk, then [set], [remove] and [value_mut] as writes of that node's value *)
Lemma vm_walk_sim : forall pa t tb i, rep tb (Some i) t -> a_vm_walk tb i pa = Ok (link (subtree t pa)).
Proof.
  induction pa as [|b pa IH]; intros t tb i R;
    destruct (rep_some_inv _ _ _ R) as (p & v & l & r & ->); [reflexivity|].
  destruct (rep_node_rt b R) as (n & Hs & _ & _ & Hc & _ & Rc & _).
  cbn [Arena2.a_vm_walk subtree]. rewrite (rd_ok _ _ _ Hs). cbn [rbind]. rewrite Hc.
  change (if b then r else l) with (csel b l r).
  destruct (csel b l r) as [|ci cp cv cl cr]; cbn [ArenaThm.link] in *.
  - rewrite subtree_leaf. reflexivity.
  - apply IH. exact Rc.
Qed.

Lemma subst_sim : forall pa t tb i0, rep tb (Some i0) t -> NoDup (ids t) ->
  forall i p v l r, subtree t pa = Node i p v l r ->
  slot tb i = Some (mkanode p v (link l) (link r)) /\
  forall v', rep (upd tb (N.to_nat i) (mkanode p v' (link l) (link r))) (Some i0)
                 (subst t pa (Node i p v' l r)).
Proof.
  induction pa as [|b pa IH]; intros t tb i0 R ND i p v l r S;
    destruct (rep_some_inv _ _ _ R) as (pj & vj & lj & rj & ->); cbn [subtree] in S.
  - injection S as -> -> -> -> ->. pose proof (rep_node_inv _ _ _ _ _ _ _ R) as (_ & Hs & _).
    split; [exact Hs|]. intros v'. exact (rep_set_root _ v' R ND).
  - change (if b then rj else lj) with (csel b lj rj) in S.
    destruct (rep_node_rt b R) as (_ & _ & _ & _ & _ & _ & Rc & _).
    destruct (nodup_node_rt b ND) as (_ & _ & NDc & _).
    destruct (csel b lj rj) as [|ci cp cv cl cr] eqn:C; [rewrite subtree_leaf in S; discriminate|].
    destruct (IH _ tb ci Rc NDc i p v l r S) as (Hsi & R').
    split; [exact Hsi|]. intros v'.
    replace (subst (Node i0 pj vj lj rj) (b :: pa) (Node i p v' l r))
      with (with_child i0 pj vj lj rj b (subst (Node ci cp cv cl cr) pa (Node i p v' l r))).
    2:{ cbn [subst]. unfold Trie.with_child. destruct b; cbn [ArenaThm.csel] in C; rewrite C; reflexivity. }
    apply (rep_child_frame _ _ _ _ _ _ _ b _ R ND); rewrite C; [exact (R' v')|].
    intros j _ Hj. apply slot_upd_neq. intros ->. exact (Hj (subtree_in _ _ _ _ _ _ _ S)).
Qed.

(** the map after a write of the value of the node at [pa]; the allocator is out of reach *)
Lemma Rep_subst am m pa i p v l r v' : Rep am m -> minv m ->
  subtree (root m) pa = Node i p v l r ->
  a_vm_walk (tbl am) 0%N pa = Ok (Some i) /\
  slot (tbl am) i = Some (mkanode p v (link l) (link r)) /\
  Rep (mkamap (upd (tbl am) (N.to_nat i) (mkanode p v' (link l) (link r))) (afree am) (acount am))
      (mkmap (subst (root m) pa (Node i p v' l r)) (al m)) /\
  minv (mkmap (subst (root m) pa (Node i p v' l r)) (al m)).
Proof.
  intros R M S. destruct R as (R & Rf & Rl & Rc).
  destruct (subst_sim pa (root m) (tbl am) 0%N R (slots_nodup _ _ M) i p v l r S) as (Hs & R').
  split; [rewrite (vm_walk_sim pa _ _ _ R), S; reflexivity|]. split; [exact Hs|]. split.
  - split; [apply R'|]. cbn [tbl afree acount root Trie.al]. rewrite upd_length. auto.
  - unfold Slots.minv in *. cbn [root Trie.al]. eapply slots_ok_ext; [| reflexivity | reflexivity | exact M].
    pose proof (subst_ids pa (root m) v') as X. rewrite S in X. cbn [set_tval] in X. exact X.
Qed.

Theorem vm_set_sim am m pa x i p v l r : Rep am m -> minv m ->
  subtree (root m) pa = Node i p v l r ->
  a_vm_walk (tbl am) 0%N pa = Ok (Some i) /\
  exists am', a_vm_set am i x = Ok (am', v) /\
    snd (vm_set (root m) (mkvmut pfx pa None) x) = inl v /\
    Rep am' (mkmap (fst (vm_set (root m) (mkvmut pfx pa None) x)) (al m)) /\
    minv (mkmap (fst (vm_set (root m) (mkvmut pfx pa None) x)) (al m)).
Proof.
  intros R M S. destruct (Rep_subst am m pa i p v l r (Some x) R M S) as (W & Hs & R' & M').
  split; [exact W|]. unfold Arena2.a_vm_set. rewrite (rd_ok _ _ _ Hs). cbn [rbind].
  rewrite (wr_ok _ Hs). cbn [rbind npfx nval nleft nright]. eexists. split; [reflexivity|].
  unfold vm_set, vm_tree. cbn [mvirt mpath fst snd]. rewrite S. cbn [set_tval tval]. auto.
Qed.

Theorem vm_remove_sim am m pa i p v l r : Rep am m -> minv m ->
  subtree (root m) pa = Node i p v l r ->
  a_vm_walk (tbl am) 0%N pa = Ok (Some i) /\
  exists am', a_vm_remove am i = Ok (am', snd (vm_remove (root m) (mkvmut pfx pa None))) /\
    Rep am' (mkmap (fst (vm_remove (root m) (mkvmut pfx pa None))) (al m)) /\
    minv (mkmap (fst (vm_remove (root m) (mkvmut pfx pa None))) (al m)).
Proof.
  intros R M S. destruct (Rep_subst am m pa i p v l r None R M S) as (W & Hs & R' & M').
  split; [exact W|]. unfold Arena2.a_vm_remove. rewrite (rd_ok _ _ _ Hs). cbn [rbind].
  rewrite (wr_ok _ Hs). cbn [rbind npfx nval nleft nright].
  unfold vm_remove, vm_tree. cbn [mvirt mpath fst snd]. rewrite S. cbn [set_tval tval]. eauto.
Qed.

Theorem vm_value_mut_sim am m pa g i p v l r : Rep am m -> minv m ->
  subtree (root m) pa = Node i p v l r ->
  a_vm_walk (tbl am) 0%N pa = Ok (Some i) /\
  exists am', a_vm_value_mut am i g = Ok (am', snd (vm_value_mut (root m) (mkvmut pfx pa None) g)) /\
    Rep am' (mkmap (fst (vm_value_mut (root m) (mkvmut pfx pa None) g)) (al m)) /\
    minv (mkmap (fst (vm_value_mut (root m) (mkvmut pfx pa None) g)) (al m)).
Proof.
  intros R M S. destruct (Rep_subst am m pa i p v l r (option_map g v) R M S) as (W & Hs & R' & M').
  split; [exact W|]. unfold Arena2.a_vm_value_mut. rewrite (rd_ok _ _ _ Hs). cbn [rbind].
  rewrite (wr_ok _ Hs). cbn [rbind npfx nval nleft nright].
  unfold vm_value_mut, vm_tree. cbn [mvirt mpath fst snd]. rewrite S. cbn [set_tval tval Trie.pv].
  unfold Arena.prefix_value. cbn [nval npfx]. eauto.
Qed.

(** A frame of [_retain] runs the left child's frame, then the right child's ([a_rstep]), then looks
    at the node's own value ([a_tail]).  [drop_flag]: a flag coming from below the node is not passed
    on to the node's caller. *)
Definition drop_flag (r : res (Arena2.rres pfx V)) : res (Arena2.rres pfx V) :=
  r' <- r ;; let '(a, l, s) := r' in Ok (a, l, match s with RPanic => RPanic | RDone _ => RDone false end).

(** the right child [o], after the left child's frame reported [idx_removed]: if the node [idx] went
    with its left child, the right child runs in the node's position (same holders) and its flag is
    the frame's; otherwise it runs below [idx] and its flag is dropped *)
Definition a_rstep (fu : nat) (f : nat -> pfx -> V -> option bool) (am1 : amap) (log1 : list (pfx * V))
           (idx : N) (par : option N) (par_right : bool) (grp : option N) (grp_right : bool)
           (idx_removed : bool) (o : option N) : res (Arena2.rres pfx V) :=
  match o with
  | Some rg =>
    if idx_removed then a_retain_rec fu f am1 log1 rg par par_right grp grp_right
    else r <- a_retain_rec fu f am1 log1 rg (Some idx) true par par_right ;;
         let '(a, l, s) := r in Ok (a, l, match s with RPanic => RPanic | RDone _ => RDone false end)
  | None => Ok (am1, log1, RDone false)
  end.

(** the node's own value: kept, or taken out by [_remove_node] (whose flag is then the frame's), or
    the closure panics; a node without value passes [par_removed] on *)
Definition a_tail (f : nat -> pfx -> V -> option bool) (am2 : amap) (log2 : list (pfx * V))
           (idx : N) (par : option N) (par_right : bool) (grp : option N) (grp_right : bool)
           (par_removed : bool) : res (Arena2.rres pfx V) :=
  n3 <- rd (tbl am2) idx ;;
  match nval n3 with
  | Some val =>
    match f (length log2) (npfx n3) val with
    | None => Ok (am2, log2, RPanic)
    | Some true => Ok (am2, (npfx n3, val) :: log2, RDone par_removed)
    | Some false =>
      '(am3, _, par_del) <- a_remove_node am2 idx par par_right grp grp_right ;;
      Ok (am3, (npfx n3, val) :: log2, RDone par_del)
    end
  | None => Ok (am2, log2, RDone par_removed)
  end.

Lemma retain_unfold fu f am log idx par pr grp gr :
  a_retain_rec (S fu) f am log idx par pr grp gr =
  (n1 <- rd (tbl am) idx ;;
   r1 <- match nleft n1 with
         | Some lf => a_retain_rec fu f am log lf (Some idx) false par pr
         | None => Ok (am, log, RDone false)
         end ;;
   let '(am1, log1, st1) := r1 in
   match st1 with
   | RPanic => Ok (am1, log1, RPanic)
   | RDone idx_removed =>
     n2 <- rd (tbl am1) idx ;;
     r2 <- a_rstep fu f am1 log1 idx par pr grp gr idx_removed (nright n2) ;;
     let '(am2, log2, st2) := r2 in
     match st2 with
     | RPanic => Ok (am2, log2, RPanic)
     | RDone par_removed => a_tail f am2 log2 idx par pr grp gr par_removed
     end
   end).
Proof. reflexivity. Qed.

Lemma rstep_true fu f am1 log1 idx par pr grp gr o :
  a_rstep fu f am1 log1 idx par pr grp gr true o
  = match o with
    | Some rg => a_retain_rec fu f am1 log1 rg par pr grp gr
    | None => Ok (am1, log1, RDone false)
    end.
Proof. destruct o; reflexivity. Qed.

Lemma rstep_false fu f am1 log1 idx par pr grp gr o :
  a_rstep fu f am1 log1 idx par pr grp gr false o
  = drop_flag match o with
              | Some rg => a_retain_rec fu f am1 log1 rg (Some idx) true par pr
              | None => Ok (am1, log1, RDone false)
              end.
Proof. destruct o; reflexivity. Qed.

Lemma rstep_node fu f am1 log1 idx par pr grp gr (t : tree) :
  a_rstep fu f am1 log1 idx par pr grp gr (is_node t) (link t)
  = match link t with
    | Some rg => a_retain_rec fu f am1 log1 rg par pr grp gr
    | None => Ok (am1, log1, RDone false)
    end.
Proof. destruct t; reflexivity. Qed.

(** the frame of [_retain] at the root of [c], in any position *)
Definition node_spec (f : nat -> pfx -> V -> option bool) (c : tree) : Prop :=
  forall fuel tb fr al cnt log h hr hv g gr,
  hung tb h hr hv g gr c -> (height c <= fuel)%nat ->
  forall c' st a' log', ret f (is_some h) c (mkalloc fr al cnt, log) = (c', st, (a', log')) ->
  let coll := match st with RDone fl => fl && (is_some g && is_none hv) | RPanic => false end in
  exists tb' flag,
    match link c with
    | Some j => a_retain_rec fuel f (mkamap tb fr cnt) log j h hr g gr
    | None => Ok (mkamap tb fr cnt, log, RDone false)
    end = Ok (mkamap tb' (free (ahead coll h a')) (count a'), log',
              match st with RDone _ => RDone flag | RPanic => RPanic end) /\
    npost tb tb' h hr g gr c c' coll flag.

(** By induction on [c]: the frame of the left child, that of the right child, then the node's own
    value.  Each child's frame yields a [swap] below the node, lifted to a [swap] at the node
    ([swap_lift]), or reports the collapse of the node ([coll_lift]: a [swap] for the other child);
    in that case the code reads the node's stale slot again. *)
Lemma ret_frame f : forall c, node_spec f c.
Proof.
  induction c as [|i p v l IHl r IHr]; unfold node_spec;
    intros fuel tb fr al cnt log h hr hv g gr HU Hf c' st a' log' H.
  - cbn [Trie.ret] in H. injection H as <- <- <- <-. cbn [ArenaThm.link andb ahead]. exists tb, false.
    split; [reflexivity|]. split; [exact (swap_refl HU)|reflexivity].
  - destruct fuel as [|fu]; [inversion Hf|].
    pose proof (height_child false Hf : (height l <= fu)%nat) as Hfl.
    pose proof (height_child true Hf : (height r <= fu)%nat) as Hfr.
    pose proof HU as (R & ND & _). pose proof (rep_node_inv _ _ _ _ _ _ _ R) as (_ & Hs & _).
    cbn [ArenaThm.link]. rewrite retain_unfold. cbn [tbl]. rewrite (rd_ok _ _ _ Hs). cbn [rbind nleft].
    cbn [Trie.ret] in H.
    destruct (ret f true l (mkalloc fr al cnt, log)) as [[l' sl] [a_l log_l]] eqn:RL.
    destruct (IHl fu tb fr al cnt log (Some i) false v h hr (hung_child false HU)
                  Hfl _ _ _ _ RL) as (tb1 & flag1 & E1 & NP1).
    rewrite E1. cbn [rbind]. clear E1.
    destruct sl as [fl|].
    2:{ (* the closure panics below the left child *)
      injection H as <- <- <- <-. destruct NP1 as (SW1 & _). exists tb1, false. split; [reflexivity|].
      split; [exact (swap_lift false l' HU SW1)|reflexivity]. }
    destruct a_l as [frl all cntl]. cbn [is_some is_none negb] in NP1. 
    destruct (fl && (is_some h && is_none v)) eqn:B.
    + (* the node is collapsed by the removal of its left child: the right child runs in its place *)
      destruct (coll_lift false HU NP1) as (SW1 & -> & (n1 & Hn1 & Hn1v & Hn1c)).
      cbn [ArenaThm.ssel negb] in SW1, Hn1c |- *.
      pose proof (swap_hung HU SW1) as HU1.
      apply andb_prop in B. destruct B as (_ & B). apply andb_prop in B. destruct B as (Bh & Bv).
      cbn [tbl ahead free count Trie.push_free]. rewrite (rd_ok _ _ _ Hn1). cbn [rbind].
      change (nright n1) with (child_of n1 true). rewrite Hn1c, rstep_node.
      cbn [fst snd Trie.push_free free alen count] in H.
      destruct (IHr fu tb1 (i :: frl) all cntl log_l h hr hv g gr HU1 Hfr _ _ _ _ H) as (tb2 & flag2 & E2 & NP2).
      rewrite E2. cbn [rbind]. clear E2. exists tb2, flag2. split; [|exact (npost_trans HU SW1 NP2)].
      destruct st as [b|]; [|reflexivity].
      destruct (nodup_node_rt true ND) as (NIr & _).
      destruct (hung_off i HU Bh) as (Nh & Ng); [cbn; auto|].
      unfold a_tail. cbn [tbl].
      rewrite (rd_ok _ _ n1) by (rewrite (npost_frame i NP2 NIr Nh Ng); exact Hn1).
      cbn [rbind]. rewrite Hn1v. destruct v; [discriminate|reflexivity].
    + (* the node still stands after its left child *)
      destruct NP1 as (SW1' & ->).
      pose proof (swap_lift false l' HU SW1') as SW1. cbn [Trie.with_child] in SW1.
      pose proof (swap_hung HU SW1) as HU1. pose proof HU1 as (R1 & _).
      pose proof (rep_node_inv _ _ _ _ _ _ _ R1) as (_ & Hs1 & _).
      cbn [tbl ahead free count]. rewrite (rd_ok _ _ _ Hs1). cbn [rbind nright]. rewrite rstep_false.
      destruct (ret f true r (mkalloc frl all cntl, log_l)) as [[r' sr] [a_r log_r]] eqn:RR.
      destruct (IHr fu tb1 frl all cntl log_l (Some i) true v h hr (hung_child true HU1)
                    Hfr _ _ _ _ RR) as (tb2 & flag2 & E2 & NP2).
      rewrite E2. cbn [drop_flag rbind]. clear E2.
      destruct sr as [fg|].
      2:{ (* the closure panics below the right child *)
        injection H as <- <- <- <-. destruct NP2 as (SW2 & _). exists tb2, false. split; [reflexivity|].
        split; [|reflexivity].
        exact (swap_trans SW1 (swap_lift true r' HU1 SW2)). }
      destruct a_r as [frr alr cntr]. cbn [is_some is_none negb] in NP2.
      destruct (fg && (is_some h && is_none v)) eqn:B2.
      * (* the node is collapsed by the removal of its right child; the flag is dropped *)
        destruct (coll_lift true HU1 NP2) as (SW2 & _ & (n2 & Hn2 & Hn2v & _)).
        cbn [ArenaThm.ssel] in SW2.
        apply andb_prop in B2. destruct B2 as (_ & B2). apply andb_prop in B2. destruct B2 as (_ & Bv).
        injection H as <- <- <- <-. cbn [andb ahead fst snd Trie.push_free free count]. exists tb2, false. split.
        { unfold a_tail. cbn [tbl]. rewrite (rd_ok _ _ _ Hn2). cbn [rbind]. rewrite Hn2v.
          destruct v; [discriminate|reflexivity]. }
        split; [exact (swap_trans SW1 SW2)|reflexivity].
      * (* the node still stands: its own value *)
        destruct NP2 as (SW2' & ->).
        pose proof (swap_trans SW1 (swap_lift true r' HU1 SW2')) as SW2.
        cbn [Trie.with_child] in SW2.
        pose proof (swap_hung HU SW2) as HU2. pose proof HU2 as (R2 & _).
        pose proof (rep_node_inv _ _ _ _ _ _ _ R2) as (_ & Hs2 & _).
        unfold a_tail. cbn [tbl ahead free count]. rewrite (rd_ok _ _ _ Hs2). cbn [rbind nval npfx].
        cbn [fst snd] in H.
        destruct v as [x|].
        2:{ injection H as <- <- <- <-. exists tb2, false. split; [reflexivity|]. split; [exact SW2|reflexivity]. }
        destruct (f (length log_r) p x) as [[|]|].
        -- injection H as <- <- <- <-. exists tb2, false. split; [reflexivity|]. split; [exact SW2|reflexivity].
        -- destruct (remove_self (is_some h) i p (Some x) l' r' (mkalloc frr alr cntr)) as [[t1 fl1] a1] eqn:RS.
           injection H as <- <- <- <-.
           destruct (remove_node_sim _ _ _ _ _ _ _ _ _ _ _ _ _ _ HU2 _ _ _ RS) as (tb3 & flag3 & E3 & NP3).
           rewrite E3. cbn [rbind]. exists tb3, flag3. split; [reflexivity|].
           exact (npost_trans HU SW2 NP3).
        -- injection H as <- <- <- <-. exists tb2, false. split; [reflexivity|]. split; [exact SW2|reflexivity].
Qed.

Lemma ret_root_sim f fuel tb fr al cnt log i p v l r :
  rep tb (Some i) (Node i p v l r) -> NoDup (ids (Node i p v l r)) ->
  (ArenaThm.height pfx V (Node i p v l r) <= fuel)%nat ->
  forall t' st a' log', ret f false (Node i p v l r) (mkalloc fr al cnt, log) = (t', st, (a', log')) ->
  exists tb', a_retain_rec fuel f (mkamap tb fr cnt) log i None false None false
              = Ok (mkamap tb' (free a') (count a'), log', st) /\
    rep tb' (Some i) t' /\ length tb' = length tb /\ alen a' = al.
Proof.
  intros R ND Hf t' st a' log' H.
  destruct (ret_frame f (Node i p v l r) fuel tb fr al cnt log None false None None false) with (3 := H)
    as (tb' & flag & E & NP); [repeat split; assumption|exact Hf|].
  destruct (Slots.ret_storage pfx V peq contains is_bit_set plen lcp pzero _ _ _ _ _ _ _ _ _ H)
    as (_ & A & _ & _ & B & C).
  cbn [ArenaThm.link] in E. rewrite ahead_none in E. exists tb'.
  assert (NP' : swap tb tb' None false (Node i p v l r) t' /\ flag = false)
    by (destruct st as [b|]; [rewrite andb_false_r in NP|]; apply NP).
  destruct NP' as ((L' & R' & _ & Lk & _) & ->). rewrite Lk in R'.
  split; [|auto]. rewrite E. destruct st as [[|]|]; [|reflexivity..].
  destruct (C eq_refl); [discriminate|]. apply B. reflexivity.
Qed.

Theorem retain_fuel_bound am m f fuel : Rep am m -> minv m -> (length (tbl am) <= fuel)%nat ->
  exists am', a_retain_fuel fuel f am = Ok (am', snd (fst (retain f m)), snd (retain f m)) /\
              Rep am' (fst (fst (retain f m))).
Proof.
  intros R M F. pose proof (Rep_height _ _ R M) as HH. pose proof (slots_nodup _ _ M) as NDt.
  destruct am as [tb fr cnt]. destruct m as [t [fr' al cnt']]. destruct R as (R & Ef & El & Ec).
  cbn [tbl afree acount root Trie.al free alen count] in *. subst fr' cnt'.
  destruct (rep_some_inv _ _ _ R) as (p & v & l & r & ->).
  unfold Trie.retain, Arena2.a_retain_fuel. cbn [root Trie.al].
  destruct (ret f false (Node 0%N p v l r) (mkalloc fr al cnt, [])) as [[t' st] [a' log']] eqn:RT.
  destruct (ret_root_sim f fuel tb fr al cnt [] 0%N p v l r R NDt ltac:(lia) _ _ _ _ RT)
    as (tb' & E & R' & L' & Al).
  rewrite E. cbn [rbind fst snd]. eexists. split; [reflexivity|].
  split; [exact R'|]. cbn [tbl afree acount root Trie.al]. rewrite L', Al. auto.
Qed.

Theorem retain_sim am m f : Rep am m -> minv m ->
  exists am', a_retain f am = Ok (am', snd (fst (retain f m)), snd (retain f m)) /\
              Rep am' (fst (fst (retain f m))).
Proof. intros R M. apply (retain_fuel_bound am m f _ R M). lia. Qed.

Notation rem := (Trie.rem pfx V peq contains is_bit_set plen).
Notation a_step2 := (Arena2.a_step2 pfx V peq contains is_bit_set plen lcp pzero).
Notation t_step2 := (Arena2.t_step2 pfx V peq contains is_bit_set plen lcp pzero).
Notation a_run2_from := (Arena2.a_run2_from pfx V peq contains is_bit_set plen lcp pzero).
Notation a_run2 := (Arena2.a_run2 pfx V peq contains is_bit_set plen lcp pzero).
Notation t_run2_from := (Arena2.t_run2_from pfx V peq contains is_bit_set plen lcp pzero).
Notation t_run2 := (Arena2.t_run2 pfx V peq contains is_bit_set plen lcp pzero).
Notation t_vm := (Arena2.t_vm pfx V).

(** the three view writes are [subst] at the designated node: the slots stay the same *)
Lemma t_vm_minv m pa v' : minv m ->
  minv (t_vm m pa (fun T => subst T pa (set_tval (subtree T pa) v'))).
Proof.
  intros M. unfold Arena2.t_vm. destruct (is_node (subtree (root m) pa)); [|exact M].
  unfold Slots.minv in *. cbn [root Trie.al]. eapply slots_ok_ext; [|reflexivity|reflexivity|exact M].
  apply subst_ids.
Qed.

Lemma t_step2_minv o m : minv m -> minv (t_step2 o m).
Proof.
  intros M. destruct o as [o| |q|f|q x|q|q g|q g|pa x|pa|pa g]; cbn [Arena2.t_step2].
  - apply (ArenaThm.t_step_minv pfx V peq contains is_bit_set plen lcp pzero); exact M.
  - apply (Slots.clear_minv pfx V pzero).
  - apply (Slots.remove_children_minv pfx V peq contains is_bit_set plen lcp pzero); exact M.
  - apply (Slots.retain_minv pfx V peq contains is_bit_set plen lcp pzero); exact M.
  - unfold Arena2.t_entry_insert. destruct (get (root m) q); cbn [fst].
    + apply (Slots.occ_insert_minv pfx V peq contains is_bit_set plen); exact M.
    + apply (Slots.vacant_insert_minv pfx V peq contains is_bit_set plen lcp pzero); exact M.
  - unfold Arena2.t_entry_remove. destruct (get (root m) q); cbn [fst]; [apply (Slots.occ_remove_minv pfx V peq contains is_bit_set plen)|]; exact M.
  - apply update_value_minv; exact M.
  - apply update_value_minv; exact M.
  - apply t_vm_minv; exact M.
  - apply t_vm_minv; exact M.
  - apply t_vm_minv; exact M.
Qed.

Lemma vm_step_sim am m pa (k : N -> res amap) (op : tree -> tree) :
  Rep am m -> minv m ->
  (forall i p v l r, subtree (root m) pa = Node i p v l r ->
     exists am', k i = Ok am' /\ Rep am' (mkmap (op (root m)) (al m))) ->
  exists am', (o <- a_vm_walk (tbl am) 0%N pa ;; match o with Some idx => k idx | None => Ok am end) = Ok am' /\
              Rep am' (t_vm m pa op).
Proof.
  intros R M K. rewrite (vm_walk_sim pa (root m) (tbl am) 0%N (proj1 R)). cbn [rbind].
  unfold Arena2.t_vm. destruct (subtree (root m) pa) as [|i p v l r] eqn:S; cbn [ArenaThm.link is_node].
  - eauto.
  - apply (K i p v l r eq_refl).
Qed.

Theorem step2_sim_guard o am m : Rep am m -> minv m ->
  (forall q, o = ARemChildren q -> rc_guard m q) ->
  exists am', a_step2 o am = Ok am' /\ Rep am' (t_step2 o m).
Proof.
  intros R M G.
  destruct o as [o| |q|f|q x|q|q g|q g|pa x|pa|pa g]; cbn [Arena2.a_step2 Arena2.t_step2].
  - destruct (ArenaThm.step_sim pfx V peq contains is_bit_set plen lcp pzero o am m R M) as (am' & E & R' & _). eauto.
  - eexists. split; [reflexivity|apply clear_sim].
  - apply remove_children_sim; auto.
  - destruct (retain_sim am m f R M) as (am' & E & R'). rewrite E. cbn [rbind]. eauto.
  - destruct (entry_insert_sim am m q x R M) as (am' & E & R'). rewrite E. cbn [rbind]. eauto.
  - destruct (entry_remove_sim am m q R M) as (am' & E & R'). rewrite E. cbn [rbind]. eauto.
  - apply entry_and_modify_sim; auto.
  - apply get_mut_sim; auto.
  - apply vm_step_sim; auto. intros i p v l r S.
    destruct (vm_set_sim am m pa x i p v l r R M S) as (_ & am' & E & _ & R' & _).
    rewrite E. cbn [rbind]. eauto.
  - apply vm_step_sim; auto. intros i p v l r S.
    destruct (vm_remove_sim am m pa i p v l r R M S) as (_ & am' & E & R' & _).
    rewrite E. cbn [rbind]. eauto.
  - apply vm_step_sim; auto. intros i p v l r S.
    destruct (vm_value_mut_sim am m pa g i p v l r R M S) as (_ & am' & E & R' & _).
    rewrite E. cbn [rbind]. eauto.
Qed.

Theorem Rep_total2 am m q x f g : Rep am m -> minv m ->
  (rc_guard m q -> exists am', a_remove_children am q = Ok am') /\
  (exists r, a_retain f am = Ok r) /\
  (exists e, a_entry am q = Ok e) /\
  (exists r, a_entry_insert am q x = Ok r) /\
  (exists r, a_entry_remove am q = Ok r) /\
  (exists am', a_entry_and_modify am q g = Ok am') /\
  (exists am', a_get_mut am q g = Ok am') /\
  (forall fuel, (length (tbl am) <= fuel)%nat ->
     (rc_guard m q -> exists am', a_remove_children_fuel fuel fuel am q = Ok am') /\
     (exists r, a_retain_fuel fuel f am = Ok r) /\
     (exists e, a_entry_loop fuel (tbl am) 0%N q = Ok e) /\
     (exists tb', a_get_mut_loop fuel (tbl am) 0%N q g = Ok tb')).
Proof.
  intros R M.
  split; [intros G; destruct (remove_children_sim am m q R M G) as (? & -> & _); eauto|].
  split; [destruct (retain_sim am m f R M) as (? & -> & _); eauto|].
  assert (EN : forall fuel, (length (tbl am) <= fuel)%nat -> exists e, a_entry_loop fuel (tbl am) 0%N q = Ok e).
  { intros fuel F. pose proof (entry_fuel_bound am m q fuel R M F) as E.
    destruct (get_node (root m) q) as [[[j pj] [y|]]|]; [eauto|destruct E as (? & ? & ->); eauto..]. }
  split; [apply EN; lia|].
  split; [destruct (entry_insert_sim am m q x R M) as (? & -> & _); eauto|].
  split; [destruct (entry_remove_sim am m q R M) as (? & -> & _); eauto|].
  split; [destruct (entry_and_modify_sim am m q g R M) as (? & -> & _); eauto|].
  split; [destruct (get_mut_sim am m q g R M) as (? & -> & _); eauto|].
  intros fuel F.
  split; [intros G; destruct (remove_children_fuel_bound am m q fuel fuel R M G F F) as (? & -> & _); eauto|].
  split; [destruct (retain_fuel_bound am m f fuel R M F) as (? & -> & _); eauto|].
  split; [apply EN; exact F|].
  destruct (get_mut_fuel_bound am m q g fuel R M F) as (? & -> & _); eauto.
Qed.

(** * Histories over the extended alphabet, from the empty map

    [remove_children] compares its selector with the root's key through [peq]; the tree model
    diverts only the zero-length selector, so the histories carry the invariant [rootz] (the root's
    key has length 0), from which the guard [rc_guard] follows for every selector ([rootz_guard]).
    Keeping it and using it need two facts about the prefix operations: equal prefixes have equal
    lengths, and [zero()] has length 0.  The second follows from [Laws.prefix_laws]; the first does so for valid
    prefixes only ([ArenaProps.peq_len_ok]) and holds outright for [PrefixN] ([peqN_len] below). *)
Section Hist.
Hypothesis PEQ_LEN : forall p q, peq p q = true -> plen p = plen q.
Hypothesis ZERO_LEN : plen pzero = 0%N.

(** the invariant of histories that stands behind [rc_guard] *)
Definition rootz (m : pmap) : Prop := plen (tpfx (root m)) = 0%N.

Lemma rootz_guard m q : rootz m -> rc_guard m q.
Proof.
  unfold rootz, rc_guard. intros Z NZ. destruct (peq (tpfx (root m)) q) eqn:E; [|reflexivity].
  apply PEQ_LEN in E. rewrite Z in E. rewrite <- E in NZ. discriminate.
Qed.

Lemma tpfx_wc i p v l r rt c : tpfx (with_child i p v l r rt c) = p.
Proof. destruct rt; reflexivity. Qed.

Lemma ins_root t q x a : plen (tpfx (fst (fst (ins t q x a)))) = plen (tpfx t).
Proof.
  destruct t as [|i p v l r]; [reflexivity|]. cbn [Trie.ins]. destruct (peq p q) eqn:E.
  { cbn. symmetry. apply PEQ_LEN. exact E. }
  destruct (if to_right p q then r else l) as [|ci cp cv cl cr].
  { destruct (Trie.new_node a true). cbn [fst]. rewrite tpfx_wc. reflexivity. }
  destruct (contains cp q).
  { destruct (ins (Node ci cp cv cl cr) q x a) as [[c' o] a']. cbn [fst]. rewrite tpfx_wc. reflexivity. }
  destruct (contains q cp).
  { destruct (Trie.new_node a true). cbn [fst]. rewrite tpfx_wc. reflexivity. }
  destruct (Trie.new_node a false) as [b a1]. destruct (Trie.new_node a1 true).
  cbn [fst]. rewrite tpfx_wc. reflexivity.
Qed.

Lemma rem_root t q a : tpfx (fst (fst (fst (rem false t q a)))) = tpfx t.
Proof.
  destruct t as [|i p v l r]; [reflexivity|]. destruct (rem false (Node i p v l r) q a) as [[[t' fl] o] a'] eqn:R.
  destruct (Mutate.shr_root pfx V (Mutate.rem_shr pfx V peq contains is_bit_set plen R) eq_refl _ _ _ _ _ eq_refl)
    as (v' & l' & r' & ->).
  reflexivity.
Qed.

Lemma modify_root t q h :
  (forall p v, peq p q = true -> plen (fst (h p v)) = plen p) ->
  plen (tpfx (modify t q h)) = plen (tpfx t).
Proof.
  intros Hh. destruct t as [|i p v l r]; [reflexivity|]. cbn [Trie.modify]. destruct (peq p q) eqn:E.
  { specialize (Hh p v E). destruct (h p v). exact Hh. }
  destruct (if to_right p q then r else l) as [|ci cp cv cl cr]; [reflexivity|].
  destruct (contains cp q); [|reflexivity]. rewrite tpfx_wc. reflexivity.
Qed.

Lemma rc_root t q a : tpfx (fst (rc t q a)) = tpfx t.
Proof.
  destruct t as [|i p v l r]; [reflexivity|]. cbn [Trie.rc]. destruct (peq p q); [reflexivity|].
  destruct (if to_right p q then r else l) as [|ci cp cv cl cr]; [reflexivity|].
  destruct (contains cp q).
  - destruct (peq cp q).
    + cbn [fst]. rewrite tpfx_wc. reflexivity.
    + destruct (rc (Node ci cp cv cl cr) q a). cbn [fst]. rewrite tpfx_wc. reflexivity.
  - destruct (contains q cp); [|reflexivity]. cbn [fst]. rewrite tpfx_wc. reflexivity.
Qed.

Lemma ret_root f t s : tpfx (fst (fst (ret f false t s))) = tpfx t.
Proof.
  destruct t as [|i p v l r]; [reflexivity|]. destruct (ret f false (Node i p v l r) s) as [[t' st] s'] eqn:R.
  apply Retain.ret_graph_sound in R. destruct (Retain.ret_run pfx V f R) as (cv & rest & S & _).
  destruct (Mutate.shr_root pfx V S eq_refl _ _ _ _ _ eq_refl) as (v' & l' & r' & ->). reflexivity.
Qed.

Lemma subst_root (t : tree) pa v' : is_node (subtree t pa) = true ->
  tpfx (subst t pa (set_tval (subtree t pa) v')) = tpfx t.
Proof.
  destruct t as [|i p v l r]; [rewrite subtree_leaf; discriminate|].
  destruct pa as [|b pa]; [reflexivity|]. intros _. cbn [subst]. destruct b; reflexivity.
Qed.

Lemma t_vm_rootz m pa v' : rootz m ->
  rootz (t_vm m pa (fun T => subst T pa (set_tval (subtree T pa) v'))).
Proof.
  intros Z. unfold Arena2.t_vm. destruct (is_node (subtree (root m) pa)) eqn:IN; [|exact Z].
  unfold rootz. cbn [root]. rewrite subst_root by exact IN. exact Z.
Qed.

Lemma t_step2_rootz o m : rootz m -> rootz (t_step2 o m).
Proof.
  intros Z. destruct o as [o| |q|f|q x|q|q g|q g|pa x|pa|pa g]; cbn [Arena2.t_step2].
  - unfold rootz in *. destruct o; cbn [Arena.t_step].
    + unfold Trie.insert. pose proof (ins_root (root m) q x (al m)) as E.
      destruct (ins (root m) q x (al m)) as [[t o] a]. cbn in *. congruence.
    + unfold Trie.remove. pose proof (rem_root (root m) q (al m)) as E.
      destruct (rem false (root m) q (al m)) as [[[t fl] o] a]. cbn in *. congruence.
    + unfold Trie.remove_keep_tree. cbn [fst root]. rewrite modify_root; [exact Z|reflexivity].
  - exact ZERO_LEN.
  - unfold rootz, Trie.remove_children in *. destruct (plen q =? 0)%N; [exact ZERO_LEN|].
    pose proof (rc_root (root m) q (al m)) as E. destruct (rc (root m) q (al m)). cbn in *. congruence.
  - unfold rootz, Trie.retain in *. pose proof (ret_root f (root m) (al m, [])) as E.
    destruct (ret f false (root m) (al m, [])) as [[t st] [a lg]]. cbn in *. congruence.
  - unfold Arena2.t_entry_insert. destruct (get (root m) q) as [y|] eqn:G; cbn [fst].
    + unfold rootz, Trie.occ_insert in *. cbn [fst root].
      rewrite modify_root; [exact Z|]. intros p0 v0 E. cbn. symmetry. apply PEQ_LEN. exact E.
    + destruct (vacant_insert_insert m q x G) as (-> & _).
      unfold rootz, Trie.insert in *. pose proof (ins_root (root m) q x (al m)) as E.
      destruct (ins (root m) q x (al m)) as [[t o] a]. cbn in *. congruence.
  - unfold Arena2.t_entry_remove. destruct (get (root m) q) as [y|] eqn:G; cbn [fst]; [|exact Z].
    unfold rootz, Trie.occ_remove in *. cbn [fst root]. rewrite modify_root; [exact Z|reflexivity].
  - unfold rootz, Trie.update_value in *. cbn [root]. rewrite modify_root; [exact Z|reflexivity].
  - unfold rootz, Trie.update_value in *. cbn [root]. rewrite modify_root; [exact Z|reflexivity].
  - exact (t_vm_rootz m pa (Some x) Z).
  - exact (t_vm_rootz m pa None Z).
  - exact (t_vm_rootz m pa (option_map g (tval (subtree (root m) pa))) Z).
Qed.

Theorem step2_sim o am m : Rep am m -> minv m -> rootz m ->
  exists am', a_step2 o am = Ok am' /\ Rep am' (t_step2 o m) /\ minv (t_step2 o m) /\ rootz (t_step2 o m).
Proof.
  intros R M Z.
  destruct (step2_sim_guard o am m R M) as (am' & E & R'); [intros q _; apply rootz_guard; exact Z|].
  exists am'. split; [exact E|]. split; [exact R'|]. split; [exact (t_step2_minv o m M)|exact (t_step2_rootz o m Z)].
Qed.

Theorem run2_from_sim ops : forall am m, Rep am m -> minv m -> rootz m ->
  exists am', a_run2_from ops am = Ok am' /\ Rep am' (t_run2_from ops m) /\
              minv (t_run2_from ops m) /\ rootz (t_run2_from ops m).
Proof.
  induction ops as [|o ops IH]; intros am m R M Z; cbn [Arena2.a_run2_from Arena2.t_run2_from].
  - eauto.
  - destruct (step2_sim o am m R M Z) as (am1 & E & R1 & M1 & Z1). rewrite E. cbn [rbind]. apply IH; auto.
Qed.

(** no step of any history over the extended alphabet panics or runs out of fuel, and the arena
    reached represents the tree reached *)
Theorem run_sim2 ops :
  exists am, a_run2 ops = Ok am /\ Rep am (t_run2 ops) /\ minv (t_run2 ops).
Proof.
  destruct (run2_from_sim ops a_empty empty Rep_empty minv_empty ZERO_LEN) as (am & E & R & M & _).
  eauto.
Qed.

Definition reachable2 (am : amap) : Prop := exists ops, a_run2 ops = Ok am.

Theorem reachable2_Rep am : reachable2 am -> exists m, Rep am m /\ minv m /\ rootz m.
Proof.
  intros [ops E].
  destruct (run2_from_sim ops a_empty empty Rep_empty minv_empty ZERO_LEN) as (am' & E' & R & M & Z).
  unfold Arena2.a_run2 in E. rewrite E in E'. injection E' as <-. eauto.
Qed.

(** the structure theorems of [ArenaThm.v] hold in every state reachable with the extended alphabet *)
Corollary reachable_structure2 am : reachable2 am ->
  (forall i, live (tbl am) i -> exists n, slot (tbl am) i = Some n) /\
  (forall i rt j, live (tbl am) i -> edge (tbl am) i rt j -> (j < N.of_nat (length (tbl am)))%N) /\
  (forall i, live (tbl am) i -> ~ In i (afree am)) /\
  (forall i1 rt1 i2 rt2 j, live (tbl am) i1 -> live (tbl am) i2 ->
     edge (tbl am) i1 rt1 j -> edge (tbl am) i2 rt2 j -> i1 = i2 /\ rt1 = rt2) /\
  (forall i rt, live (tbl am) i -> ~ edge (tbl am) i rt 0%N) /\
  (forall i, (i < N.of_nat (length (tbl am)))%N <-> (live (tbl am) i \/ In i (afree am))).
Proof.
  intros H. destruct (reachable2_Rep am H) as (m & R & M & _).
  exact (ArenaThm.Rep_structure pfx V peq contains is_bit_set plen lcp pzero am m R M).
Qed.

(** every operation on a reachable arena state returns [Ok], and the loops and the recursion stop
    within [length tbl] units of fuel ([S (length tbl)] for the freeing loop of [remove_children]
    counts its last test) *)
Corollary reachable_total2 am q x f g : reachable2 am ->
  (exists o, Arena.a_get pfx V peq contains is_bit_set plen am q = Ok o) /\
  (exists o, Arena.a_get_lpm pfx V peq contains is_bit_set plen am q = Ok o) /\
  (exists r, Arena.a_insert pfx V peq contains is_bit_set plen lcp am q x = Ok r) /\
  (exists r, Arena.a_remove pfx V peq contains is_bit_set plen am q = Ok r) /\
  (exists r, Arena.a_remove_keep_tree pfx V peq contains is_bit_set plen am q = Ok r) /\
  (exists es, Arena.a_entries pfx V am = Ok es) /\
  (exists am', a_remove_children am q = Ok am') /\
  (exists r, a_retain f am = Ok r) /\
  (exists e, a_entry am q = Ok e) /\
  (exists r, a_entry_insert am q x = Ok r) /\
  (exists r, a_entry_remove am q = Ok r) /\
  (exists am', a_entry_and_modify am q g = Ok am') /\
  (exists am', a_get_mut am q g = Ok am') /\
  (forall fuel, (length (tbl am) <= fuel)%nat ->
     (exists am', a_remove_children_fuel fuel fuel am q = Ok am') /\
     (exists r, a_retain_fuel fuel f am = Ok r) /\
     (exists e, a_entry_loop fuel (tbl am) 0%N q = Ok e) /\
     (exists tb', a_get_mut_loop fuel (tbl am) 0%N q g = Ok tb')).
Proof.
  intros H. destruct (reachable2_Rep am H) as (m & R & M & Z). pose proof (rootz_guard m q Z) as G.
  destruct (ArenaThm.Rep_total pfx V peq contains is_bit_set plen lcp pzero am m q x R M) as (A1 & A2 & A3 & A4 & A5 & A6 & _).
  destruct (Rep_total2 am m q x f g R M) as (B1 & B2 & B3 & B4 & B5 & B6 & B7 & B8).
  repeat (split; [assumption|]). split; [exact (B1 G)|]. repeat (split; [assumption|]).
  intros fuel F. destruct (B8 fuel F) as (C1 & C2). split; [exact (C1 G)|exact C2].
Qed.

End Hist.

End A2T.

(** the two facts about the prefix operations hold for the concrete model of [src/prefix.rs]
    ([PrefixN.v], any width and flavour): the history theorem without hypotheses *)
From PT Require PrefixN.

Lemma peqN_len w p q : PrefixN.peq w p q = true -> PrefixN.plen p = PrefixN.plen q.
Proof. unfold PrefixN.peq. intros H. apply andb_prop in H. destruct H as [_ H]. apply N.eqb_eq. exact H. Qed.

Corollary run_sim2_N (V : Type) (w : N) (fl : PrefixN.flavour) (ops : list (aop2 PrefixN.pfx V)) :
  let peq := PrefixN.peq w in let con := PrefixN.contains w fl in let bit := PrefixN.is_bit_set w in
  let lcp := PrefixN.lcp w fl in
  exists am, a_run2 PrefixN.pfx V peq con bit PrefixN.plen lcp PrefixN.pzero ops = Ok am /\
    ArenaThm.Rep PrefixN.pfx V am (t_run2 PrefixN.pfx V peq con bit PrefixN.plen lcp PrefixN.pzero ops) /\
    Slots.minv PrefixN.pfx V (t_run2 PrefixN.pfx V peq con bit PrefixN.plen lcp PrefixN.pzero ops).
Proof. intros peq con bit lcp. apply run_sim2; [apply peqN_len|reflexivity]. Qed.

Print Assumptions clear_sim.
Print Assumptions free_loop_sim.
Print Assumptions remove_children_fuel_bound.
Print Assumptions remove_children_sim.
Print Assumptions retain_fuel_bound.
Print Assumptions retain_sim.
Print Assumptions entry_fuel_bound.
Print Assumptions vacant_insert_sim.
Print Assumptions occ_insert_sim.
Print Assumptions occ_remove_sim.
Print Assumptions occ_update_sim.
Print Assumptions occ_reuse_panics.
Print Assumptions entry_insert_sim.
Print Assumptions entry_remove_sim.
Print Assumptions entry_and_modify_sim.
Print Assumptions get_mut_fuel_bound.
Print Assumptions get_mut_sim.
Print Assumptions vm_set_sim.
Print Assumptions vm_remove_sim.
Print Assumptions vm_value_mut_sim.
Print Assumptions step2_sim.
Print Assumptions run_sim2.
Print Assumptions reachable_structure2.
Print Assumptions reachable_total2.
Print Assumptions run_sim2_N.
