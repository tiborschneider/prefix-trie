(** The concrete prefix operations of [PrefixN] satisfy the abstract laws of [Laws], at every
    width and for each of the three flavours.  No axioms. *)
From Coq Require Import List NArith Bool Lia ZifyN ZifyBool ZifyNat.
From PT Require Import Bits BitsThm PrefixN Laws.
Import ListNotations.
Local Open Scope N_scope.

Lemma prefix_of_nth (a b : list bool) :
  prefix_of a b <->
  ((length a <= length b)%nat /\ forall i, (i < length a)%nat -> nth i a false = nth i b false).
Proof.
  split.
  - intros [r ->]. split.
    + rewrite app_length. lia.
    + intros i Hi. rewrite app_nth1 by exact Hi. reflexivity.
  - revert b. induction a as [|x a IH]; intros b [Hl Hn].
    + exists b. reflexivity.
    + destruct b as [|y b]; [cbn in Hl; lia|].
      assert (Hxy : x = y) by (apply (Hn 0%nat); cbn; lia).
      destruct (IH b) as [r Hr].
      * split; [cbn in Hl; lia|]. intros i Hi. apply (Hn (S i)). cbn. lia.
      * exists r. subst. reflexivity.
Qed.

Lemma common_char (l a b : list bool) :
  prefix_of l a -> prefix_of l b ->
  (length l = length a \/ length l = length b \/
   nth (length l) a false <> nth (length l) b false) ->
  l = common a b.
Proof.
  revert a b. induction l as [|x l IH]; intros a b [ra ->] [rb ->] H.
  - cbn in *. destruct ra as [|u ra]; [reflexivity|].
    destruct rb as [|v rb]; [reflexivity|]. cbn.
    destruct H as [H|[H|H]]; try discriminate H.
    destruct u, v; cbn in *; try reflexivity; exfalso; apply H; reflexivity.
  - cbn. rewrite Bool.eqb_reflx. f_equal. apply IH.
    + exists ra. reflexivity.
    + exists rb. reflexivity.
    + cbn in H. destruct H as [H|[H|H]]; [left|right;left|right;right]; first [lia | exact H].
Qed.

Lemma existsb_id_false (l : list bool) :
  (forall i, nth i l false = false) -> existsb (fun x => x) l = false.
Proof.
  induction l as [|x l IH]; intros H; [reflexivity|].
  cbn. rewrite (H 0%nat : x = false). cbn. apply IH. intros i. apply (H (S i)).
Qed.

Lemma existsb_id_true (l : list bool) i :
  nth i l false = true -> existsb (fun x => x) l = true.
Proof.
  revert i. induction l as [|x l IH]; intros i H.
  - destruct i; discriminate.
  - destruct i as [|i]; cbn in *.
    + rewrite H. reflexivity.
    + rewrite (IH i H). apply orb_true_r.
Qed.

Lemma bcmp_eq (a b : list bool) :
  (forall i, nth i a false = nth i b false) -> bcmp a b = Eq.
Proof.
  revert b. induction a as [|x a IH]; intros b H.
  - cbn. rewrite existsb_id_false; [reflexivity|].
    intros i. rewrite <- H. destruct i; reflexivity.
  - destruct b as [|y b].
    + cbn [bcmp]. rewrite existsb_id_false; [reflexivity|].
      intros i. rewrite H. destruct i; reflexivity.
    + cbn [bcmp]. pose proof (H 0%nat) as H0. cbn in H0. subst y.
      assert (bcmp a b = Eq) as -> by (apply IH; intros i; apply (H (S i))).
      destruct x; reflexivity.
Qed.

Lemma bcmp_first_diff (a b : list bool) i :
  (forall j, (j < i)%nat -> nth j a false = nth j b false) ->
  nth i a false <> nth i b false ->
  bcmp a b = if nth i a false then Gt else Lt.
Proof.
  revert b i. induction a as [|x a IH]; intros b i H Hd.
  - replace (nth i [] false) with false in * by (destruct i; reflexivity).
    cbn. rewrite (existsb_id_true b i); [reflexivity|]. destruct (nth i b false); congruence.
  - destruct b as [|y b].
    + replace (nth i [] false) with false in Hd by (destruct i; reflexivity).
      apply not_false_is_true in Hd. cbn [bcmp]. rewrite (existsb_id_true _ i Hd), Hd. reflexivity.
    + destruct i as [|i]; cbn [nth] in *.
      * destruct x, y; congruence || reflexivity.
      * rewrite <- (IH b i); [|intros j Hj; apply (H (S j)); lia | exact Hd].
        pose proof (H 0%nat ltac:(lia)) as H0. cbn in H0. subst y. destruct x; reflexivity.
Qed.

Lemma pow2_pos n : 0 < 2 ^ n.
Proof. apply N.neq_0_lt_0. apply N.pow_nonzero. lia. Qed.

Lemma low_lt n x : (forall i, n <= i -> N.testbit x i = false) -> x < 2 ^ n.
Proof.
  intros H. destruct (N.eq_dec x 0) as [->|Hx]; [apply pow2_pos|].
  apply N.log2_lt_pow2; [lia|].
  destruct (N.lt_ge_cases (N.log2 x) n) as [Hl|Hl]; [exact Hl|].
  pose proof (N.bit_log2 x Hx) as Hb. rewrite (H _ Hl) in Hb. discriminate.
Qed.

Lemma lt_high n x i : x < 2 ^ n -> n <= i -> N.testbit x i = false.
Proof.
  intros Hx Hi. destruct (N.eq_dec x 0) as [->|Hx0]; [apply N.bits_0|].
  apply N.bits_above_log2. apply N.log2_lt_pow2 in Hx; lia.
Qed.

Lemma ones_bits n i : N.testbit (N.ones n) i = (i <? n).
Proof.
  destruct (N.ltb_spec i n); [apply N.ones_spec_low|apply N.ones_spec_high]; assumption.
Qed.

Lemma lt_by_bit x y k :
  (forall j, k < j -> N.testbit x j = N.testbit y j) ->
  N.testbit x k = false -> N.testbit y k = true -> x < y.
Proof.
  intros H Hx Hy.
  destruct (N.lt_ge_cases x y) as [|Hge]; [assumption|exfalso].
  apply (N.div_le_mono _ _ (2 ^ k)) in Hge; [|apply N.pow_nonzero; lia].
  rewrite (N.div2_odd (x / 2 ^ k)), (N.div2_odd (y / 2 ^ k)) in Hge.
  rewrite <- !N.bit0_odd, !N.div_pow2_bits, N.add_0_l, Hx, Hy in Hge.
  replace (N.div2 (x / 2 ^ k)) with (N.div2 (y / 2 ^ k)) in Hge; [cbn [N.b2n] in Hge; lia|].
  apply N.bits_inj. intros i. rewrite <- !N.testbit_succ_r_div2, !N.div_pow2_bits by apply N.le_0_l.
  symmetry. apply H. lia.
Qed.

Lemma compare_by_bit x y k :
  (forall j, k < j -> N.testbit x j = N.testbit y j) -> N.testbit x k <> N.testbit y k ->
  (x ?= y) = if N.testbit x k then Gt else Lt.
Proof.
  intros H Hk. destruct (N.testbit x k) eqn:Bx, (N.testbit y k) eqn:By; try congruence.
  - apply N.compare_gt_iff, (lt_by_bit y x k); auto. intros j Hj. symmetry. auto.
  - apply N.compare_lt_iff, (lt_by_bit x y k); auto.
Qed.

Lemma diff_bit x y : x <> y ->
  let L := N.log2 (N.lxor x y) in
  (forall j, L < j -> N.testbit x j = N.testbit y j) /\ N.testbit x L <> N.testbit y L.
Proof.
  intros Hne. assert (E : N.lxor x y <> 0) by (intros E; apply N.lxor_eq in E; auto).
  split.
  - intros j Hj. apply Bool.xorb_eq. rewrite <- N.lxor_spec.
    apply N.bits_above_log2. exact Hj.
  - pose proof (N.bit_log2 _ E) as Hb. rewrite N.lxor_spec in Hb.
    intros Heq. rewrite Heq, xorb_nilpotent in Hb. discriminate.
Qed.

Lemma diff_lt n x y L : x < 2 ^ n -> y < 2 ^ n -> N.testbit x L <> N.testbit y L -> L < n.
Proof.
  intros Hx Hy HL. destruct (N.lt_ge_cases L n) as [|Hge]; [assumption|]. exfalso. apply HL.
  rewrite (lt_high n x L Hx Hge), (lt_high n y L Hy Hge). reflexivity.
Qed.

Section W.
Variable w : N.
Notation mask := (mask_from_len w).

(** the mask keeps the [len] leading of the [w] low bits (all [w] of them when [len > w]) *)
Lemma mask_bits_all len i : N.testbit (mask len) i = ((w - len <=? i) && (i <? w))%bool.
Proof.
  unfold mask_from_len, wnot, ones.
  destruct (N.eqb_spec len w) as [->|Hne].
  - rewrite N.sub_diag, ones_bits. destruct i; reflexivity.
  - destruct (N.eqb_spec len 0) as [->|Hz].
    + rewrite N.bits_0, N.sub_0_r.
      destruct (N.leb_spec w i); destruct (N.ltb_spec i w); try reflexivity; lia.
    + rewrite N.lxor_spec, N.shiftr_spec', !ones_bits.
      destruct (N.ltb_spec i w); [|rewrite andb_false_r; replace (i + len <? w) with false by lia; reflexivity].
      destruct (N.leb_spec (w - len) i); [replace (i + len <? w) with false by lia|replace (i + len <? w) with true by lia]; reflexivity.
Qed.

(** [mask_bits_all]; the hypothesis is not used *)
Lemma mask_bits len i :
  len <= w -> N.testbit (mask len) i = ((w - len <=? i) && (i <? w))%bool.
Proof. intros _. apply mask_bits_all. Qed.

Lemma mask_bits_in len i : w - len <= i -> i < w -> N.testbit (mask len) i = true.
Proof.
  intros H1 H2. rewrite mask_bits_all.
  apply andb_true_intro. split; [apply N.leb_le|apply N.ltb_lt]; assumption.
Qed.

Lemma valid_iff p : valid w p = true <-> plen p <= w /\ repr p < 2 ^ w.
Proof. unfold valid. rewrite andb_true_iff, N.leb_le, N.ltb_lt. reflexivity. Qed.

Lemma pmask_bits p i :
  N.testbit (pmask w p) i =
  (N.testbit (repr p) i && ((w - plen p <=? i) && (i <? w)))%bool.
Proof. unfold pmask. rewrite N.land_spec, mask_bits_all. reflexivity. Qed.

Lemma pmask_host_zero p i : i < w - plen p -> N.testbit (pmask w p) i = false.
Proof.
  intros Hi. rewrite pmask_bits.
  replace (w - plen p <=? i) with false by lia. cbn [andb]. apply andb_false_r.
Qed.

Lemma land_mask_lt x len : N.land x (mask len) < 2 ^ w.
Proof.
  apply low_lt. intros i Hi. rewrite N.land_spec, mask_bits_all.
  replace (i <? w) with false by lia. rewrite !andb_false_r. reflexivity.
Qed.

(** [a] and [b] have the same [n] leading bits *)
Definition agree (n a b : N) :=
  forall i, w - n <= i -> i < w -> N.testbit a i = N.testbit b i.

Lemma land_mask_agree n a b : N.land a (mask n) = N.land b (mask n) <-> agree n a b.
Proof.
  split.
  - intros H i H1 H2. apply (f_equal (fun x => N.testbit x i)) in H.
    rewrite !N.land_spec, mask_bits_in, !andb_true_r in H by assumption. exact H.
  - intros H. apply N.bits_inj. intros i. rewrite !N.land_spec, mask_bits_all.
    destruct (N.leb_spec (w - n) i); destruct (N.ltb_spec i w); cbn [andb];
      rewrite ?andb_false_r; try reflexivity.
    rewrite !andb_true_r. apply H; assumption.
Qed.

(** [land_mask_agree]; the hypothesis is not used *)
Lemma land_mask_eq n a b :
  n <= w -> (N.land a (mask n) = N.land b (mask n) <-> agree n a b).
Proof. intros _. apply land_mask_agree. Qed.

Lemma agree_land_mask n x : agree n (N.land x (mask n)) x.
Proof.
  intros i H1 H2. rewrite N.land_spec, mask_bits_in by assumption. apply andb_true_r.
Qed.

Lemma agree_le n m a b : n <= m -> agree m a b -> agree n a b.
Proof. intros H Ha i H1 H2. apply Ha; lia. Qed.

Lemma agree_sym n a b : agree n a b -> agree n b a.
Proof. intros H i H1 H2. symmetry. apply H; assumption. Qed.

Lemma agree_trans n a b c : agree n a b -> agree n b c -> agree n a c.
Proof. intros H1 H2 i Hi Hj. rewrite H1, H2 by assumption. reflexivity. Qed.

Lemma lz_spec a b : a < 2 ^ w -> b < 2 ^ w ->
  let k := lz w (N.lxor a b) in
  k <= w /\ agree k a b /\
  (k < w -> N.testbit a (w - 1 - k) <> N.testbit b (w - 1 - k)).
Proof.
  intros Ha Hb. cbv zeta. unfold lz.
  destruct (N.eq_dec a b) as [<-|E].
  - rewrite N.lxor_nilpotent. change (N.size 0) with 0.
    split; [lia|]. split; [intros i _ _; reflexivity|lia].
  - destruct (diff_bit a b E) as [Habove HL].
    pose proof (diff_lt w a b _ Ha Hb HL) as HLw.
    rewrite N.size_log2 by (intros Z; apply N.lxor_eq in Z; auto).
    set (L := N.log2 (N.lxor a b)) in *.
    split; [lia|]. split.
    + intros i H1 H2. apply Habove. lia.
    + intros _. replace (w - 1 - (w - N.succ L)) with L by lia. exact HL.
Qed.

Lemma length_pbits p : length (pbits w p) = N.to_nat (plen p).
Proof. unfold pbits. rewrite map_length, seq_length. reflexivity. Qed.

Lemma nth_pbits p i :
  nth i (pbits w p) false =
  ((N.of_nat i <? plen p) && N.testbit (repr p) (w - 1 - N.of_nat i))%bool.
Proof.
  unfold pbits.
  set (f := fun i0 : nat => N.testbit (repr p) (w - 1 - N.of_nat i0)).
  destruct (N.ltb_spec (N.of_nat i) (plen p)) as [Hi|Hi]; cbn [andb].
  - rewrite (nth_indep _ false (f 0%nat)) by (rewrite map_length, seq_length; lia).
    rewrite map_nth, seq_nth by lia. reflexivity.
  - apply nth_overflow. rewrite map_length, seq_length. lia.
Qed.

Lemma agree_nat n a b : n <= w ->
  (agree n a b <->
   forall i, (i < N.to_nat n)%nat ->
     N.testbit a (w - 1 - N.of_nat i) = N.testbit b (w - 1 - N.of_nat i)).
Proof.
  intros Hn. split.
  - intros H i Hi. apply H; lia.
  - intros H i H1 H2. specialize (H (N.to_nat (w - 1 - i))).
    replace (w - 1 - N.of_nat (N.to_nat (w - 1 - i))) with i in H by lia.
    apply H. lia.
Qed.

Lemma pbits_prefix_iff a b : plen a <= w ->
  (prefix_of (pbits w a) (pbits w b) <->
   plen a <= plen b /\ agree (plen a) (repr a) (repr b)).
Proof.
  intros Ha. rewrite prefix_of_nth, !length_pbits, agree_nat by exact Ha.
  split; intros [H1 H2]; (split; [lia|]); intros i Hi; specialize (H2 i Hi);
    rewrite !nth_pbits in *;
    replace (N.of_nat i <? plen a) with true in * by lia;
    replace (N.of_nat i <? plen b) with true in * by lia; exact H2.
Qed.

Lemma pbits_eq_iff a b : plen a <= w ->
  (pbits w a = pbits w b <-> plen a = plen b /\ agree (plen a) (repr a) (repr b)).
Proof.
  intros Ha. split.
  - intros E. split.
    + apply (f_equal (@length bool)) in E. rewrite !length_pbits in E. lia.
    + apply pbits_prefix_iff; [exact Ha|]. rewrite E. apply prefix_of_refl.
  - intros [E A]. apply prefix_of_same_len.
    + apply pbits_prefix_iff; [exact Ha|]. split; [lia|exact A].
    + rewrite !length_pbits. lia.
Qed.

Lemma mask_bits_msb len j : j < w -> N.testbit (mask len) (w - 1 - j) = (j <? len).
Proof.
  intros Hj. destruct (N.ltb_spec j len).
  - apply mask_bits_in; lia.
  - rewrite mask_bits_all. replace (w - len <=? w - 1 - j) with false by lia. reflexivity.
Qed.

Lemma nth_pbits_pmask p i : plen p <= w ->
  nth i (pbits w p) false =
  ((N.of_nat i <? w) && N.testbit (pmask w p) (w - 1 - N.of_nat i))%bool.
Proof.
  intros Hl. rewrite nth_pbits. unfold pmask. rewrite N.land_spec.
  destruct (N.ltb_spec (N.of_nat i) w) as [H|H]; cbn [andb].
  - rewrite mask_bits_msb by assumption. apply andb_comm.
  - replace (N.of_nat i <? plen p) with false by lia. reflexivity.
Qed.

(** ** Numeric reading of masks (for ipnet's interval inclusion) *)

Lemma land_mask_div x len : x < 2 ^ w ->
  N.land x (mask len) = x / 2 ^ (w - len) * 2 ^ (w - len).
Proof.
  intros Hx. apply N.bits_inj; intros i. rewrite N.land_spec, mask_bits_all.
  destruct (N.leb_spec (w - len) i); cbn [andb].
  - rewrite N.mul_pow2_bits_high by assumption. rewrite N.div_pow2_bits.
    replace (i - (w - len) + (w - len)) with i by lia.
    destruct (N.ltb_spec i w); [apply andb_true_r|].
    rewrite (lt_high w x i) by assumption. reflexivity.
  - rewrite N.mul_pow2_bits_low by assumption. apply andb_false_r.
Qed.

Lemma wnot_mask len : wnot w (mask len) = N.ones (w - len).
Proof.
  apply N.bits_inj; intros i. unfold wnot, ones.
  rewrite N.lxor_spec, mask_bits_all, !ones_bits.
  destruct (N.leb_spec (w - len) i); destruct (N.ltb_spec i w);
    destruct (N.ltb_spec i (w - len)); try reflexivity; lia.
Qed.

Lemma bcast_eq p : repr p < 2 ^ w ->
  bcast w p = pmask w p + N.ones (w - plen p).
Proof.
  intros Hr. unfold bcast. rewrite wnot_mask.
  assert (Z : N.land (pmask w p) (N.ones (w - plen p)) = 0).
  { apply N.bits_inj; intros i.
    rewrite N.land_spec, pmask_bits, ones_bits, N.bits_0.
    destruct (N.leb_spec (w - plen p) i); destruct (N.ltb_spec i (w - plen p));
      cbn [andb]; rewrite ?andb_false_r; try reflexivity; lia. }
  rewrite (N.add_nocarry_lxor _ _ Z), (N.lxor_lor _ _ Z).
  apply N.bits_inj; intros i. rewrite !N.lor_spec, pmask_bits, ones_bits.
  destruct (N.ltb_spec i (w - plen p)).
  - rewrite !orb_true_r. reflexivity.
  - rewrite !orb_false_r. replace (w - plen p <=? i) with true by lia.
    destruct (N.ltb_spec i w); cbn [andb]; [rewrite andb_true_r; reflexivity|].
    rewrite (lt_high w _ i) by assumption. reflexivity.
Qed.

Lemma agree_div n a b : a < 2 ^ w -> b < 2 ^ w ->
  (agree n a b <-> a / 2 ^ (w - n) = b / 2 ^ (w - n)).
Proof.
  intros Ha Hb. split.
  - intros Hg. apply N.bits_inj; intros i. rewrite !N.div_pow2_bits.
    destruct (N.ltb_spec (i + (w - n)) w).
    + apply Hg; lia.
    + rewrite (lt_high w a), (lt_high w b) by assumption. reflexivity.
  - intros E i H1 H2. apply (f_equal (fun x => N.testbit x (i - (w - n)))) in E.
    rewrite !N.div_pow2_bits in E.
    replace (i - (w - n) + (w - n)) with i in E by lia. exact E.
Qed.

End W.

Lemma div_eq_iff x P A : 0 < P -> (x / P = A <-> A * P <= x < A * P + P).
Proof.
  intros HP. split.
  - intros <-. rewrite (N.mul_comm (x / P)). split.
    + apply N.mul_div_le. lia.
    + rewrite <- N.mul_succ_r. apply N.mul_succ_div_gt. lia.
  - intros [H1 H2]. symmetry. apply (N.div_unique x P A (x - A * P)); lia.
Qed.

Lemma mult_gap a b x Q : a * Q <= x -> x < b * Q -> a * Q + Q <= b * Q.
Proof.
  intros H1 H2. rewrite <- N.mul_succ_l. apply N.mul_le_mono_r, N.le_succ_l.
  apply (N.mul_lt_mono_pos_r Q); [|eapply N.le_lt_trans; eassumption].
  destruct Q; [rewrite N.mul_0_r in H2; lia|reflexivity].
Qed.

(** aligned blocks: inclusion of [ [A*2^ha, A*2^ha + 2^ha - 1] ] *)
Lemma block_incl_iff ha hb ra rb :
  (ra / 2 ^ ha * 2 ^ ha <= rb / 2 ^ hb * 2 ^ hb /\
   rb / 2 ^ hb * 2 ^ hb + N.ones hb <= ra / 2 ^ ha * 2 ^ ha + N.ones ha) <->
  (hb <= ha /\ ra / 2 ^ ha = rb / 2 ^ ha).
Proof.
  rewrite !N.ones_equiv.
  pose proof (pow2_pos ha) as Pa0. pose proof (pow2_pos hb) as Pb0.
  destruct (proj1 (div_eq_iff rb (2 ^ hb) _ Pb0) eq_refl) as [Lb Ub].
  generalize dependent (rb / 2 ^ hb). intros B Lb Ub.
  split.
  - (* the inner block is not larger, and [rb] lies in both *)
    intros [H1 H2]. split.
    + apply (N.pow_le_mono_r_iff 2); lia.
    + symmetry. apply div_eq_iff; lia.
  - (* both blocks are unions of blocks of size [2^hb]; [rb] lies in both *)
    intros [Hh E]. symmetry in E. apply div_eq_iff in E; [|exact Pa0]. destruct E as [La Ua].
    generalize dependent (ra / 2 ^ ha). intros A La Ua.
    replace (2 ^ ha) with (2 ^ (ha - hb) * 2 ^ hb) in *
      by (rewrite <- N.pow_add_r; f_equal; lia).
    rewrite N.mul_assoc in *. rewrite <- N.mul_add_distr_r in Ua.
    pose proof (mult_gap _ (B + 1) _ _ La ltac:(lia)).
    pose proof (mult_gap _ _ _ _ Lb Ua). lia.
Qed.

Section Laws.
Variable w : N.
Notation mask := (mask_from_len w).

Ltac inv_valid :=
  repeat match goal with
         | H : valid w _ = true |- _ => apply valid_iff in H; destruct H as [? ?]
         end.

Lemma peq_spec_w a b : valid w a = true -> valid w b = true ->
  (peq w a b = true <-> pbits w a = pbits w b).
Proof.
  intros Va Vb. inv_valid.
  rewrite pbits_eq_iff by assumption. unfold peq, pmask.
  rewrite andb_true_iff, !N.eqb_eq. split.
  - intros [K1 K2]. split; [exact K2|]. rewrite <- K2 in K1.
    apply land_mask_agree in K1. exact K1.
  - intros [K1 K2]. split; [|exact K1]. rewrite <- K1. apply land_mask_agree. exact K2.
Qed.

Lemma contains_generic_spec a b : valid w a = true -> valid w b = true ->
  (contains_generic w a b = true <-> prefix_of (pbits w a) (pbits w b)).
Proof.
  intros Va Vb. inv_valid.
  rewrite pbits_prefix_iff by assumption. unfold contains_generic, pmask.
  destruct (N.ltb_spec (plen b) (plen a)).
  - split; [discriminate|intros [? _]; lia].
  - rewrite N.eqb_eq, land_mask_agree. split.
    + intros K1. split; [lia|apply agree_sym; exact K1].
    + intros [_ K1]. apply agree_sym; exact K1.
Qed.

Lemma contains_ipnet_spec a b : valid w a = true -> valid w b = true ->
  (contains_ipnet w a b = true <-> prefix_of (pbits w a) (pbits w b)).
Proof.
  intros Va Vb. inv_valid.
  rewrite pbits_prefix_iff by assumption. unfold contains_ipnet.
  rewrite !bcast_eq by assumption. unfold pmask. rewrite !land_mask_div by assumption.
  rewrite andb_true_iff, !N.leb_le, block_incl_iff, agree_div by assumption.
  split; intros [K1 K2]; (split; [lia|exact K2]).
Qed.

Lemma contains_spec_w fl a b : valid w a = true -> valid w b = true ->
  (contains w fl a b = true <-> prefix_of (pbits w a) (pbits w b)).
Proof.
  destruct fl; cbn [contains];
    [apply contains_generic_spec|apply contains_ipnet_spec|apply contains_generic_spec].
Qed.

Lemma contains_ipnet_generic a b : valid w a = true -> valid w b = true ->
  contains_ipnet w a b = contains_generic w a b.
Proof.
  intros Va Vb. apply eq_true_iff_eq.
  rewrite contains_ipnet_spec, contains_generic_spec by assumption. reflexivity.
Qed.

Lemma cshr_ones_bits n j : N.testbit (cshr w (ones w) n) j = (j + n <? w).
Proof.
  unfold cshr, ones. destruct (N.ltb_spec n w).
  - rewrite N.shiftr_spec', ones_bits. reflexivity.
  - rewrite N.bits_0. symmetry. apply N.ltb_ge. lia.
Qed.

Lemma bitmask_bits i j : i < w ->
  N.testbit (N.lxor (cshr w (ones w) i) (cshr w (ones w) (i + 1))) j = (j =? w - 1 - i).
Proof.
  intros Hi. rewrite N.lxor_spec, !cshr_ones_bits.
  destruct (N.ltb_spec (j + i) w); destruct (N.ltb_spec (j + (i + 1)) w);
    destruct (N.eqb_spec j (w - 1 - i)); try reflexivity; lia.
Qed.

Lemma is_bit_set_pmask p i :
  is_bit_set w p i = ((i <? w) && N.testbit (pmask w p) (w - 1 - i))%bool.
Proof.
  unfold is_bit_set. cbv zeta.
  destruct (N.ltb_spec i w) as [Hi|Hi]; cbn [andb].
  - set (m := N.lxor _ _).
    assert (Hm : forall j, N.testbit m j = (j =? w - 1 - i))
      by (intros j; apply bitmask_bits; assumption).
    destruct (N.eqb_spec (N.land m (pmask w p)) 0) as [Z|Z]; cbn [negb].
    + apply (f_equal (fun x => N.testbit x (w - 1 - i))) in Z.
      rewrite N.land_spec, Hm, N.eqb_refl, N.bits_0 in Z. symmetry. exact Z.
    + destruct (N.testbit (pmask w p) (w - 1 - i)) eqn:E; [reflexivity|].
      exfalso. apply Z. apply N.bits_inj; intros j. rewrite N.land_spec, Hm, N.bits_0.
      destruct (N.eqb_spec j (w - 1 - i)); [subst j; rewrite E|]; reflexivity.
  - unfold cshr. replace (i <? w) with false by lia. replace (i + 1 <? w) with false by lia.
    reflexivity.
Qed.

Lemma bit_spec_w p i : valid w p = true ->
  is_bit_set w p i = nth (N.to_nat i) (pbits w p) false.
Proof.
  intros V. inv_valid. rewrite is_bit_set_pmask, nth_pbits_pmask, N2Nat.id by assumption. reflexivity.
Qed.

Lemma is_bit_set_high p i : plen p <= i -> is_bit_set w p i = false.
Proof.
  intros Hi. rewrite is_bit_set_pmask. destruct (N.ltb_spec i w); [|reflexivity].
  apply pmask_host_zero. lia.
Qed.

(** the common prefix of two windows of [w]-bit words is a window of the first word; its length
    is found by counting the leading zeros of the xor *)
Lemma common_pbits x y n m : n <= w -> x < 2 ^ w -> y < 2 ^ w ->
  common (pbits w (mkpfx x n)) (pbits w (mkpfx y m))
  = pbits w (mkpfx x (N.min (N.min (lz w (N.lxor x y)) n) m)).
Proof.
  intros Hn Hx Hy. destruct (lz_spec w x y Hx Hy) as (_ & Hag & Hdiff).
  set (k := lz w (N.lxor x y)) in *. clearbody k. symmetry. apply common_char.
  - apply pbits_prefix_iff; cbn [plen repr]; [lia | split; [lia | intros i _ _; reflexivity]].
  - apply pbits_prefix_iff; cbn [plen repr]; [lia | split; [lia|]].
    apply (agree_le w _ k); [lia | exact Hag].
  - rewrite !length_pbits. cbn [plen].
    destruct (N.ltb_spec (N.min (N.min k n) m) n) as [Ha|Ha]; [|left; f_equal; lia].
    destruct (N.ltb_spec (N.min (N.min k n) m) m) as [Hb|Hb]; [|right; left; f_equal; lia].
    (* the minimum is [lz]: the next bit of [x] and [y] differs *)
    right; right. replace (N.min (N.min k n) m) with k in * by lia.
    rewrite !nth_pbits, N2Nat.id. cbn [plen repr].
    rewrite (proj2 (N.ltb_lt _ _) Ha), (proj2 (N.ltb_lt _ _) Hb). apply Hdiff. lia.
Qed.

Lemma lcp_len_le fl a b : plen (lcp w fl a b) <= plen a.
Proof. destruct fl; cbn; lia. Qed.

(** a word is read through its [n] leading bits only; in particular masking it at [n] changes
    nothing, which is all that distinguishes the three flavours *)
Lemma pbits_agree x y n : n <= w -> agree w n x y -> pbits w (mkpfx x n) = pbits w (mkpfx y n).
Proof. intros Hn H. apply pbits_eq_iff; cbn [plen repr]; try exact Hn. split; [reflexivity | exact H]. Qed.

Lemma pbits_land_mask x n : n <= w -> pbits w (mkpfx (N.land x (mask n)) n) = pbits w (mkpfx x n).
Proof. intros Hn. apply pbits_agree; [exact Hn | apply agree_land_mask]. Qed.

Lemma lcp_ok_w fl a b : valid w a = true -> valid w b = true -> valid w (lcp w fl a b) = true.
Proof.
  intros Va Vb. inv_valid. apply valid_iff. split.
  - destruct fl; cbn; lia.
  - destruct fl; cbn [lcp lcp_generic lcp_ipnet from_repr_len repr]; apply land_mask_lt.
Qed.

Lemma lcp_spec_w fl a b : valid w a = true -> valid w b = true ->
  pbits w (lcp w fl a b) = common (pbits w a) (pbits w b).
Proof.
  intros Va Vb. inv_valid. destruct a as [ra na], b as [rb nb]. cbn [plen repr] in *.
  assert (G : pbits w (lcp_generic w Generic (mkpfx ra na) (mkpfx rb nb))
              = common (pbits w (mkpfx ra na)) (pbits w (mkpfx rb nb))).
  { rewrite <- (pbits_land_mask ra na), <- (pbits_land_mask rb nb) by assumption.
    cbn [lcp_generic from_repr_len]. unfold pmask. cbn [plen repr].
    rewrite pbits_land_mask, common_pbits by (lia || apply land_mask_lt). reflexivity. }
  destruct fl; cbn [lcp]; [exact G | | rewrite <- G; apply pbits_land_mask; cbn [plen]; lia].
  unfold lcp_ipnet. cbn [plen repr]. rewrite pbits_land_mask, common_pbits by (lia || assumption). reflexivity.
Qed.

Lemma lcp_ipnet_generic_bits a b : valid w a = true -> valid w b = true ->
  pbits w (lcp_ipnet w a b) = pbits w (lcp_generic w Generic a b).
Proof.
  intros Va Vb.
  rewrite (lcp_spec_w Ipnet a b Va Vb : pbits w (lcp_ipnet w a b) = _).
  rewrite (lcp_spec_w Generic a b Va Vb : pbits w (lcp_generic w Generic a b) = _).
  reflexivity.
Qed.

Lemma lcp_repr_masked fl a b : repr (lcp w fl a b) = pmask w (lcp w fl a b).
Proof.
  unfold pmask.
  destruct fl; cbn [lcp lcp_generic lcp_ipnet from_repr_len plen repr];
    rewrite <- ?N.land_assoc, ?N.land_diag; reflexivity.
Qed.

Lemma mcmp_spec_w a b : valid w a = true -> valid w b = true ->
  mcmp w a b = bcmp (pbits w a) (pbits w b).
Proof.
  intros Va Vb. inv_valid. unfold mcmp.
  pose proof (land_mask_lt w (repr a) (plen a) : pmask w a < 2 ^ w) as Hx.
  pose proof (land_mask_lt w (repr b) (plen b) : pmask w b < 2 ^ w) as Hy.
  destruct (N.eq_dec (pmask w a) (pmask w b)) as [E|E].
  - rewrite E, N.compare_refl. symmetry. apply bcmp_eq. intros i.
    rewrite !nth_pbits_pmask, E by assumption. reflexivity.
  - destruct (diff_bit _ _ E) as [Habove HL].
    pose proof (diff_lt w _ _ _ Hx Hy HL) as HLw.
    set (L := N.log2 _) in *.
    assert (Hi : forall p, plen p <= w ->
              nth (N.to_nat (w - 1 - L)) (pbits w p) false = N.testbit (pmask w p) L).
    { intros p Hp. rewrite nth_pbits_pmask, N2Nat.id by exact Hp.
      replace (w - 1 - (w - 1 - L)) with L by lia. replace (w - 1 - L <? w) with true by lia.
      reflexivity. }
    rewrite (compare_by_bit _ _ L Habove HL), (bcmp_first_diff _ _ (N.to_nat (w - 1 - L))).
    + rewrite Hi by assumption. reflexivity.
    + intros j Hj. rewrite !nth_pbits_pmask by assumption. rewrite Habove by lia. reflexivity.
    + rewrite !Hi by assumption. exact HL.
Qed.

Lemma mask_chk_total len : len <= w -> mask_from_len_chk w len = Some (mask len).
Proof.
  intros H. unfold mask_from_len_chk, mask_from_len.
  destruct (N.eqb_spec len w); [reflexivity|].
  destruct (N.eqb_spec len 0); [reflexivity|].
  replace (len <? w) with true by lia. reflexivity.
Qed.

Lemma from_repr_len_spec fl r l : l <= w -> r < 2 ^ w ->
  let p := from_repr_len w fl r l in
  valid w p = true /\ plen p = l /\ pbits w p = pbits w (mkpfx r l).
Proof.
  intros Hl Hr. cbv zeta.
  destruct fl; cbn [from_repr_len].
  - split; [apply valid_iff; cbn; auto|]. split; reflexivity.
  - split; [apply valid_iff; cbn; auto|]. split; reflexivity.
  - split; [apply valid_iff; cbn [plen repr]; split; [exact Hl|apply land_mask_lt]|].
    split; [reflexivity | apply pbits_land_mask; exact Hl].
Qed.

Lemma from_repr_len_masking_repr r l :
  repr (from_repr_len w Masking r l) = N.land r (mask l).
Proof. reflexivity. Qed.

End Laws.

Theorem pn_laws_all (w : N) (fl : flavour) :
  prefix_laws pfx (peq w) (contains w fl) (is_bit_set w) plen (lcp w fl) pzero (mcmp w)
              (pbits w) (fun p => valid w p = true).
Proof.
  constructor.
  - intros p _. rewrite length_pbits, N2Nat.id. reflexivity.
  - apply peq_spec_w.
  - apply contains_spec_w.
  - intros p i V. apply bit_spec_w. exact V.
  - apply lcp_ok_w.
  - apply lcp_spec_w.
  - apply valid_iff. cbn [pzero plen repr]. split; [lia|apply pow2_pos].
  - reflexivity.
  - apply mcmp_spec_w.
Qed.

(** the form the other files quote; the hypothesis is not used ([pn_laws_all]: the laws hold at
    width 0 as well) *)
Theorem pn_laws (w : N) (fl : flavour) : (1 <= w)%N ->
  prefix_laws pfx (peq w) (contains w fl) (is_bit_set w) plen (lcp w fl) pzero (mcmp w)
              (pbits w) (fun p => valid w p = true).
Proof. intros _. apply pn_laws_all. Qed.

Print Assumptions pn_laws.
