(** The model side of the two C14 script operations [alias] and [par] (SCRIPT.md; the Rust side
    is [alias] and [par] of harness/src/main.rs: exclusivity of mutable access; concurrent mutation
    of disjoint sub-views by threads), as Coq functions over [Views.v] / [SetOps.v], with their
    correctness theorems.

    PART 1 (definitions; executable, extractable):
      [own_slot], [split_slots] (+ the structural twin [tree_slots]), [alias_report],
      [par_jobs], [par_writes], [par_result].
    PART 2 (theorems):
      [split_slots_spec]           the recursive split reaches every entry exactly once;
      [alias_report_true]          the report of a well-formed tree with distinct slots is
                                   [(number of entries, true, true, true, true)];
      [par_schedule_independent]   the splitter's and the workers' slot sets are pairwise disjoint,
                                   every schedule of the workers yields [par_result], which is also
                                   the sequential, worker-by-worker result;
      [par_result_frame], [par_result_values]   [par_result] changes values only, and each entry's
                                   new value is [sf x] (own entry of a split node) or [wf n x]
                                   (entry of job [n]);
      [par_jobs_cover]             every entry is the own entry of a split node or belongs to
                                   exactly one job. *)
From Coq Require Import List NArith ZArith Bool Arith Lia ZifyN ZifyBool ZifyNat Permutation.
From PT Require Import Bits BitsThm Laws Trie Views SetOps TrieWf Lookup2
                       Slots MutTrav UnionThm InterDiffThm MutTravExtra.
Import ListNotations.

(** * PART 1: definitions *)

(** decidable list predicates over slots *)
Definition memb (i : N) (l : list N) : bool := existsb (N.eqb i) l.
Fixpoint nodupb (l : list N) : bool :=
  match l with [] => true | x :: r => negb (memb x r) && nodupb r end.
Definition subb (a b : list N) : bool := forallb (fun x => memb x b) a.
Definition same_setb (a b : list N) : bool := subb a b && subb b a.

Section Defs.
Variables (pfx V : Type).
Variables (contains : pfx -> pfx -> bool) (is_bit_set : pfx -> N -> bool)
          (plen : pfx -> N) (pzero : pfx) (mcmp : pfx -> pfx -> comparison).
(** worker index -> old value -> new value; the splitter's function.  ([wf], [ex_wf] are worker
    functions throughout this file; well-formedness is [wf_under], [wf_root], [ex_wf_root].) *)
Variables (wf : nat -> V -> V) (sf : V -> V).

Notation tree := (Trie.tree pfx V).
Notation vmut := (Views.vmut pfx).
Notation mvirt := (Views.mvirt pfx).
Notation vm_root := (Views.vm_root pfx).
Notation vm_split := (Views.vm_split pfx V is_bit_set plen pzero).
Notation slot3 := (MutTrav.slot3 pfx V).
Notation union_mut := (SetOps.union_mut pfx V V contains is_bit_set plen pzero mcmp).
Notation intersection_mut := (SetOps.intersection_mut pfx V V contains is_bit_set plen pzero mcmp).
Notation difference_mut := (SetOps.difference_mut pfx V V contains is_bit_set plen pzero mcmp).
Notation covering_difference_mut := (SetOps.covering_difference_mut pfx V V contains is_bit_set plen pzero mcmp).

(** the slot [value_mut] of the view designates: none for a virtual view or a value-less node *)
Definition own_slot (T : tree) (m : vmut) : option N :=
  match mvirt m with
  | Some _ => None
  | None => match vm_tree T m with
            | Node i _ (Some _) _ _ => Some i
            | _ => None
            end
  end.

(** [split_addrs] of the harness: the own slot, then everything below the left half, then
    everything below the right half of [split()] *)
Fixpoint split_slots (fuel : nat) (T : tree) (m : vmut) : list N :=
  match fuel with
  | O => []
  | S f =>
    let s := vm_split T m in
    olist (own_slot T m)
    ++ (match fst s with Some ml => split_slots f T ml | None => [] end)
    ++ (match snd s with Some mr => split_slots f T mr | None => [] end)
  end.

(** the fuel-free structural twin *)
Fixpoint tree_slots (t : tree) : list N :=
  match t with
  | Leaf => []
  | Node i _ v l r => (match v with Some _ => [i] | None => [] end) ++ tree_slots l ++ tree_slots r
  end.

(** the slots of all references carried by the items of the four [*_mut] set operations, in the
    order in which the harness collects them *)
Definition um_slots (out : list (SetOps.umitem pfx V V)) : list N :=
  flat_map (fun it : SetOps.umitem pfx V V =>
              let '(_, l, r) := it in
              (match l with Some (i, _) => [i] | None => [] end)
              ++ (match r with Some (j, _) => [j] | None => [] end)) out.
Definition im_slots (out : list (SetOps.imitem pfx V V)) : list N :=
  flat_map (fun it : SetOps.imitem pfx V V => let '(_, (i, _), (j, _)) := it in [i; j]) out.
Definition dm_slots (out : list (SetOps.dmitem pfx V V)) : list N :=
  map (fun it : SetOps.dmitem pfx V V => let '(_, (i, _), _) := it in i) out.
Definition cdm_slots (out : list (pfx * (N * V))) : list N :=
  map (fun it : pfx * (N * V) => let '(_, (i, _)) := it in i) out.

(** the set-operation clause of [alias]: over the two halves [(a, b)] of the root split (if both
    exist) the references of [union_mut] / [intersection_mut] (both sides together) /
    [difference_mut] / [covering_difference_mut] are pairwise distinct and lie among the
    [iter_mut] slots of the map; those of [difference_mut] avoid the slots of [b].
    A set operation that runs out of fuel makes the clause false. *)
Definition sets_clause (T : tree) : bool :=
  match vm_split T vm_root with
  | (Some vl, Some vr) =>
    let a := vm_tree T vl in
    let b := vm_tree T vr in
    let it := map slot3 (iter_mut_items pfx V T) in
    let inb := map slot3 (iter_mut_items pfx V b) in
    match union_mut a b, intersection_mut a b, difference_mut a b, covering_difference_mut a b with
    | Some ou, Some oi, Some od, Some oc =>
      let u := um_slots ou in
      let i2 := im_slots oi in
      let d := dm_slots od in
      let cd := cdm_slots oc in
      nodupb u && subb u it && nodupb i2 && subb i2 it && nodupb d && subb d it
      && forallb (fun x => negb (memb x inb)) d && nodupb cd && subb cd it
    | _, _, _, _ => false
    end
  | _ => true
  end.

(** [alias]: (n, iter, split, cover, sets) *)
Definition alias_report (T : tree) : nat * bool * bool * bool * bool :=
  let it := map slot3 (iter_mut_items pfx V T) in
  let sp := split_slots (S (tsize T)) T vm_root in
  (length it, nodupb it, nodupb sp, same_setb sp it, sets_clause T).

(** [par_jobs] of the harness: split [k] levels deep; a node that is split gets its own value
    rewritten by [sf]; the remaining sub-views are the jobs, in left-to-right order *)
Fixpoint par_go (k : nat) (T : tree) (m : vmut) : list vmut * list (N * V) :=
  match k with
  | O => ([m], [])
  | S k' =>
    let own := match own_slot T m, vm_value T m with
               | Some i, Some x => [(i, sf x)]
               | _, _ => []
               end in
    let s := vm_split T m in
    let L := match fst s with Some ml => par_go k' T ml | None => ([], []) end in
    let R := match snd s with Some mr => par_go k' T mr | None => ([], []) end in
    (fst L ++ fst R, own ++ snd L ++ snd R)
  end.

Definition par_jobs (k : nat) (T : tree) : list vmut * list (N * V) := par_go k T vm_root.

(** the writes of worker [i] on its job *)
Definition job_writes (T : tree) (i : nat) (m : vmut) : list (N * V) :=
  map (fun e : N * pfx * V => let '(s, _, x) := e in (s, wf i x)) (vm_iter_mut T m).

(** one write list per worker, workers numbered from [i] *)
Fixpoint workers_writes (T : tree) (i : nat) (jobs : list vmut) : list (list (N * V)) :=
  match jobs with
  | [] => []
  | m :: js => job_writes T i m :: workers_writes T (S i) js
  end.

Definition par_workers (k : nat) (T : tree) : list (list (N * V)) :=
  workers_writes T 0 (fst (par_jobs k T)).

(** the splitter's writes followed by the workers' writes, workers in order *)
Definition par_writes (k : nat) (T : tree) : list (N * V) :=
  snd (par_jobs k T) ++ concat (par_workers k T).

Definition par_result (k : nat) (T : tree) : tree := write_ids T (par_writes k T).

End Defs.

Lemma memb_spec i l : memb i l = true <-> In i l.
Proof.
  unfold memb. rewrite existsb_exists. split.
  - intros [j [Hj E]]. apply N.eqb_eq in E. subst. exact Hj.
  - intros H. exists i. split; [exact H | apply N.eqb_refl].
Qed.

Lemma memb_false i l : memb i l = false <-> ~ In i l.
Proof.
  rewrite <- memb_spec. destruct (memb i l); split; intros H; congruence.
Qed.

Lemma nodupb_spec l : nodupb l = true <-> NoDup l.
Proof.
  induction l as [|x l IH]; cbn [nodupb].
  - split; [constructor | reflexivity].
  - rewrite andb_true_iff, negb_true_iff, memb_false, IH. split.
    + intros [A B]. constructor; assumption.
    + intros H. inversion H; subst. split; assumption.
Qed.

Lemma subb_spec a b : subb a b = true <-> incl a b.
Proof.
  unfold subb. rewrite forallb_forall. split.
  - intros H x Hx. apply memb_spec. apply H. exact Hx.
  - intros H x Hx. apply memb_spec. apply H. exact Hx.
Qed.

Lemma same_setb_spec a b : same_setb a b = true <-> (forall x, In x a <-> In x b).
Proof.
  unfold same_setb. rewrite andb_true_iff, !subb_spec. split.
  - intros [A B] x. split; [apply A | apply B].
  - intros H. split; intros x Hx; apply H; exact Hx.
Qed.

Lemma slots_clause {sl sl' : list N} (it : list N) :
  Permutation sl sl' -> NoDup sl' -> incl sl' it -> nodupb sl = true /\ subb sl it = true.
Proof.
  intros HP Hnd Hin. split.
  - apply nodupb_spec. exact (Permutation_NoDup (Permutation_sym HP) Hnd).
  - apply subb_spec. intros i Hi. apply Hin. exact (Permutation_in _ HP Hi).
Qed.

Lemma perm_shuffle {A} (o a b c d : list A) :
  Permutation ((o ++ a ++ b) ++ (c ++ d)) (o ++ (a ++ c) ++ (b ++ d)).
Proof.
  rewrite <- !app_assoc. apply Permutation_app_head. apply Permutation_app_head.
  rewrite !app_assoc. apply Permutation_app_tail. apply Permutation_app_comm.
Qed.

Lemma concat_all_nil {A} (ws : list (list A)) : Forall (fun w => w = []) ws -> concat ws = [].
Proof.
  induction 1 as [|w ws Hw _ IH]; [reflexivity|]. cbn [concat]. rewrite Hw, IH. reflexivity.
Qed.

Lemma nodup_concat_disjoint {A} (L : list (list A)) :
  NoDup (concat L) ->
  forall n n' a b, n <> n' -> nth_error L n = Some a -> nth_error L n' = Some b ->
  forall x, In x a -> ~ In x b.
Proof.
  induction L as [|w L IH]; intros Hnd n n' a b Hne Ha Hb x Hxa Hxb.
  - destruct n; discriminate.
  - cbn [concat] in Hnd. destruct (nodup_app_inv _ _ Hnd) as [_ [HL Hd]].
    destruct n as [|n], n' as [|n']; cbn [nth_error] in Ha, Hb.
    + apply Hne. reflexivity.
    + inversion Ha; subst. apply (Hd x Hxa). apply in_concat. exists b. split; [|exact Hxb].
      eapply nth_error_In. exact Hb.
    + inversion Hb; subst. apply (Hd x Hxb). apply in_concat. exists a. split; [|exact Hxa].
      eapply nth_error_In. exact Ha.
    + refine (IH HL n n' a b _ Ha Hb x Hxa Hxb). intros ->. apply Hne. reflexivity.
Qed.

Lemma nodup_concat_each {A} (L : list (list A)) :
  NoDup (concat L) -> forall w, In w L -> NoDup w.
Proof.
  induction L as [|w0 L IH]; intros Hnd w Hw; [destruct Hw|].
  cbn [concat] in Hnd. destruct (nodup_app_inv _ _ Hnd) as [H0 [HL _]].
  destruct Hw as [<-|Hw]; [exact H0 | exact (IH HL w Hw)].
Qed.

Lemma map_fst_concat {A B} (L : list (list (A * B))) : map fst (concat L) = concat (map (map fst) L).
Proof. apply concat_map. Qed.

(** [s] is an order-preserving merge of the lists [ws] (a schedule of [length ws] sequential
    workers); generalises [MutTravExtra.interleave] *)
Inductive interleaveN {A} : list (list A) -> list A -> Prop :=
| iln_done ws : Forall (fun w => w = []) ws -> interleaveN ws []
| iln_step pre e w post s :
    interleaveN (pre ++ w :: post) s -> interleaveN (pre ++ (e :: w) :: post) (e :: s).

Lemma interleaveN_perm {A} (ws : list (list A)) s : interleaveN ws s -> Permutation s (concat ws).
Proof.
  induction 1 as [ws H|pre e w post s _ IH].
  - rewrite (concat_all_nil ws H). constructor.
  - rewrite concat_app in *. cbn [concat app] in *. apply Permutation_cons_app. exact IH.
Qed.

Lemma interleave_interleaveN {A} (w1 w2 w : list A) : interleave w1 w2 w -> interleaveN [w1; w2] w.
Proof.
  induction 1 as [|e w1 w2 w _ IH|e w1 w2 w _ IH].
  - apply iln_done. repeat constructor.
  - exact (iln_step [] e w1 [w2] w IH).
  - exact (iln_step [w1] e w2 [] w IH).
Qed.

Lemma interleaveN_concat_gen {A} (ws : list (list A)) : forall pre,
  Forall (fun w => w = []) pre -> interleaveN (pre ++ ws) (concat ws).
Proof.
  induction ws as [|w ws IH]; intros pre Hpre.
  - rewrite app_nil_r. apply iln_done. exact Hpre.
  - induction w as [|e w IHw]; cbn [concat app].
    + replace (pre ++ [] :: ws) with ((pre ++ [[]]) ++ ws) by (rewrite <- app_assoc; reflexivity).
      apply IH. apply Forall_app. split; [exact Hpre | repeat constructor].
    + apply iln_step. exact IHw.
Qed.

Corollary interleaveN_concat {A} (ws : list (list A)) : interleaveN ws (concat ws).
Proof. exact (interleaveN_concat_gen ws [] (Forall_nil _)). Qed.

(** * PART 2: theorems *)
Section Thm.
Variables (pfx V : Type).
Variables (peq contains : pfx -> pfx -> bool) (is_bit_set : pfx -> N -> bool)
          (plen : pfx -> N) (lcp : pfx -> pfx -> pfx) (pzero : pfx)
          (mcmp : pfx -> pfx -> comparison).
Variable bits : pfx -> list bool.
Variable ok : pfx -> Prop.
Hypothesis LAWS : prefix_laws pfx peq contains is_bit_set plen lcp pzero mcmp bits ok.

Notation tree := (Trie.tree pfx V).
Notation ids := (Slots.ids pfx V).
Notation vmut := (Views.vmut pfx).
Notation mkvmut := (Views.mkvmut pfx).
Notation mpath := (Views.mpath pfx).
Notation mvirt := (Views.mvirt pfx).
Notation vm_root := (Views.vm_root pfx).
Notation slot3 := (MutTrav.slot3 pfx V).
Notation skel := (MutTrav.skel pfx V).
Notation write_each := (MutTrav.write_each pfx V).
Notation wf_under := (TrieWf.wf_under pfx V bits ok).
Notation wf_root := (TrieWf.wf_root pfx V bits ok).
Notation own_slot := (own_slot pfx V).
Notation split_slots := (split_slots pfx V is_bit_set plen pzero).
Notation tree_slots := (tree_slots pfx V).
Notation um_slots := (um_slots pfx V).
Notation im_slots := (im_slots pfx V).
Notation dm_slots := (dm_slots pfx V).
Notation cdm_slots := (cdm_slots pfx V).
Notation sets_clause := (sets_clause pfx V contains is_bit_set plen pzero mcmp).
Notation alias_report := (alias_report pfx V contains is_bit_set plen pzero mcmp).

Theorem own_slot_some (T : tree) (m : vmut) i :
  own_slot T m = Some i ->
  exists p x l r,
    mvirt m = None /\ vm_tree T m = Node i p (Some x) l r /\ vm_value T m = Some x /\
    In (i, p, x) (entries_id T) /\
    (NoDup (ids T) -> forall g, vm_value_mut T m g = (write_ids T [(i, g x)], Some (p, x))).
Proof.
  unfold ParModel.own_slot, vm_value. destruct (mvirt m) as [q|] eqn:Hv; [discriminate|].
  destruct (vm_tree T m) as [|j p [x|] l r] eqn:E; try discriminate.
  intros H. inversion H; subst j. exists p, x, l, r.
  split; [reflexivity|]. split; [reflexivity|]. split; [reflexivity|]. split.
  - apply (subtree_entries_id_incl pfx V (mpath m) T). unfold vm_tree in E. rewrite E. left. reflexivity.
  - intros Hnd g. rewrite (surjective_pairing (vm_value_mut T m g)).
    rewrite (vm_value_mut_write pfx V T m g i p x l r Hnd Hv E). f_equal.
    unfold vm_value_mut. rewrite Hv. cbn [snd]. rewrite E. reflexivity.
Qed.

Theorem own_slot_none (T : tree) (m : vmut) :
  own_slot T m = None -> vm_value T m = None /\ forall g, vm_value_mut T m g = (T, None).
Proof.
  unfold ParModel.own_slot, vm_value. destruct (mvirt m) as [q|] eqn:Hv.
  - intros _. split; [reflexivity|]. intros g. unfold vm_value_mut. rewrite Hv. reflexivity.
  - destruct (vm_tree T m) as [|j p [x|] l r] eqn:E; try discriminate; intros _.
    + split; [reflexivity|]. intros g. rewrite (surjective_pairing (vm_value_mut T m g)).
      destruct (vm_write_leaf pfx V T m E) as [_ [_ F]]. rewrite F. f_equal.
      unfold vm_value_mut. rewrite Hv. cbn [snd]. rewrite E. reflexivity.
    + split; [reflexivity|]. intros g. exact (vm_value_mut_none pfx V T m g j p l r Hv E).
Qed.

Lemma tree_slots_spec (t : tree) : tree_slots t = map slot3 (entries_id t).
Proof.
  induction t as [|i p v l IHl r IHr]; [reflexivity|].
  cbn [ParModel.tree_slots entries_id]. rewrite !map_app, IHl, IHr. destruct v; reflexivity.
Qed.

Lemma subtree_snoc (T : tree) (pa : path) i p v l r (s : bool) :
  subtree T pa = Node i p v l r -> subtree T (pa ++ [s]) = if s then r else l.
Proof.
  intros E. rewrite (subtree_app pfx V), E, (subtree_side pfx V). destruct s; reflexivity.
Qed.

Lemma split_slots_subtree (T : tree) : forall fuel pa,
  tsize (subtree T pa) < fuel ->
  split_slots fuel T (mkvmut pa None) = tree_slots (subtree T pa).
Proof.
  induction fuel as [|f IH]; intros pa Hf; [lia|].
  cbn [ParModel.split_slots]. unfold ParModel.own_slot, Views.vm_split, vm_tree.
  cbn [Views.mvirt Views.mpath fst snd].
  destruct (subtree T pa) as [|i p v l r] eqn:E; [reflexivity|].
  cbn [tleft tright ParModel.tree_slots]. cbn [tsize] in Hf.
  assert (Hside : forall (s : bool) (c : tree), c = (if s then r else l) ->
            match (if is_node c then Some (mkvmut (pa ++ [s]) None) else None) with
            | Some m' => split_slots f T m'
            | None => []
            end = tree_slots c).
  { intros s c Ec. destruct c as [|ci cp cv cl cr] eqn:Dc; [reflexivity|]. cbn [is_node].
    rewrite IH; rewrite (subtree_snoc T pa i p v l r s E), <- Ec; [reflexivity|].
    destruct s; subst; cbn [tsize] in *; lia. }
  rewrite (Hside false l eq_refl), (Hside true r eq_refl).
  destruct v; reflexivity.
Qed.

(** any view, virtual or not; a virtual view spends one unit of fuel on the step to its node *)
Lemma split_slots_view (T : tree) (m : vmut) fuel :
  tsize (vm_tree T m) + 1 < fuel -> split_slots fuel T m = tree_slots (vm_tree T m).
Proof.
  intros Hf. destruct m as [pa [q|]].
  - destruct fuel as [|f]; [lia|]. cbn [ParModel.split_slots].
    unfold ParModel.own_slot, Views.vm_split, vm_tree in *. cbn [Views.mvirt Views.mpath] in *.
    destruct (Trie.to_right pfx is_bit_set plen q (Trie.tpfx pfx V pzero (subtree T pa)));
      cbn [fst snd olist app]; rewrite split_slots_subtree by lia; [reflexivity | apply app_nil_r].
  - unfold vm_tree in *. cbn [Views.mpath] in *. apply split_slots_subtree. lia.
Qed.

(** with enough fuel the recursive split of the root view lists exactly the slots of the
    entries, in iteration order: it reaches every entry exactly once *)
Theorem split_slots_spec (T : tree) fuel :
  tsize T < fuel -> split_slots fuel T vm_root = map slot3 (entries_id T).
Proof.
  intros Hf. unfold Views.vm_root. rewrite split_slots_subtree; rewrite (subtree_nil pfx V); [|exact Hf].
  apply tree_slots_spec.
Qed.

Corollary split_slots_exact (T : tree) fuel :
  NoDup (ids T) -> tsize T < fuel ->
  NoDup (split_slots fuel T vm_root) /\
  (forall i, In i (split_slots fuel T vm_root) <-> exists p x, In (i, p, x) (entries_id T)) /\
  length (split_slots fuel T vm_root) = length (entries T).
Proof.
  intros Hnd Hf. rewrite (split_slots_spec T fuel Hf). split; [|split].
  - apply entry_slots_nodup. exact Hnd.
  - intros i. rewrite in_map_iff. split.
    + intros [[[j p] x] [<- Hin]]. exists p, x. exact Hin.
    + intros [p [x Hin]]. exists (i, p, x). split; [reflexivity | exact Hin].
  - rewrite map_length. symmetry. apply length_entries_id.
Qed.

Lemma um_slots_perm (out : list (SetOps.umitem pfx V V)) :
  Permutation (um_slots out)
              (map slot3 (um_lrefs pfx V V out) ++ map slot3 (um_rrefs pfx V V out)).
Proof.
  induction out as [|[[p l] r] out IH]; [constructor|].
  unfold ParModel.um_slots, um_lrefs, um_rrefs, refs_by in *. cbn [flat_map].
  rewrite !map_app. cbn [um_lref um_rref].
  destruct l as [[i x]|], r as [[j y]|]; cbn [olist map MutTrav.slot3 app].
  - constructor. apply Permutation_cons_app. exact IH.
  - constructor. exact IH.
  - apply Permutation_cons_app. exact IH.
  - exact IH.
Qed.

Lemma im_slots_perm (out : list (SetOps.imitem pfx V V)) :
  Permutation (im_slots out)
              (map slot3 (im_lrefs pfx V V out) ++ map slot3 (im_rrefs pfx V V out)).
Proof.
  induction out as [|[[p [i x]] [j y]] out IH]; [constructor|].
  unfold ParModel.im_slots, im_lrefs, im_rrefs in *. cbn [flat_map map MutTrav.slot3 app].
  constructor. apply Permutation_cons_app. exact IH.
Qed.

Lemma dm_slots_eq (out : list (SetOps.dmitem pfx V V)) :
  dm_slots out = map slot3 (dm_refs pfx V V out).
Proof.
  unfold ParModel.dm_slots, dm_refs. rewrite map_map. apply map_ext. intros [[p [i x]] a]. reflexivity.
Qed.

Lemma cdm_slots_eq (out : list (pfx * (N * V))) :
  cdm_slots out = map slot3 (cdm_refs pfx V out).
Proof.
  unfold ParModel.cdm_slots, cdm_refs. rewrite map_map. apply map_ext. intros [p [i x]]. reflexivity.
Qed.

Lemma keyed_refs_in_entries {T t : tree} {items : list (N * pfx * V)} :
  incl (entries_id t) (entries_id T) ->
  (forall i p y, In (i, p, y) items -> exists pr, In (i, pr, y) (entries_id t) /\ bits pr = bits p) ->
  incl (map slot3 items) (map slot3 (entries_id T)).
Proof.
  intros Hsub H i Hi. apply in_map_iff in Hi. destruct Hi as [[[j p] y] [<- Hin]].
  destruct (H j p y Hin) as [pr [Hpr _]]. apply in_map_iff. exists (j, pr, y).
  split; [reflexivity | apply Hsub; exact Hpr].
Qed.

Lemma refs_in_entries {T t : tree} {items : list (N * pfx * V)} :
  incl (entries_id t) (entries_id T) -> incl items (entries_id t) ->
  incl (map slot3 items) (map slot3 (entries_id T)).
Proof.
  intros Hsub H. apply incl_map. intros e He. apply Hsub. apply H. exact He.
Qed.

Lemma sets_clause_true b (T : tree) : wf_under b T -> NoDup (ids T) -> sets_clause T = true.
Proof.
  intros Hwf Hnd. unfold ParModel.sets_clause.
  destruct (Views.vm_split pfx V is_bit_set plen pzero T vm_root) as [[vl|] [vr|]] eqn:Hs; try reflexivity.
  destruct (vm_split_both pfx V is_bit_set plen pzero T vm_root vl vr Hs) as [_ [-> ->]].
  unfold vm_tree. cbn [Views.mpath Views.vm_root app].
  rewrite !(iter_mut_items_spec pfx V).
  set (a := subtree T [false]). set (b' := subtree T [true]).
  destruct (subtree_wf pfx V bits ok [false] b T Hwf) as [ba Wa].
  destruct (subtree_wf pfx V bits ok [true] b T Hwf) as [bb Wb].
  fold a in Wa. fold b' in Wb.
  assert (H12 : ~ prefix_of [false] [true]).
  { intros H. apply (sides_disjoint [] [true]); [exact H | apply prefix_of_refl]. }
  assert (H21 : ~ prefix_of [true] [false]).
  { intros H. apply (sides_disjoint [] [false]); [apply prefix_of_refl | exact H]. }
  assert (Sa : incl (entries_id a) (entries_id T)) by apply subtree_entries_id_incl.
  assert (Sb : incl (entries_id b') (entries_id T)) by apply subtree_entries_id_incl.
  destruct (union_mut_total pfx V V contains is_bit_set plen pzero mcmp a b') as [ou Eu].
  destruct (intersection_mut_total pfx V V contains is_bit_set plen pzero mcmp a b') as [oi Ei].
  destruct (difference_mut_total pfx V V contains is_bit_set plen pzero mcmp a b') as [od Ed].
  destruct (covering_difference_mut_total pfx V V contains is_bit_set plen pzero mcmp a b') as [oc Ec].
  rewrite Eu, Ei, Ed, Ec, dm_slots_eq, cdm_slots_eq.
  destruct (union_mut_views_disjoint pfx V peq contains is_bit_set plen lcp pzero mcmp bits ok LAWS
              b T [false] [true] Hwf Hnd H12 H21 ou Eu) as [_ [_ Nu]].
  destruct (union_mut_refs pfx V V peq contains is_bit_set plen lcp pzero mcmp bits ok LAWS
              ba bb a b' ou Wa Wb Eu) as [Lu [Ru _]].
  destruct (slots_clause (map slot3 (entries_id T)) (um_slots_perm ou) Nu) as [U1 U2].
  { apply incl_app; [exact (refs_in_entries Sa Lu) | exact (keyed_refs_in_entries Sb Ru)]. }
  destruct (intersection_mut_views_disjoint pfx V peq contains is_bit_set plen lcp pzero mcmp bits ok LAWS
              b T [false] [true] Hwf Hnd H12 H21 oi Ei) as [_ [_ Ni]].
  destruct (intersection_mut_refs pfx V V peq contains is_bit_set plen lcp pzero mcmp bits ok LAWS
              ba bb a b' oi Wa Wb Ei) as [Li [Ri _]].
  destruct (slots_clause (map slot3 (entries_id T)) (im_slots_perm oi) Ni) as [I1 I2].
  { apply incl_app; [exact (refs_in_entries Sa Li) | exact (keyed_refs_in_entries Sb Ri)]. }
  destruct (difference_mut_views_disjoint pfx V peq contains is_bit_set plen lcp pzero mcmp bits ok LAWS
              b T [false] [true] Hwf Hnd H12 H21 od Ed) as [_ [Nd Ad]].
  destruct (difference_mut_refs pfx V V peq contains is_bit_set plen lcp pzero mcmp bits ok LAWS
              ba bb a b' od Wa Wb Ed) as [Ld _].
  destruct (slots_clause _ (Permutation_refl _) Nd (refs_in_entries Sa Ld)) as [D1 D2].
  assert (D3 : forallb (fun x => negb (memb x (map slot3 (entries_id b')))) (map slot3 (dm_refs pfx V V od)) = true).
  { apply forallb_forall. intros x Hx. apply negb_true_iff. apply memb_false. intros Hb.
    apply (Ad x Hx). apply slots_in_ids. exact Hb. }
  destruct (covering_difference_mut_views_disjoint pfx V peq contains is_bit_set plen lcp pzero mcmp bits ok LAWS
              b T [false] [true] Hwf Hnd H12 H21 oc Ec) as [_ [Nc _]].
  destruct (covering_difference_mut_refs pfx V V peq contains is_bit_set plen lcp pzero mcmp bits ok LAWS
              ba bb a b' oc Wa Wb Ec) as [Lc _].
  destruct (slots_clause _ (Permutation_refl _) Nc (refs_in_entries Sa Lc)) as [C1 C2].
  rewrite U1, U2, I1, I2, D1, D2, D3, C1, C2. reflexivity.
Qed.

Theorem alias_report_true b (T : tree) :
  wf_under b T -> NoDup (ids T) ->
  alias_report T = (length (entries T), true, true, true, true).
Proof.
  intros Hwf Hnd. unfold ParModel.alias_report.
  rewrite (split_slots_spec T (S (tsize T))) by lia.
  rewrite (iter_mut_items_spec pfx V).
  assert (E1 : nodupb (map slot3 (entries_id T)) = true).
  { apply nodupb_spec. apply entry_slots_nodup. exact Hnd. }
  rewrite E1, (proj2 (same_setb_spec _ _) (fun _ => iff_refl _)), (sets_clause_true b T Hwf Hnd), map_length, <- length_entries_id.
  reflexivity.
Qed.

Corollary alias_report_true_root (T : tree) :
  wf_root T -> NoDup (ids T) ->
  alias_report T = (length (entries T), true, true, true, true).
Proof.
  intros Hwf. destruct T as [|i p v l r]; [destruct Hwf|]. destruct Hwf as [_ Hu].
  exact (alias_report_true [] _ Hu).
Qed.

Section ParSf.
Variable sf : V -> V.
Notation par_go := (par_go pfx V is_bit_set plen pzero sf).
Notation par_jobs := (par_jobs pfx V is_bit_set plen pzero sf).

(** the slots of the references worker [j]'s [iter_mut] yields *)
Definition job_slots (T : tree) (j : vmut) : list N := map slot3 (vm_iter_mut T j).

Lemma job_slots_tree (T : tree) (j : vmut) : job_slots T j = tree_slots (vm_tree T j).
Proof. unfold job_slots. rewrite (vm_iter_mut_spec pfx V), tree_slots_spec. reflexivity. Qed.

Lemma subtree_tsize (pa : path) : forall t : tree, tsize (subtree t pa) <= tsize t.
Proof.
  induction pa as [|s pa IH]; intros [|i p v l r]; cbn [subtree tsize]; try lia.
  specialize (IH (if s then r else l)). destruct s; lia.
Qed.

Lemma split_slots_job (T : tree) (m : vmut) fuel :
  tsize T + 1 < fuel -> split_slots fuel T m = job_slots T m.
Proof.
  intros Hf. rewrite job_slots_tree. apply split_slots_view.
  pose proof (subtree_tsize (mpath m) T). unfold vm_tree. lia.
Qed.

(** What the theorems about [par] rest on, at any view (virtual or not) and relative to the slots
    the view iterates over: the slots the splitter writes and those of the jobs are, up to order,
    these.  The shape of the tree plays no part: [par_go k] is [split_slots] cut off [k] levels
    down, both recursing along [vm_split] alike, and [split_slots] with enough fuel is [job_slots]
    ([split_slots_view]). *)
Lemma par_go_cut (T : tree) : forall k m,
  Permutation (map fst (snd (par_go k T m)) ++ concat (map (job_slots T) (fst (par_go k T m))))
              (job_slots T m).
Proof.
  induction k as [|k IH]; intros m.
  - cbn [ParModel.par_go fst snd map concat app]. rewrite app_nil_r. apply Permutation_refl.
  - rewrite <- (split_slots_job T m (S (tsize T + 2))) by lia.
    cbn [ParModel.par_go ParModel.split_slots fst snd]. rewrite !map_app, concat_app.
    eapply Permutation_trans; [apply perm_shuffle|].
    apply Permutation_app; [|apply Permutation_app].
    + destruct (own_slot T m) as [i|] eqn:E; [|constructor].
      destruct (own_slot_some T m i E) as (p & x & l & r & _ & _ & -> & _). apply Permutation_refl.
    + destruct (fst (Views.vm_split pfx V is_bit_set plen pzero T m));
        [rewrite split_slots_job by lia; apply IH | constructor].
    + destruct (snd (Views.vm_split pfx V is_bit_set plen pzero T m));
        [rewrite split_slots_job by lia; apply IH | constructor].
Qed.

Theorem par_cover_perm (k : nat) (T : tree) :
  Permutation (map fst (snd (par_jobs k T)) ++ concat (map (job_slots T) (fst (par_jobs k T))))
              (map slot3 (entries_id T)).
Proof. rewrite <- (split_slots_spec T (tsize T + 2)), split_slots_job by lia. apply par_go_cut. Qed.

Lemma par_go_views (T : tree) : forall k m, mvirt m = None ->
  Forall (fun j => mvirt j = None /\ prefix_of (mpath m) (mpath j) /\ length (mpath j) <= length (mpath m) + k)
         (fst (par_go k T m)).
Proof.
  induction k as [|k IH]; intros m Hv.
  - repeat constructor; [exact Hv | apply prefix_of_refl | lia].
  - cbn [ParModel.par_go fst]. unfold Views.vm_split. rewrite Hv. cbn [fst snd].
    assert (Hs : forall (s : bool) (c : tree),
              Forall (fun j => mvirt j = None /\ prefix_of (mpath m) (mpath j) /\
                               length (mpath j) <= length (mpath m) + S k)
                (fst (match (if is_node c then Some (mkvmut (mpath m ++ [s]) None) else None) with
                      | Some m' => par_go k T m'
                      | None => ([], [])
                      end))).
    { intros s c. destruct (is_node c); [|constructor].
      eapply Forall_impl; [|apply IH; reflexivity]. cbn [Views.mpath]. intros j (J1 & J2 & J3).
      rewrite app_length in J3. cbn [length] in J3.
      split; [exact J1 | split; [exact (prefix_of_trans _ _ _ (prefix_of_app _ _) J2) | lia]]. }
    apply Forall_app. split; apply Hs.
Qed.

Theorem par_jobs_views (k : nat) (T : tree) :
  Forall (fun j => mvirt j = None /\ length (mpath j) <= k) (fst (par_jobs k T)).
Proof.
  eapply Forall_impl; [|exact (par_go_views T k vm_root eq_refl)]. intros j (J1 & _ & J2). exact (conj J1 J2).
Qed.

Lemma par_go_writes (T : tree) i y : forall k m,
  In (i, y) (snd (par_go k T m)) -> exists p x, In (i, p, x) (entries_id (vm_tree T m)) /\ y = sf x.
Proof.
  assert (D : forall m m' : vmut, prefix_of (mpath m) (mpath m') ->
            incl (entries_id (vm_tree T m')) (entries_id (vm_tree T m))).
  { intros m m' [c E]. unfold vm_tree. rewrite E, (subtree_app pfx V). apply (subtree_entries_id_incl pfx V). }
  induction k as [|k IH]; intros m; [intros []|].
  cbn [ParModel.par_go snd]. rewrite (vm_split_eq pfx V), !in_app_iff. cbn [fst snd]. intros [H|[H|H]].
  - destruct (own_slot T m) as [j|] eqn:E; [|destruct H].
    destruct (own_slot_some T m j E) as (p & x & l & r & _ & Et & Ex & _). rewrite Ex in H.
    destruct H as [[= <- <-]|[]]. exists p, x. rewrite Et. split; [left; reflexivity | reflexivity].
  - destruct (Views.vm_left _ _ _ _ _ T m) as [m'|] eqn:E; [|destruct H]. destruct (IH _ H) as (p & x & Hin & ->).
    exists p, x. split; [exact (D m m' (proj1 (vm_left_below E)) _ Hin) | reflexivity].
  - destruct (Views.vm_right _ _ _ _ _ T m) as [m'|] eqn:E; [|destruct H]. destruct (IH _ H) as (p & x & Hin & ->).
    exists p, x. split; [exact (D m m' (proj1 (vm_right_below E)) _ Hin) | reflexivity].
Qed.

Theorem par_splitter_writes (k : nat) (T : tree) i y :
  In (i, y) (snd (par_jobs k T)) -> exists p x, In (i, p, x) (entries_id T) /\ y = sf x.
Proof. intros H. destruct (par_go_writes T i y k vm_root H) as (p & x & Hin & E). exists p, x. destruct T; exact (conj Hin E). Qed.

(** the three facts together, at the view of a path: the slots the splitter writes and the slots of
    the jobs partition those of the subtree; the jobs are real views below the path, at most [k]
    levels down; the splitter writes [sf] of entries of the subtree *)
Lemma par_go_spec (T : tree) : forall k pa,
  Permutation (map fst (snd (par_go k T (mkvmut pa None)))
               ++ concat (map (job_slots T) (fst (par_go k T (mkvmut pa None)))))
              (tree_slots (subtree T pa)) /\
  Forall (fun j => mvirt j = None /\ prefix_of pa (mpath j) /\ length (mpath j) <= length pa + k)
         (fst (par_go k T (mkvmut pa None))) /\
  (forall i y, In (i, y) (snd (par_go k T (mkvmut pa None))) ->
     exists p x, In (i, p, x) (entries_id (subtree T pa)) /\ y = sf x).
Proof.
  intros k pa. split; [|split].
  - change (subtree T pa) with (vm_tree T (mkvmut pa None)). rewrite <- job_slots_tree. apply par_go_cut.
  - exact (par_go_views T k (mkvmut pa None) eq_refl).
  - intros i y. exact (par_go_writes T i y k (mkvmut pa None)).
Qed.

(** every entry is either the own entry of a split node (written by [sf], in no job)
    or belongs to exactly one job (and is not written by the splitter) *)
Theorem par_jobs_cover (k : nat) (T : tree) :
  NoDup (ids T) ->
  let jobs := fst (par_jobs k T) in
  let ws := snd (par_jobs k T) in
  forall i p x, In (i, p, x) (entries_id T) ->
    (In (i, sf x) ws /\ forall j, In j jobs -> ~ In i (job_slots T j))
    \/
    (~ In i (map fst ws) /\
     exists n j, nth_error jobs n = Some j /\ In (i, p, x) (vm_iter_mut T j) /\
       forall n' j', nth_error jobs n' = Some j' -> In i (job_slots T j') -> n' = n).
Proof.
  intros Hnd jobs ws i p x Hin.
  pose proof (par_cover_perm k T) as Hp. fold jobs in Hp. fold ws in Hp.
  assert (Hall : NoDup (map fst ws ++ concat (map (job_slots T) jobs))).
  { eapply Permutation_NoDup; [apply Permutation_sym; exact Hp|]. apply entry_slots_nodup. exact Hnd. }
  destruct (nodup_app_inv _ _ Hall) as [_ [HJ Hd]].
  assert (Hi : In i (map fst ws ++ concat (map (job_slots T) jobs))).
  { apply (Permutation_in _ (Permutation_sym Hp)). apply (in_map slot3) in Hin. exact Hin. }
  apply in_app_or in Hi. destruct Hi as [Hi|Hi].
  - left. split.
    + apply in_map_iff in Hi. destruct Hi as [[i' y] [Ei Hy]]. cbn [fst] in Ei. subst i'.
      destruct (par_splitter_writes k T i y Hy) as [p' [x' [H1 ->]]].
      destruct (entries_id_slot_inj pfx V T Hnd i p x p' x' Hin H1) as [_ <-]. exact Hy.
    + intros j Hj Hij. apply (Hd i Hi). apply in_concat. exists (job_slots T j).
      split; [apply in_map; exact Hj | exact Hij].
  - right. split; [intros Hi'; exact (Hd i Hi' Hi)|].
    apply in_concat in Hi. destruct Hi as [sl [Hsl Hisl]].
    apply In_nth_error in Hsl. destruct Hsl as [n Hn]. rewrite nth_error_map in Hn.
    destruct (nth_error jobs n) as [j|] eqn:Ej; [|discriminate]. cbn [option_map] in Hn.
    inversion Hn; subst sl. exists n, j. split; [exact Ej|]. split.
    + unfold job_slots in Hisl. apply in_map_iff in Hisl. destruct Hisl as [[[i' p'] x'] [Ei He]].
      cbn [MutTrav.slot3] in Ei. subst i'.
      destruct (vm_iter_mut_refs pfx V T j Hnd) as [_ Hincl].
      destruct (entries_id_slot_inj pfx V T Hnd i p x p' x' Hin (Hincl _ He)) as [<- <-]. exact He.
    + intros n' j' Hn' Hij'. destruct (Nat.eq_dec n' n) as [E|Hne]; [exact E|]. exfalso.
      refine (nodup_concat_disjoint (map (job_slots T) jobs) HJ n n' (job_slots T j) (job_slots T j')
                _ _ _ i Hisl Hij'); [intros ->; apply Hne; reflexivity | |].
      * rewrite nth_error_map, Ej. reflexivity.
      * rewrite nth_error_map, Hn'. reflexivity.
Qed.

Section ParWf.
Variable wf : nat -> V -> V.
Notation job_writes := (job_writes pfx V wf).
Notation workers_writes := (workers_writes pfx V wf).
Notation par_workers := (par_workers pfx V is_bit_set plen pzero wf sf).
Notation par_writes := (par_writes pfx V is_bit_set plen pzero wf sf).
Notation par_result := (par_result pfx V is_bit_set plen pzero wf sf).

Lemma job_writes_slots (T : tree) n j : map fst (job_writes T n j) = job_slots T j.
Proof.
  unfold ParModel.job_writes, job_slots. rewrite map_map. apply map_ext. intros [[i p] x]. reflexivity.
Qed.

Lemma workers_writes_slots (T : tree) jobs : forall n,
  map (map fst) (workers_writes T n jobs) = map (job_slots T) jobs.
Proof.
  induction jobs as [|j jobs IH]; intros n; [reflexivity|].
  cbn [ParModel.workers_writes map]. rewrite job_writes_slots, IH. reflexivity.
Qed.

Lemma workers_writes_nth (T : tree) jobs : forall n0 n j,
  nth_error jobs n = Some j -> nth_error (workers_writes T n0 jobs) n = Some (job_writes T (n0 + n) j).
Proof.
  induction jobs as [|j0 jobs IH]; intros n0 n j H; [destruct n; discriminate|].
  destruct n as [|n]; cbn [nth_error ParModel.workers_writes] in *.
  - inversion H; subst. rewrite Nat.add_0_r. reflexivity.
  - rewrite (IH (S n0) n j H). f_equal. f_equal. lia.
Qed.

Lemma workers_writes_length (T : tree) jobs : forall n, length (workers_writes T n jobs) = length jobs.
Proof.
  induction jobs as [|j jobs IH]; intros n; [reflexivity|]. cbn [ParModel.workers_writes length].
  rewrite IH. reflexivity.
Qed.

Lemma par_writes_slots (k : nat) (T : tree) :
  map fst (par_writes k T)
  = map fst (snd (par_jobs k T)) ++ concat (map (job_slots T) (fst (par_jobs k T))).
Proof.
  unfold ParModel.par_writes, ParModel.par_workers. rewrite map_app, map_fst_concat, workers_writes_slots.
  reflexivity.
Qed.

Theorem par_writes_perm (k : nat) (T : tree) :
  Permutation (map fst (par_writes k T)) (map slot3 (entries_id T)).
Proof. rewrite par_writes_slots. apply par_cover_perm. Qed.

Theorem par_writes_nodup (k : nat) (T : tree) : NoDup (ids T) -> NoDup (map fst (par_writes k T)).
Proof.
  intros Hnd. eapply Permutation_NoDup; [apply Permutation_sym; apply par_writes_perm|].
  apply entry_slots_nodup. exact Hnd.
Qed.

Lemma write_ids_concat (W : list (list (N * V))) : forall t : tree,
  NoDup (map fst (concat W)) -> fold_left (fun t w => write_ids t w) W t = write_ids t (concat W).
Proof.
  induction W as [|w W IH]; intros t Hnd; cbn [fold_left concat].
  - symmetry. apply write_ids_nil.
  - cbn [concat] in Hnd. rewrite map_app in Hnd. destruct (nodup_app_inv _ _ Hnd) as [_ [HW Hd]].
    rewrite (IH _ HW). apply write_ids_seq_disjoint. exact Hd.
Qed.

Theorem par_schedule_independent (k : nat) (T : tree) :
  NoDup (ids T) ->
  let ws := snd (par_jobs k T) in
  let W := par_workers k T in
  (* the slot sets of the splitter and of the workers: all writes go to distinct slots ... *)
  NoDup (map fst ws ++ concat (map (map fst) W)) /\
  (* ... in particular no worker touches a slot of the splitter ... *)
  (forall n w, nth_error W n = Some w -> forall i, In i (map fst w) -> ~ In i (map fst ws)) /\
  (* ... and two different workers touch disjoint slot sets *)
  (forall n n' w w', n <> n' -> nth_error W n = Some w -> nth_error W n' = Some w' ->
     forall i, In i (map fst w) -> ~ In i (map fst w')) /\
  (* any schedule of the workers' individual writes after the split phase ... *)
  (forall s, interleaveN W s -> write_each T (ws ++ s) = par_result k T) /\
  (* ... indeed any order at all of all individual writes ... *)
  (forall s, Permutation s (par_writes k T) -> write_each T s = par_result k T) /\
  (* ... yields the result of running splitter and workers one after the other *)
  fold_left (fun t w => write_ids t w) W (write_ids T ws) = par_result k T.
Proof.
  intros Hnd ws W.
  pose proof (par_writes_nodup k T Hnd) as Hw.
  assert (Hw' : NoDup (map fst ws ++ concat (map (map fst) W))).
  { unfold ParModel.par_writes in Hw. rewrite map_app, map_fst_concat in Hw. exact Hw. }
  destruct (nodup_app_inv _ _ Hw') as [_ [HW Hd]].
  split; [exact Hw'|]. split; [|split; [|split; [|split]]].
  - intros n w Hn i Hi Hi'. apply (Hd i Hi'). apply in_concat. exists (map fst w). split; [|exact Hi].
    apply in_map. eapply nth_error_In. exact Hn.
  - intros n n' w w' Hne Hn Hn'. apply (nodup_concat_disjoint (map (map fst) W) HW n n'); [exact Hne| |].
    + rewrite nth_error_map, Hn. reflexivity.
    + rewrite nth_error_map, Hn'. reflexivity.
  - intros s Hs. unfold ParModel.par_result. apply write_each_perm; [exact Hw|].
    unfold ParModel.par_writes. apply Permutation_app_head. apply interleaveN_perm. exact Hs.
  - intros s Hs. unfold ParModel.par_result. apply write_each_perm; [exact Hw | exact Hs].
  - rewrite write_ids_concat by (rewrite map_fst_concat; exact HW).
    unfold ParModel.par_result, ParModel.par_writes. apply write_ids_seq_disjoint.
    intros i Hi. rewrite map_fst_concat. apply Hd. exact Hi.
Qed.

Corollary par_result_rev (k : nat) (T : tree) :
  NoDup (ids T) -> write_ids T (rev (par_writes k T)) = par_result k T.
Proof.
  intros Hnd. unfold ParModel.par_result. apply write_ids_ext. intros i _. symmetry.
  apply assoc_id_perm; [apply par_writes_nodup; exact Hnd | apply Permutation_rev].
Qed.

Theorem par_result_frame (k : nat) (T : tree) :
  map fst (entries (par_result k T)) = map fst (entries T) /\
  ids (par_result k T) = ids T /\
  skel (par_result k T) = skel T /\
  map (fun '(i, p, _) => (i, p)) (entries_id (par_result k T))
  = map (fun '(i, p, _) => (i, p)) (entries_id T).
Proof.
  unfold ParModel.par_result. split; [apply write_ids_entries_keys|].
  split; [apply write_ids_ids|]. split; [apply write_ids_skel | apply write_ids_keys].
Qed.

(** the value every entry holds after [par]: [sf x] for the own entry of a split node, [wf n x]
    for an entry of job [n]; slot, stored prefix and position are unchanged *)
Theorem par_result_values (k : nat) (T : tree) :
  NoDup (ids T) ->
  let jobs := fst (par_jobs k T) in
  let ws := snd (par_jobs k T) in
  entries_id (par_result k T)
  = map (fun '(i, p, x) => (i, p, newval V (par_writes k T) i x)) (entries_id T) /\
  forall i p x, In (i, p, x) (entries_id T) ->
    (In i (map fst ws) -> newval V (par_writes k T) i x = sf x) /\
    (forall n j, nth_error jobs n = Some j -> In (i, p, x) (vm_iter_mut T j) ->
       newval V (par_writes k T) i x = wf n x) /\
    (newval V (par_writes k T) i x = sf x \/
     exists n j, nth_error jobs n = Some j /\ In (i, p, x) (vm_iter_mut T j) /\
                 newval V (par_writes k T) i x = wf n x).
Proof.
  intros Hnd jobs ws. split; [apply write_ids_entries_id_newval|].
  intros i p x Hin.
  pose proof (par_writes_nodup k T Hnd) as Hw.
  assert (Hsf : In i (map fst ws) -> newval V (par_writes k T) i x = sf x).
  { intros Hi. apply in_map_iff in Hi. destruct Hi as [[i' y] [Ei Hy]]. cbn [fst] in Ei. subst i'.
    destruct (par_splitter_writes k T i y Hy) as [p' [x' [H1 ->]]].
    destruct (entries_id_slot_inj pfx V T Hnd i p x p' x' Hin H1) as [_ <-].
    unfold newval. rewrite (proj2 (assoc_id_nodup V (par_writes k T) i (sf x) Hw)); [reflexivity|].
    unfold ParModel.par_writes. apply in_app_iff. left. exact Hy. }
  assert (Hwf : forall n j, nth_error jobs n = Some j -> In (i, p, x) (vm_iter_mut T j) ->
                  newval V (par_writes k T) i x = wf n x).
  { intros n j Hn He.
    unfold newval. rewrite (proj2 (assoc_id_nodup V (par_writes k T) i (wf n x) Hw)); [reflexivity|].
    unfold ParModel.par_writes. apply in_app_iff. right. apply in_concat.
    exists (job_writes T n j). split.
    - unfold ParModel.par_workers. fold jobs. eapply nth_error_In.
      rewrite (workers_writes_nth T jobs 0 n j Hn). reflexivity.
    - unfold ParModel.job_writes. apply in_map_iff. exists (i, p, x). split; [reflexivity | exact He]. }
  split; [exact Hsf|]. split; [exact Hwf|].
  destruct (par_jobs_cover k T Hnd i p x Hin) as [[Hy _]|[_ [n [j [Hn [He _]]]]]].
  - left. apply Hsf. apply (in_map fst) in Hy. exact Hy.
  - right. exists n, j. split; [exact Hn|]. split; [exact He|]. exact (Hwf n j Hn He).
Qed.

Corollary par_result_entries (k : nat) (T : tree) :
  entries (par_result k T) = map (fun '(i, p, x) => (p, newval V (par_writes k T) i x)) (entries_id T).
Proof. unfold ParModel.par_result. apply write_ids_entries_newval. Qed.

End ParWf.
End ParSf.
End Thm.

Print Assumptions own_slot_some.
Print Assumptions own_slot_none.
Print Assumptions split_slots_view.
Print Assumptions split_slots_spec.
Print Assumptions split_slots_exact.
Print Assumptions alias_report_true.
Print Assumptions alias_report_true_root.
Print Assumptions par_cover_perm.
Print Assumptions par_jobs_views.
Print Assumptions par_writes_perm.
Print Assumptions par_schedule_independent.
Print Assumptions par_result_rev.
Print Assumptions par_result_frame.
Print Assumptions par_result_values.
Print Assumptions par_jobs_cover.
Print Assumptions interleaveN_perm.
Print Assumptions interleave_interleaveN.
Print Assumptions interleaveN_concat.

(** * Example: width 8, flavour [Generic], values [nat]
    The map {16/4 -> 10, 24/5 -> 60, 32/4 -> 20, 128/1 -> 30, 160/3 -> 50, 192/2 -> 40}: the root
    0/0 holds no value, and 0/2 is a value-less branching node above 16/4 and 32/4. *)
From PT Require Import PrefixN Inst.

Definition ex_ins (m : pmap PrefixN.pfx nat) (r l : N) (x : nat) : pmap PrefixN.pfx nat :=
  fst (t_insert 8%N Generic nat m (mkpfx r l) x).

Definition ex_map : pmap PrefixN.pfx nat :=
  ex_ins (ex_ins (ex_ins (ex_ins (ex_ins (ex_ins (t_empty nat)
    16%N 4%N 10%nat) 32%N 4%N 20%nat) 128%N 1%N 30%nat) 192%N 2%N 40%nat) 160%N 3%N 50%nat)
    24%N 5%N 60%nat.

Definition ex_alias_report :=
  alias_report PrefixN.pfx nat (PrefixN.contains 8%N Generic) (PrefixN.is_bit_set 8%N)
               PrefixN.plen PrefixN.pzero (PrefixN.mcmp 8%N).
(** the harness' functions: worker [i] stores [3x+i], the splitter [3x+7] *)
Definition ex_wf (i x : nat) : nat := (3 * x + i)%nat.
Definition ex_sf (x : nat) : nat := (3 * x + 7)%nat.
Definition ex_par_jobs :=
  par_jobs PrefixN.pfx nat (PrefixN.is_bit_set 8%N) PrefixN.plen PrefixN.pzero ex_sf.
Definition ex_par_writes :=
  par_writes PrefixN.pfx nat (PrefixN.is_bit_set 8%N) PrefixN.plen PrefixN.pzero ex_wf ex_sf.
Definition ex_par_result :=
  par_result PrefixN.pfx nat (PrefixN.is_bit_set 8%N) PrefixN.plen PrefixN.pzero ex_wf ex_sf.

Example ex_map_tree :
  root ex_map
  = Node 0%N (mkpfx 0%N 0%N) None
      (Node 2%N (mkpfx 0%N 2%N) None
         (Node 1%N (mkpfx 16%N 4%N) (Some 10%nat) Leaf
            (Node 7%N (mkpfx 24%N 5%N) (Some 60%nat) Leaf Leaf))
         (Node 3%N (mkpfx 32%N 4%N) (Some 20%nat) Leaf Leaf))
      (Node 4%N (mkpfx 128%N 1%N) (Some 30%nat)
         (Node 6%N (mkpfx 160%N 3%N) (Some 50%nat) Leaf Leaf)
         (Node 5%N (mkpfx 192%N 2%N) (Some 40%nat) Leaf Leaf)).
Proof. vm_compute. reflexivity. Qed.

Example ex_split_slots :
  split_slots PrefixN.pfx nat (PrefixN.is_bit_set 8%N) PrefixN.plen PrefixN.pzero
              (S (tsize (root ex_map))) (root ex_map) (vm_root PrefixN.pfx)
  = [1%N; 7%N; 3%N; 4%N; 6%N; 5%N].
Proof. vm_compute. reflexivity. Qed.

Example ex_alias : ex_alias_report (root ex_map) = (6%nat, true, true, true, true).
Proof. vm_compute. reflexivity. Qed.

(** the report is not trivially true: a (non-reachable) tree in which two nodes share slot 0 *)
Example ex_alias_detects :
  ex_alias_report (Node 0%N (mkpfx 0%N 0%N) (Some 1%nat)
                     (Node 0%N (mkpfx 0%N 1%N) (Some 2%nat) Leaf Leaf)
                     (Node 1%N (mkpfx 128%N 1%N) (Some 3%nat) Leaf Leaf))
  = (3%nat, false, false, true, true).
Proof. vm_compute. reflexivity. Qed.

(** [par A 2]: the root and 0/2 hold no value, 128/1 is rewritten by the splitter; four jobs *)
Example ex_par_jobs_2 :
  ex_par_jobs 2%nat (root ex_map)
  = ([mkvmut PrefixN.pfx [false; false] None; mkvmut PrefixN.pfx [false; true] None;
      mkvmut PrefixN.pfx [true; false] None; mkvmut PrefixN.pfx [true; true] None],
     [(4%N, 97%nat)]).
Proof. vm_compute. reflexivity. Qed.

Example ex_par_writes_2 :
  ex_par_writes 2%nat (root ex_map)
  = [(4%N, 97%nat); (1%N, 30%nat); (7%N, 180%nat); (3%N, 61%nat); (6%N, 152%nat); (5%N, 123%nat)].
Proof. vm_compute. reflexivity. Qed.

Example ex_par_result_2 :
  entries (ex_par_result 2%nat (root ex_map))
  = [(mkpfx 16%N 4%N, 30%nat); (mkpfx 24%N 5%N, 180%nat); (mkpfx 32%N 4%N, 61%nat);
     (mkpfx 128%N 1%N, 97%nat); (mkpfx 160%N 3%N, 152%nat); (mkpfx 192%N 2%N, 123%nat)].
Proof. vm_compute. reflexivity. Qed.

(** [par A 0]: one job, the whole map; [par A 6]: every node is split, no job is left *)
Example ex_par_result_0 :
  entries (ex_par_result 0%nat (root ex_map))
  = [(mkpfx 16%N 4%N, 30%nat); (mkpfx 24%N 5%N, 180%nat); (mkpfx 32%N 4%N, 60%nat);
     (mkpfx 128%N 1%N, 90%nat); (mkpfx 160%N 3%N, 150%nat); (mkpfx 192%N 2%N, 120%nat)].
Proof. vm_compute. reflexivity. Qed.

Example ex_par_result_6 :
  fst (ex_par_jobs 6%nat (root ex_map)) = [] /\
  entries (ex_par_result 6%nat (root ex_map))
  = [(mkpfx 16%N 4%N, 37%nat); (mkpfx 24%N 5%N, 187%nat); (mkpfx 32%N 4%N, 67%nat);
     (mkpfx 128%N 1%N, 97%nat); (mkpfx 160%N 3%N, 157%nat); (mkpfx 192%N 2%N, 127%nat)].
Proof. vm_compute. split; reflexivity. Qed.


(** the hypotheses of the theorems hold for the example (they are not vacuous) *)
From PT Require Import PrefixLaws Mutate.

Definition ex_laws := pn_laws 8%N Generic ltac:(vm_compute; discriminate).
Notation ex_wf_root := (TrieWf.wf_root PrefixN.pfx nat (pbits 8%N) (fun p => valid 8%N p = true)).

Lemma ex_ins_wf (m : pmap PrefixN.pfx nat) r l x :
  ex_wf_root (root m) -> valid 8%N (mkpfx r l) = true -> ex_wf_root (root (ex_ins m r l x)).
Proof.
  intros Hwf Hok. unfold ex_ins, t_insert.
  destruct (insert _ _ _ _ _ _ _ m (mkpfx r l) x) as [m' o] eqn:E. cbn [fst].
  exact (proj1 (Mutate.insert_spec _ _ _ _ _ _ _ _ _ _ _ ex_laws m (mkpfx r l) x m' o Hwf Hok E)).
Qed.

Lemma ex_map_wf : ex_wf_root (root ex_map).
Proof.
  unfold ex_map. repeat (apply ex_ins_wf; [|vm_compute; reflexivity]).
  exact (proj1 (Mutate.empty_spec _ nat _ _ _ _ _ _ _ _ _ ex_laws)).
Qed.

Lemma ex_map_nodup : NoDup (Slots.ids PrefixN.pfx nat (root ex_map)).
Proof. apply nodupb_spec. vm_compute. reflexivity. Qed.

(** [alias_report_true] instantiated (agrees with the computation [ex_alias]) *)
Example ex_alias_by_theorem :
  ex_alias_report (root ex_map) = (length (entries (root ex_map)), true, true, true, true).
Proof.
  exact (alias_report_true_root PrefixN.pfx nat _ _ _ _ _ _ _ _ _ ex_laws (root ex_map) ex_map_wf ex_map_nodup).
Qed.

(** [par_schedule_independent] instantiated: e.g. the reverse of all individual writes *)
Example ex_par_any_order :
  write_each PrefixN.pfx nat (root ex_map) (rev (ex_par_writes 2%nat (root ex_map)))
  = ex_par_result 2%nat (root ex_map).
Proof.
  destruct (par_schedule_independent PrefixN.pfx nat (PrefixN.is_bit_set 8%N) PrefixN.plen PrefixN.pzero
              ex_sf ex_wf 2%nat (root ex_map) ex_map_nodup) as [_ [_ [_ [_ [H _]]]]].
  apply H. apply Permutation_sym. apply Permutation_rev.
Qed.

Print Assumptions ex_alias_by_theorem.
Print Assumptions ex_par_any_order.
