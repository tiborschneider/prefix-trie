(** Views: a view addresses exactly the entries under its prefix; left/right split by the next
    bit; find / find_exact / find_lpm are relative to the view's entries.

    [find] is the master search: [find_exact] is [find] restricted to results that carry a value;
    [find_lpm] is specified through the loop of [get_lpm] ([find_lpm_walk_pv],
    [v_find_lpm_spec]); that its result is [find_exact] at the best match ([find_lpm_walk_exact])
    is used by [ViewsExtra.v_find_lpm_full]. *)
From Coq Require Import List NArith Bool.
From PT Require Import Bits BitsThm Laws Trie Views TrieWf Lookup Lookup2.
Import ListNotations.

Lemma match_none {A} {o : option A} {P : A -> Prop} {Q : Prop} :
  match o with Some y => P y | None => Q end -> o = None -> Q.
Proof. intros H ->. exact H. Qed.

Section VT.
Variables (pfx V : Type).
Variables (peq contains : pfx -> pfx -> bool) (is_bit_set : pfx -> N -> bool)
          (plen : pfx -> N) (lcp : pfx -> pfx -> pfx) (pzero : pfx)
          (mcmp : pfx -> pfx -> comparison).
Variable bits : pfx -> list bool.
Variable ok : pfx -> Prop.
Hypothesis LAWS : prefix_laws pfx peq contains is_bit_set plen lcp pzero mcmp bits ok.

Notation tree := (tree pfx V).
Notation view := (view pfx V).
Notation to_right := (to_right pfx is_bit_set plen).
Notation child_of := (child_of pfx V).
Notation step := (step pfx V peq contains is_bit_set plen).
Notation wf_under := (wf_under pfx V bits ok).
Notation key := (key pfx V bits).
Notation tpfx := (tpfx pfx V pzero).
Notation root_covers := (root_covers pfx V bits).
Notation children_start := (children_start pfx V peq contains is_bit_set plen).
Notation find_walk := (find_walk pfx V peq contains is_bit_set plen).
Notation v_find := (v_find pfx V peq contains is_bit_set plen).
Notation find_exact_walk := (find_exact_walk pfx V peq contains is_bit_set plen).
Notation v_find_exact := (v_find_exact pfx V peq contains is_bit_set plen).
Notation find_lpm_walk := (find_lpm_walk pfx V peq contains is_bit_set plen).
Notation v_find_lpm := (v_find_lpm pfx V peq contains is_bit_set plen).
Notation v_left := (v_left pfx V is_bit_set plen pzero).
Notation v_right := (v_right pfx V is_bit_set plen pzero).
Notation v_prefix := (v_prefix pfx V pzero).
Notation lpm_walk := (lpm_walk pfx V peq contains is_bit_set plen).

Local Notation L_peq_true := (peq_true pfx peq contains is_bit_set plen lcp pzero mcmp bits ok LAWS).
Local Notation L_peq_false := (peq_false pfx peq contains is_bit_set plen lcp pzero mcmp bits ok LAWS).
Local Notation L_peq_refl := (peq_refl_bits pfx peq contains is_bit_set plen lcp pzero mcmp bits ok LAWS).
Local Notation L_contains_true := (contains_true pfx peq contains is_bit_set plen lcp pzero mcmp bits ok LAWS).
Local Notation L_contains_false := (contains_false pfx peq contains is_bit_set plen lcp pzero mcmp bits ok LAWS).
Local Notation L_contains_intro := (contains_intro pfx peq contains is_bit_set plen lcp pzero mcmp bits ok LAWS).
Local Notation L_to_right_spec := (to_right_spec pfx peq contains is_bit_set plen lcp pzero mcmp bits ok LAWS).
Local Notation descent_ind := (descent_ind pfx V peq contains is_bit_set plen).
Local Notation step_ind := (step_ind pfx V peq contains is_bit_set plen).
Local Notation step_wf H S := (step_wf pfx V peq contains is_bit_set plen bits ok _ _ _ _ _ _ _ _ H S).
Local Notation step_inv S := (step_inv pfx V peq contains is_bit_set plen _ _ _ _ _ _ _ S).
Local Notation wf_child s H := (wf_child pfx V bits ok _ _ _ _ _ _ s H).
Local Notation entries_under H Hin := (entries_under pfx V bits ok _ _ _ H Hin).
Local Notation wf_self H := (wf_self pfx V bits ok _ _ _ _ _ _ H).

(** a view is well-formed when its node's subtree is, and a virtual prefix lies strictly above
    the node (on the edge leading to it) *)
Definition view_wf (v : view) : Prop :=
  is_node (v_tree v) = true /\ (exists b, wf_under b (v_tree v)) /\
  match v with
  | VNode _ => True
  | VVirt p t => ok p /\ prefix_of (bits p) (bits (tpfx t)) /\ bits p <> bits (tpfx t)
  end.

Definition v_entries (v : view) : list (pfx * V) := entries (v_tree v).

Lemma view_wf_node {b t} : wf_under b t -> is_node t = true -> view_wf (VNode t).
Proof. intros Hwf Hn. split; [exact Hn|]. split; [exists b; exact Hwf | exact I]. Qed.

Lemma view_wf_root T : wf_root pfx V bits ok T -> view_wf (view_of T).
Proof. destruct T as [|i p v l r]; [intros []|]. intros [_ H]. exact (view_wf_node H eq_refl). Qed.

Lemma entries_under_root {b t e} : wf_under b t -> In e (entries t) -> prefix_of (bits (tpfx t)) (key e).
Proof.
  destruct t as [|i p v l r]; [intros _ []|]. intros Hwf Hin.
  exact (entries_under (wf_self Hwf) Hin).
Qed.

Lemma v_prefix_above v : view_wf v -> prefix_of (bits (v_prefix v)) (bits (tpfx (v_tree v))).
Proof. intros [_ [_ Hv]]. destruct v as [t|p t]; [apply prefix_of_refl | exact (proj1 (proj2 Hv))]. Qed.

Lemma v_entries_under v e : view_wf v -> In e (v_entries v) -> prefix_of (bits (v_prefix v)) (key e).
Proof.
  intros Hv Hin. eapply prefix_of_trans; [exact (v_prefix_above v Hv)|].
  destruct Hv as [_ [[b Hwf] _]]. exact (entries_under_root Hwf Hin).
Qed.

Lemma node_own_entry {b i p v l r e} :
  wf_under b (Node i p v l r) -> In e (entries (Node i p v l r)) -> key e = bits p ->
  v = Some (snd e) /\ fst e = p.
Proof.
  intros Hwf Hin Hk. apply (in_entries_node pfx V i p v l r false) in Hin.
  destruct Hin as [H|[Hin|Hin]]; [exact H| |]; exfalso.
  - exact (below_neq _ _ _ (entries_under (wf_child false Hwf) Hin) Hk).
  - exact (below_neq _ _ _ (entries_under (wf_child true Hwf) Hin) Hk).
Qed.

Lemma v_value_in v x : v_value v = Some x -> In (v_prefix v, x) (v_entries v).
Proof.
  destruct v as [[|i p v0 l r]|p t]; cbn; [discriminate| |discriminate]. intros ->. left. reflexivity.
Qed.

Lemma v_virtual_no_own v e :
  view_wf v -> v_is_virtual v = true -> In e (v_entries v) -> key e <> bits (v_prefix v).
Proof.
  intros [_ [[b Hwf] Hv]] Hvirt Hin E. destruct v as [t|p t]; [discriminate|].
  destruct Hv as [_ [Hcov Hne]]. apply Hne. apply prefix_of_antisym; [exact Hcov|].
  cbn [Views.v_prefix] in E. rewrite <- E. exact (entries_under_root Hwf Hin).
Qed.

Lemma v_own_entry (v : view) e :
  view_wf v -> In e (v_entries v) -> key e = bits (v_prefix v) ->
  v_is_virtual v = false /\ fst e = v_prefix v /\ v_value v = Some (snd e).
Proof.
  intros Hv Hin Hk. destruct (v_is_virtual v) eqn:Evirt.
  { exfalso. exact (v_virtual_no_own v e Hv Evirt Hin Hk). }
  split; [reflexivity|].
  destruct Hv as [Hn [[b Hwf] _]]. destruct v as [t|p t]; [|discriminate].
  destruct t as [|i p0 v0 l r]; [discriminate|].
  destruct (node_own_entry Hwf Hin Hk) as [H1 H2]. split; [exact H2 | exact H1].
Qed.

(** one step of the loop, with the child on the query's side named as in [descent_ind] *)
Lemma find_walk_node i p v l r q :
  find_walk (Node i p v l r) q =
  if peq p q then Some (VNode (Node i p v l r)) else
  match child_of l r (to_right p q) with
  | Leaf => None
  | Node _ cp _ _ _ =>
    if contains cp q then find_walk (child_of l r (to_right p q)) q
    else if contains q cp then Some (VVirt q (child_of l r (to_right p q))) else None
  end.
Proof. reflexivity. Qed.

(** the loop of [find] locates the same subtree as [lpm_children_iter_start] *)
Lemma find_walk_children t : forall q,
  match find_walk t q with
  | Some v' => children_start t q = [v_tree v']
  | None => children_start t q = []
  end.
Proof.
  intros q.
  induction t as [|i p v l r E|i p v l r E S|i p v l r ci cp cv cl cr E Ec C IH] using (descent_ind q).
  - reflexivity.
  - rewrite find_walk_node, children_start_node, E. reflexivity.
  - rewrite find_walk_node, children_start_node, E.
    destruct (child_of l r (to_right p q)) as [|ci cp cv cl cr]; [reflexivity|]. rewrite S.
    destruct (contains q cp); reflexivity.
  - rewrite find_walk_node, children_start_node, E, Ec, C. exact IH.
Qed.

Lemma find_walk_view {t b q v'} :
  wf_under b t -> ok q -> find_walk t q = Some v' ->
  view_wf v' /\ bits (v_prefix v') = bits q.
Proof.
  intros Hwf Hq. revert b Hwf.
  induction t as [|i p v l r E|i p v l r E S|i p v l r ci cp cv cl cr E Ec C IH] using (descent_ind q);
    intros b Hwf H.
  - discriminate.
  - rewrite find_walk_node, E in H. injection H as <-.
    split; [exact (view_wf_node Hwf eq_refl) | exact (L_peq_true p q (proj1 Hwf) Hq E)].
  - rewrite find_walk_node, E in H. pose proof (wf_child (to_right p q) Hwf) as Hc.
    destruct (child_of l r (to_right p q)) as [|ci cp cv cl cr]; [discriminate|]. rewrite S in H.
    destruct (contains q cp) eqn:C; [|discriminate]. injection H as <-. split; [|reflexivity].
    pose proof (proj1 Hc) as Hcp. split; [reflexivity|]. split; [eexists; exact Hc|].
    split; [exact Hq|]. split; [exact (L_contains_true q cp Hq Hcp C)|].
    intros Eq. apply (L_contains_false cp q Hcp Hq S). cbn [Trie.tpfx] in Eq. rewrite Eq. apply prefix_of_refl.
  - rewrite find_walk_node, E, Ec, C in H. pose proof (wf_child (to_right p q) Hwf) as Hc.
    rewrite Ec in Hc. exact (IH _ Hc H).
Qed.

(** the result of the loop is the node it was started at, or lies inside a child of that node:
    whatever holds of the children and is inherited by children holds of the result *)
Lemma find_walk_below (P : tree -> Prop) q :
  (forall t s, P t -> P (child_of (tleft t) (tright t) s)) ->
  forall t v', (forall s, P (child_of (tleft t) (tright t) s)) -> find_walk t q = Some v' ->
  v' = VNode t \/ P (v_tree v').
Proof.
  intros Hch t v'.
  induction t as [|i p v l r E|i p v l r E S|i p v l r ci cp cv cl cr E Ec C IH] using (descent_ind q);
    intros HP H.
  - discriminate.
  - rewrite find_walk_node, E in H. injection H as <-. left. reflexivity.
  - rewrite find_walk_node, E in H. specialize (HP (to_right p q)). cbn [tleft tright] in HP.
    destruct (child_of l r (to_right p q)) as [|ci cp cv cl cr]; [discriminate|]. rewrite S in H.
    destruct (contains q cp); [|discriminate]. injection H as <-. right. exact HP.
  - rewrite find_walk_node, E, Ec, C in H. specialize (HP (to_right p q)). cbn [tleft tright] in HP.
    rewrite Ec in HP. right.
    destruct (IH (fun s => Hch _ s HP) H) as [->|H']; [exact HP | exact H'].
Qed.

Lemma find_walk_incl t q v' : find_walk t q = Some v' -> incl (entries (v_tree v')) (entries t).
Proof.
  intros H.
  assert (Hch : forall t' s, incl (entries t') (entries t) ->
                             incl (entries (child_of (tleft t') (tright t') s)) (entries t)).
  { intros [|i p v l r] s Hi; [destruct s; exact Hi|].
    intros e He. apply Hi. exact (in_entries_child pfx V i p v l r s e He). }
  destruct (find_walk_below _ q Hch t v' (fun s => Hch t s (incl_refl _)) H) as [->|H']; [apply incl_refl | exact H'].
Qed.

Lemma find_walk_spec b t q :
  wf_under b t -> ok q -> root_covers t q ->
  match find_walk t q with
  | Some v' =>
    view_wf v' /\ bits (v_prefix v') = bits q /\
    forall e, In e (v_entries v') <-> In e (entries t) /\ prefix_of (bits q) (key e)
  | None => forall e, In e (entries t) -> ~ prefix_of (bits q) (key e)
  end.
Proof.
  intros Hwf Hq Hrc. pose proof (find_walk_children t q) as Hch.
  destruct (children_start_spec pfx V peq contains is_bit_set plen lcp pzero mcmp bits ok LAWS _ _ _ Hwf Hq Hrc)
    as [_ [_ Hmem]].
  destruct (find_walk t q) as [v'|] eqn:F; rewrite Hch in Hmem.
  - destruct (find_walk_view Hwf Hq F) as [A B]. split; [exact A|]. split; [exact B|].
    intros e. rewrite <- Hmem. cbn [flat_map]. rewrite app_nil_r. reflexivity.
  - intros e Hin Hcv. apply (Hmem e). split; assumption.
Qed.

Lemma find_walk_disjoint b t q :
  wf_under b t -> ok q ->
  ~ prefix_of (bits (tpfx t)) (bits q) -> ~ prefix_of (bits q) (bits (tpfx t)) ->
  find_walk t q = None /\ forall e, In e (entries t) -> ~ prefix_of (bits q) (key e).
Proof.
  intros Hwf Hq Hnrc Hnc.
  (* whatever lies below the root is comparable with [q] only if the root is *)
  assert (Hbelow : forall k, prefix_of (bits (tpfx t)) k -> ~ prefix_of (bits q) k /\ ~ prefix_of k (bits q)).
  { intros k Hu. split; intros H.
    - destruct (prefix_of_comparable _ _ _ H Hu) as [H'|H']; [exact (Hnc H') | exact (Hnrc H')].
    - apply Hnrc. eapply prefix_of_trans; eassumption. }
  split; [|intros e Hin; exact (proj1 (Hbelow _ (entries_under_root Hwf Hin)))].
  destruct t as [|i p v l r]; [reflexivity|]. cbn [Trie.tpfx] in *. pose proof (proj1 Hwf) as Hp.
  rewrite find_walk_node.
  destruct (peq p q) eqn:E.
  { exfalso. apply Hnrc. rewrite (L_peq_true p q Hp Hq E). apply prefix_of_refl. }
  pose proof (wf_child (to_right p q) Hwf) as Hc.
  destruct (child_of l r (to_right p q)) as [|ci cp cv cl cr]; [reflexivity|].
  destruct Hc as [Hcp [Hcb _]]. destruct (Hbelow _ (below_prefix _ _ _ Hcb)) as [H1 H2].
  destruct (contains cp q) eqn:C; [exfalso; exact (H2 (L_contains_true cp q Hcp Hq C))|].
  destruct (contains q cp) eqn:C2; [exfalso; exact (H1 (L_contains_true q cp Hq Hcp C2)) | reflexivity].
Qed.

Lemma v_find_cases v q :
  view_wf v -> ok q ->
  (prefix_of (bits q) (bits (tpfx (v_tree v))) /\ bits q <> bits (tpfx (v_tree v)) /\
   v_find v q = Some (VVirt q (v_tree v))) \/
  ((prefix_of (bits q) (bits (tpfx (v_tree v))) -> bits (tpfx (v_tree v)) = bits q) /\
   v_find v q = find_walk (v_tree v) q).
Proof.
  intros [Hn [[b Hwf] _]] Hq. unfold Views.v_find.
  destruct (v_tree v) as [|i p v0 l r]; [discriminate|]. pose proof (proj1 Hwf) as Hp. cbn [Trie.tpfx].
  destruct (contains q p) eqn:C1; cbn [andb].
  - destruct (peq p q) eqn:C2; cbn [negb].
    + right. split; [intros _; exact (L_peq_true p q Hp Hq C2) | reflexivity].
    + left. split; [exact (L_contains_true q p Hq Hp C1)|]. split; [|reflexivity].
      intros E. exact (L_peq_false p q Hp Hq C2 (eq_sym E)).
  - right. split; [|reflexivity]. intros H. destruct (L_contains_false q p Hq Hp C1 H).
Qed.

(** [find]: a view addressing exactly the entries of [v] covered by [q], positioned at [q];
    [None] only if there are none *)
Theorem v_find_spec v q :
  view_wf v -> ok q ->
  match v_find v q with
  | Some v' =>
    view_wf v' /\ bits (v_prefix v') = bits q /\
    forall e, In e (v_entries v') <-> In e (v_entries v) /\ prefix_of (bits q) (key e)
  | None => forall e, In e (v_entries v) -> ~ prefix_of (bits q) (key e)
  end.
Proof.
  intros Hv Hq. destruct (v_find_cases v q Hv Hq) as [[Hcov [Hne ->]]|[Heq ->]]; destruct Hv as [Hn [[b Hwf] _]].
  - (* the query covers the view's node: the whole view, re-rooted at the query *)
    split; [|split; [reflexivity|]].
    + split; [exact Hn|]. split; [exists b; exact Hwf|]. split; [exact Hq|]. split; [exact Hcov | exact Hne].
    + intros e. split; [|intros [H _]; exact H]. intros Hin. split; [exact Hin|].
      eapply prefix_of_trans; [exact Hcov | exact (entries_under_root Hwf Hin)].
  - unfold v_entries. destruct (v_tree v) as [|i p v0 l r]; [discriminate|]. cbn [Trie.tpfx] in Heq.
    pose proof (proj1 Hwf) as Hp.
    destruct (contains p q) eqn:Cpq.
    + exact (find_walk_spec b _ q Hwf Hq (L_contains_true p q Hp Hq Cpq)).
    + (* the node does not cover the query; it is not covered by it either *)
      pose proof (L_contains_false p q Hp Hq Cpq) as Hnrc.
      destruct (find_walk_disjoint b (Node i p v0 l r) q Hwf Hq Hnrc) as [-> Hnone]; [|exact Hnone].
      intros H. apply Hnrc. cbn [Trie.tpfx]. rewrite (Heq H). apply prefix_of_refl.
Qed.

Lemma v_find_some v q v' :
  view_wf v -> ok q -> v_find v q = Some v' ->
  view_wf v' /\ bits (v_prefix v') = bits q /\
  forall e, In e (v_entries v') <-> In e (v_entries v) /\ prefix_of (bits q) (key e).
Proof. intros Hv Hq H. pose proof (v_find_spec v q Hv Hq) as S. rewrite H in S. exact S. Qed.

Lemma v_find_none v q :
  view_wf v -> ok q -> v_find v q = None -> forall e, In e (v_entries v) -> ~ prefix_of (bits q) (key e).
Proof. intros Hv Hq. exact (match_none (v_find_spec v q Hv Hq)). Qed.

Definition side_prefix (v : view) (s : bool) : list bool := bits (v_prefix v) ++ [s].

Lemma v_side_eq (v : view) (s : bool) :
  (if s then v_right v else v_left v) =
  match v with
  | VNode t => match child_of (tleft t) (tright t) s with
               | Leaf => None
               | Node _ _ _ _ _ as c => Some (VNode c)
               end
  | VVirt p t => if eqb s (to_right p (tpfx t)) then Some (VNode t) else None
  end.
Proof.
  destruct v as [t|p t], s; cbn [Views.v_left Views.v_right TrieWf.child_of]; try reflexivity;
    destruct (to_right p (tpfx t)); reflexivity.
Qed.

Lemma virt_side p t : ok p -> is_node t = true -> (exists b, wf_under b t) ->
  prefix_of (bits p) (bits (tpfx t)) -> bits p <> bits (tpfx t) ->
  prefix_of (bits p ++ [to_right p (tpfx t)]) (bits (tpfx t)).
Proof.
  intros Hp Hn [b Hwf] Hcov Hne. destruct t as [|i p0 v0 l r]; [discriminate|]. cbn [Trie.tpfx] in *.
  rewrite (L_to_right_spec p p0 Hp (proj1 Hwf)). apply proper_ext; [exact Hcov|]. intros E. apply Hne. symmetry. exact E.
Qed.

(** [left()] ([s = false]) / [right()] ([s = true]) address exactly the entries of the view whose
    next bit after the view's prefix is [s] *)
Theorem v_side_spec (v : view) (s : bool) :
  view_wf v ->
  match (if s then v_right v else v_left v) with
  | Some v' =>
    view_wf v' /\ v_is_virtual v' = false /\
    forall e, In e (v_entries v') <-> In e (v_entries v) /\ prefix_of (side_prefix v s) (key e)
  | None => forall e, In e (v_entries v) -> ~ prefix_of (side_prefix v s) (key e)
  end.
Proof.
  intros [Hn [[b Hwf] Hv]]. rewrite v_side_eq. unfold side_prefix, v_entries.
  destruct v as [t|p t]; cbn [v_tree Views.v_prefix] in *.
  - destruct t as [|i p v0 l r]; [discriminate|]. cbn [Trie.tpfx tleft tright].
    pose proof (wf_child s Hwf) as Hc.
    (* of the entries of the node, only those of the child on side [s] lie under that side *)
    assert (Hexcl : forall e, In e (entries (Node i p v0 l r)) -> prefix_of (bits p ++ [s]) (key e) ->
                              In e (entries (child_of l r s))).
    { intros e Hin Hcv. apply (in_entries_node pfx V i p v0 l r s) in Hin.
      destruct Hin as [[_ H]|[H|H]]; [|exact H|]; exfalso.
      - unfold TrieWf.key in Hcv. rewrite H in Hcv. exact (below_neq _ _ _ Hcv eq_refl).
      - pose proof (entries_under (wf_child (negb s) Hwf) H) as Hu.
        exact (proj1 (branch_incomparable _ _ _ _ Hcv Hu) (prefix_of_refl _)). }
    destruct (child_of l r s) as [|ci cp cv cl cr] eqn:Ec; [exact Hexcl|].
    split; [exact (view_wf_node Hc eq_refl)|]. split; [reflexivity|].
    intros e. cbn [v_tree]. split; [|intros [Hin Hcv]; exact (Hexcl e Hin Hcv)].
    intros Hin. split; [|exact (entries_under Hc Hin)].
    apply (in_entries_child pfx V i p v0 l r s). rewrite Ec. exact Hin.
  - (* virtual node: the real node lies on exactly one side *)
    destruct Hv as [Hp [Hcov Hne]].
    pose proof (virt_side p t Hp Hn (ex_intro _ b Hwf) Hcov Hne) as Hside.
    assert (Hall : forall e, In e (entries t) -> prefix_of (bits p ++ [to_right p (tpfx t)]) (key e)).
    { intros e Hin. eapply prefix_of_trans; [exact Hside | exact (entries_under_root Hwf Hin)]. }
    destruct (eqb_spec s (to_right p (tpfx t))) as [->|Hs].
    + split; [exact (view_wf_node Hwf Hn)|]. split; [reflexivity|].
      intros e. cbn [v_tree]. split; [|intros [H _]; exact H]. intros Hin. split; [exact Hin | exact (Hall e Hin)].
    + intros e Hin Hcv. apply Hs. rewrite <- (ext_bit _ _ _ Hcv). exact (ext_bit _ _ _ (Hall e Hin)).
Qed.

(** the entries of a view are its own entry plus the disjoint union of the two sides *)
Theorem v_entries_split v e :
  view_wf v -> In e (v_entries v) ->
  key e = bits (v_prefix v) \/ prefix_of (side_prefix v false) (key e) \/ prefix_of (side_prefix v true) (key e).
Proof.
  intros Hv Hin. pose proof (v_entries_under v e Hv Hin) as Hu.
  destruct (list_eq_dec bool_dec (key e) (bits (v_prefix v))) as [E|Hne]; [left; exact E|].
  right. pose proof (proper_ext _ _ Hu Hne) as H. unfold side_prefix.
  destruct (nth (length (bits (v_prefix v))) (key e) false); auto.
Qed.

Lemma v_sides_disjoint v k : prefix_of (side_prefix v false) k -> prefix_of (side_prefix v true) k -> False.
Proof. apply sides_disjoint. Qed.

Lemma find_exact_walk_node i p v l r q :
  find_exact_walk (Node i p v l r) q =
  if peq p q then (if is_some v then Some (VNode (Node i p v l r)) else None) else
  match child_of l r (to_right p q) with
  | Node _ cp _ _ _ => if contains cp q then find_exact_walk (child_of l r (to_right p q)) q else None
  | Leaf => None
  end.
Proof. reflexivity. Qed.

(** a search result, kept only if it carries a value (a virtual view carries none) *)
Definition if_valued (o : option view) : option view :=
  match o with Some v' => if is_some (v_value v') then o else None | None => None end.

Lemma if_valued_some {o v'} : if_valued o = Some v' -> o = Some v' /\ is_some (v_value v') = true.
Proof.
  destruct o as [v''|]; [|discriminate]. cbn. destruct (is_some (v_value v'')) eqn:E; [|discriminate].
  intros H. injection H as <-. split; [reflexivity | exact E].
Qed.

Lemma find_exact_walk_eq t q : find_exact_walk t q = if_valued (find_walk t q).
Proof.
  induction t as [|i p v l r E|i p v l r E S|i p v l r ci cp cv cl cr E Ec C IH] using (descent_ind q).
  - reflexivity.
  - rewrite find_exact_walk_node, find_walk_node, E. cbn. destruct (is_some v); reflexivity.
  - rewrite find_exact_walk_node, find_walk_node, E.
    destruct (child_of l r (to_right p q)) as [|ci cp cv cl cr]; [reflexivity|]. rewrite S.
    destruct (contains q cp); reflexivity.
  - rewrite find_exact_walk_node, find_walk_node, E, Ec, C. exact IH.
Qed.

Lemma find_exact_walk_in {t q v'} :
  find_exact_walk t q = Some v' -> exists x, v_value v' = Some x /\ In (v_prefix v', x) (entries t).
Proof.
  rewrite find_exact_walk_eq. intros H. apply if_valued_some in H. destruct H as [F Hx].
  destruct (v_value v') as [x|] eqn:Ex; [|discriminate]. exists x. split; [reflexivity|].
  exact (find_walk_incl t q v' F _ (v_value_in v' x Ex)).
Qed.

Lemma v_find_exact_eq v q : view_wf v -> ok q -> v_find_exact v q = if_valued (v_find v q).
Proof.
  intros Hv Hq. unfold Views.v_find_exact.
  destruct (v_find_cases v q Hv Hq) as [[Hcov [Hne ->]]|[_ ->]]; [|apply find_exact_walk_eq].
  (* below a node strictly covered by the query, no node covers the query *)
  destruct Hv as [Hn [[b Hwf] _]]. destruct (v_tree v) as [|i p v0 l r]; [discriminate|]. cbn [Trie.tpfx] in *.
  pose proof (proj1 Hwf) as Hp. rewrite find_exact_walk_node.
  destruct (peq p q) eqn:E; [destruct Hne; symmetry; exact (L_peq_true p q Hp Hq E)|].
  pose proof (wf_child (to_right p q) Hwf) as Hc.
  destruct (child_of l r (to_right p q)) as [|ci cp cv cl cr]; [reflexivity|]. destruct Hc as [Hcp [Hcb _]].
  destruct (contains cp q) eqn:C; [exfalso|reflexivity].
  eapply below_not_above; [exact Hcb|]. eapply prefix_of_trans; [exact (L_contains_true cp q Hcp Hq C) | exact Hcov].
Qed.

(** [find_exact q]: the view positioned at [q], exactly when [q] is stored in the view *)
Theorem v_find_exact_spec v q :
  view_wf v -> ok q ->
  match v_find_exact v q with
  | Some v' => view_wf v' /\ v_is_virtual v' = false /\ bits (v_prefix v') = bits q /\
               exists x, v_value v' = Some x /\ In (v_prefix v', x) (v_entries v)
  | None => forall e, In e (v_entries v) -> key e <> bits q
  end.
Proof.
  intros Hv Hq. rewrite (v_find_exact_eq v q Hv Hq). pose proof (v_find_spec v q Hv Hq) as Hs.
  destruct (v_find v q) as [v'|]; cbn [if_valued].
  - destruct Hs as [Hv' [Hk Hm]]. destruct (v_value v') as [x|] eqn:Ex; cbn [is_some is_none negb].
    + split; [exact Hv'|]. split; [destruct v'; [reflexivity | discriminate]|]. split; [exact Hk|].
      exists x. split; [exact Ex|]. exact (proj1 (proj1 (Hm _) (v_value_in v' x Ex))).
    + (* an entry at [q] would be the result's own, and its value the result's value *)
      intros e Hin Hke.
      assert (Hin' : In e (v_entries v')) by (apply Hm; split; [exact Hin | rewrite Hke; apply prefix_of_refl]).
      destruct (v_own_entry v' e Hv' Hin' (eq_trans Hke (eq_sym Hk))) as [_ [_ H]]. congruence.
  - intros e Hin Hke. apply (Hs e Hin). rewrite Hke. apply prefix_of_refl.
Qed.

Lemma find_exact_walk_spec t : forall b q,
  wf_under b t -> ok q ->
  match find_exact_walk t q with
  | Some v' =>
    exists t', v' = VNode t' /\ view_wf v' /\ bits (tpfx t') = bits q /\
               (exists x, pv t' = Some (tpfx t', x) /\ In (tpfx t', x) (entries t)) /\
               forall e, In e (entries t') -> In e (entries t)
  | None => forall e, In e (entries t) -> key e <> bits q
  end.
Proof.
  intros b q Hwf Hq. destruct t as [|i p v l r]; [intros e []|].
  pose proof (v_find_exact_spec (VNode (Node i p v l r)) q (view_wf_node Hwf eq_refl) Hq) as Hs.
  unfold Views.v_find_exact in Hs. cbn [v_tree] in Hs.
  destruct (find_exact_walk (Node i p v l r) q) as [[t'|]|] eqn:F; [|destruct Hs as (_ & [=] & _)|exact Hs].
  destruct Hs as (A & _ & C & x & Hx & Hin). exists t'. split; [reflexivity|]. split; [exact A|]. split; [exact C|].
  split.
  - exists x. split; [|exact Hin]. destruct t' as [|i' p' v1 l' r']; [discriminate|].
    cbn in Hx |- *. rewrite Hx. reflexivity.
  - rewrite find_exact_walk_eq in F. exact (find_walk_incl _ q _ (proj1 (if_valued_some F))).
Qed.

(** the best match after passing node [t] *)
Definition lpm_best (t : tree) (best : option view) : option view :=
  if is_some (tval t) then Some (VNode t) else best.

Lemma find_lpm_walk_unfold i p v l r q best :
  find_lpm_walk (Node i p v l r) q best =
  match step (Node i p v l r) q with
  | Some c => find_lpm_walk c q (lpm_best (Node i p v l r) best)
  | None => lpm_best (Node i p v l r) best
  end.
Proof. apply (descend_step pfx V peq contains is_bit_set plen i p v l r q _ (fun c => find_lpm_walk c q _)). Qed.

Definition opt_pv (o : option view) : option (pfx * V) :=
  match o with Some vb => v_prefix_value vb | None => None end.

(** the loop of [find_lpm] tracks the node whose (prefix, value) the loop of [get_lpm] tracks *)
Lemma find_lpm_walk_pv t : forall q best, opt_pv (find_lpm_walk t q best) = lpm_walk t q (opt_pv best).
Proof.
  intros q. induction t as [t IH] using (step_ind q). intros best.
  destruct t as [|i p v l r]; [reflexivity|].
  rewrite find_lpm_walk_unfold, (lpm_walk_unfold pfx V peq contains is_bit_set plen).
  assert (E : match v with Some x => Some (p, x) | None => opt_pv best end = opt_pv (lpm_best (Node i p v l r) best))
    by (destruct v; reflexivity).
  rewrite E. destruct (step _ q) as [c|] eqn:S; [exact (IH c eq_refl _) | reflexivity].
Qed.

Lemma find_lpm_walk_sim t : forall q best,
  (forall vb, best = Some vb -> exists tb e, vb = VNode tb /\ pv tb = Some e) ->
  match find_lpm_walk t q best with
  | Some v' => (exists t' e, v' = VNode t' /\ pv t' = Some e /\ lpm_walk t q (match best with Some vb => v_prefix_value vb | None => None end) = Some e)
  | None => lpm_walk t q (match best with Some vb => v_prefix_value vb | None => None end) = None /\ best = None
  end.
Proof.
  intros q best Hb. change (match best with Some vb => v_prefix_value vb | None => None end) with (opt_pv best).
  rewrite <- find_lpm_walk_pv.
  (* the result is a node with a value if [best] is, and [None] only if [best] is *)
  enough (H : (forall vb, find_lpm_walk t q best = Some vb -> exists tb e, vb = VNode tb /\ pv tb = Some e) /\
              (find_lpm_walk t q best = None -> best = None)).
  { destruct H as [H1 H2]. destruct (find_lpm_walk t q best) as [v'|]; [|auto].
    destruct (H1 v' eq_refl) as (t' & e & -> & He). exists t', e. auto. }
  revert best Hb. induction t as [t IH] using (step_ind q). intros best Hb.
  destruct t as [|i p v l r]; [auto|]. rewrite find_lpm_walk_unfold.
  assert (Hb' : (forall vb, lpm_best (Node i p v l r) best = Some vb -> exists tb e, vb = VNode tb /\ pv tb = Some e) /\
                (lpm_best (Node i p v l r) best = None -> best = None)).
  { unfold lpm_best. cbn [tval]. destruct v as [x|]; cbn [is_some]; [|auto].
    split; [|discriminate]. intros vb [= <-]. eexists _, _. split; reflexivity. }
  destruct (step _ q) as [c|] eqn:S; [|exact Hb'].
  destruct (IH c eq_refl _ (proj1 Hb')) as [A B]. split; [exact A | intros H; exact (proj2 Hb' (B H))].
Qed.

Lemma lpm_best_exact {b i p v l r best v'} :
  wf_under b (Node i p v l r) -> lpm_best (Node i p v l r) best = Some v' ->
  best = Some v' \/ exists t', v' = VNode t' /\ find_exact_walk (Node i p v l r) (tpfx t') = Some v'.
Proof.
  intros Hwf. unfold lpm_best. cbn [tval]. destruct (is_some v) eqn:Ev; [|left; assumption].
  intros H. injection H as <-. right. eexists. split; [reflexivity|]. cbn [Trie.tpfx].
  rewrite find_exact_walk_node, (L_peq_refl p p (proj1 Hwf) (proj1 Hwf) eq_refl), Ev. reflexivity.
Qed.

Lemma find_exact_walk_enter {b i p v l r s e} :
  wf_under b (Node i p v l r) -> In e (entries (child_of l r s)) ->
  find_exact_walk (Node i p v l r) (fst e) = find_exact_walk (child_of l r s) (fst e).
Proof.
  intros Hwf Hin. pose proof (proj1 Hwf) as Hp. pose proof (wf_child s Hwf) as Hc.
  pose proof (entries_ok pfx V bits ok _ _ e Hc Hin) as Hk.
  pose proof (entries_under Hc Hin) as Hund.
  pose proof (entries_under_root Hc Hin) as Hcov. unfold TrieWf.key in Hund, Hcov.
  rewrite find_exact_walk_node.
  destruct (peq p (fst e)) eqn:E.
  { exfalso. eapply below_neq; [exact Hund|]. symmetry. exact (L_peq_true p (fst e) Hp Hk E). }
  rewrite (L_to_right_spec p (fst e) Hp Hk), (ext_bit _ _ _ Hund).
  destruct (child_of l r s) as [|ci cp cv cl cr]; [destruct Hin|].
  rewrite (L_contains_intro cp (fst e) (proj1 Hc) Hk Hcov). reflexivity.
Qed.

Lemma find_lpm_walk_exact t : forall b q best v',
  wf_under b t -> ok q ->
  find_lpm_walk t q best = Some v' ->
  best = Some v' \/ exists t', v' = VNode t' /\ find_exact_walk t (tpfx t') = Some v'.
Proof.
  intros b q best v' Hwf Hq. revert b Hwf best. induction t as [t IH] using (step_ind q).
  intros b Hwf best H. destruct t as [|i p v l r]; [left; exact H|]. rewrite find_lpm_walk_unfold in H.
  destruct (step _ q) as [c|] eqn:S; [|exact (lpm_best_exact Hwf H)].
  pose proof (step_wf Hwf S) as Hc.
  destruct (IH c eq_refl _ Hc _ H) as [Hb|[t' [-> Hex]]]; [exact (lpm_best_exact Hwf Hb)|].
  right. exists t'. split; [reflexivity|].
  destruct (find_exact_walk_in Hex) as [x [_ Hin]]. cbn [Views.v_prefix] in Hin.
  destruct (step_inv S) as [_ [Ec _]].
  rewrite Ec in Hin, Hex. rewrite <- Hex.
  exact (find_exact_walk_enter Hwf Hin).
Qed.

(** [find_lpm q]: the view positioned at the longest prefix stored in the view that covers [q];
    [None] when the view stores no prefix covering [q] *)
Theorem v_find_lpm_spec v q :
  view_wf v -> ok q ->
  match v_find_lpm v q with
  | Some v' => exists e, v_is_virtual v' = false /\ v_prefix_value v' = Some e /\
                         is_lpm pfx V bits (v_entries v) q e
  | None => no_cover pfx V bits (v_entries v) q
  end.
Proof.
  intros [Hn [[b Hwf] Hv]] Hq. unfold Views.v_find_lpm, v_entries.
  destruct (v_tree v) as [|i p v0 l r] eqn:Ht; [discriminate|].
  pose proof (proj1 Hwf) as Hp.
  destruct (contains p q) eqn:C.
  - pose proof (find_lpm_walk_sim (Node i p v0 l r) q None ltac:(discriminate)) as Hs. cbv iota in Hs.
    destruct (lpm_walk_spec pfx V peq contains is_bit_set plen lcp pzero mcmp bits ok LAWS _ b q None Hwf Hq
                (L_contains_true p q Hp Hq C)) as [[e [E Hl]]|[Hnc E]];
      rewrite E in Hs; destruct (find_lpm_walk (Node i p v0 l r) q None) as [v'|].
    + destruct Hs as (t' & e' & -> & Hpv & [= ->]). exists e'. split; [reflexivity|]. split; [exact Hpv | exact Hl].
    + destruct Hs as [[=] _].
    + destruct Hs as (t' & e' & _ & _ & [=]).
    + exact Hnc.
  - intros e Hin Hcv. eapply (L_contains_false p q); eauto.
    eapply prefix_of_trans; [|exact Hcv].
    exact (entries_under_root Hwf Hin).
Qed.

End VT.
