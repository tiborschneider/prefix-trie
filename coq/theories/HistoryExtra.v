(** Histories, part 2.

    - the DRIFT of the cached counter over the FULL alphabet: [count = #entries + drift], where the
      drift moves only at the two view operations that cannot reach the counter and is reset by
      [clear] / [remove_children] of the zero-length prefix / [collect]; without those two the
      counter is the number of entries ([step_cinv], [reachable_count]);
    - the depth bound of a well-formed trie and well-formedness read along view paths;
    - the shape of a canonical state is that of [from_list] of ANY list with the same key set;
      [remove] reverts the [insert] of a fresh key on well-formed canonical states;
    - per-operation structure preservation of the value-only operations;
    - the high-water theorem of the arena length over [History.op] (including [remove_children],
      [retain], [clear], [collect], Entry API and view operations);
    - an empty canonical tree is just the root; [nnodes <= 2 * #entries + 1] for canonical trees. *)
From Coq Require Import List NArith ZArith Bool Arith Lia ZifyN ZifyBool ZifyNat Sorted Permutation.
From PT Require Import Bits BitsThm Laws Trie Views TrieWf Mutate Slots Canon
                       History.
Import ListNotations.

Section HX.
Variables (pfx V : Type).
Variables (peq contains : pfx -> pfx -> bool) (is_bit_set : pfx -> N -> bool)
          (plen : pfx -> N) (lcp : pfx -> pfx -> pfx) (pzero : pfx)
          (mcmp : pfx -> pfx -> comparison).
Variable bits : pfx -> list bool.
Variable ok : pfx -> Prop.
Hypothesis LAWS : prefix_laws pfx peq contains is_bit_set plen lcp pzero mcmp bits ok.

Notation tree := (Trie.tree pfx V).
Notation pmap := (Trie.pmap pfx V).
Notation wf_under := (TrieWf.wf_under pfx V bits ok).
Notation wf_root := (TrieWf.wf_root pfx V bits ok).
Notation key := (TrieWf.key pfx V bits).
Notation get := (Trie.get pfx V peq contains is_bit_set plen).
Notation insert := (Trie.insert pfx V peq contains is_bit_set plen lcp).
Notation remove := (Trie.remove pfx V peq contains is_bit_set plen).
Notation empty := (Trie.empty pfx V pzero).
Notation from_list := (Trie.from_list pfx V peq contains is_bit_set plen lcp pzero).
Notation minv := (Slots.minv pfx V).
Notation cinv := (Slots.cinv pfx V).
Notation nnodes := (Slots.nnodes pfx V).
Notation nentries := (Slots.nentries pfx V).
Notation ids := (Slots.ids pfx V).
Notation canonical := (Canon.canonical pfx V).
Notation canon_below := (Canon.canon_below pfx V).
Notation shape_of := (Canon.shape_of pfx V bits).
Notation op := (History.op pfx V).
Notation step := (History.step pfx V peq contains is_bit_set plen lcp pzero).
Notation run := (History.run pfx V peq contains is_bit_set plen lcp pzero).
Notation op_ok := (History.op_ok pfx V ok).
Notation occupied := (History.occupied pfx V peq contains is_bit_set plen).
Notation counts := (History.counts pfx V).
Notation canon_op := (History.canon_op pfx V).
Notation skel := (Mutate.skel pfx V).
Notation skelb := (Mutate.skelb pfx V bits).

(** as in [History.v]: supplies the section variables that the lemmas of [Slots] and [Canon] carry *)
Ltac fin H := first [exact H | exact pzero | exact lcp | exact mcmp | exact peq | exact is_bit_set
                    | exact plen | exact contains | assumption | reflexivity].

(* History.v, Refine.v and Refine2.v write this as [fold_left step ops m] *)
Definition run_from (m : pmap) (ops : list op) : pmap := fold_left step ops m.

Lemma run_run_from ops : run ops = run_from empty ops.
Proof. reflexivity. Qed.

Lemma run_from_app m ops1 ops2 : run_from m (ops1 ++ ops2) = run_from (run_from m ops1) ops2.
Proof. unfold run_from. apply fold_left_app. Qed.

Lemma run_snoc ops o : run (ops ++ [o]) = step (run ops) o.
Proof. apply run_app. Qed.

Lemma Forall_firstn {A} (P : A -> Prop) k (l : list A) : Forall P l -> Forall P (firstn k l).
Proof.
  revert l. induction k as [|k IH]; intros [|a l] H; cbn [firstn]; try constructor.
  - inversion H; assumption.
  - apply IH. inversion H; assumption.
Qed.

Lemma forallb_firstn {A} (f : A -> bool) k (l : list A) : forallb f l = true -> forallb f (firstn k l) = true.
Proof.
  revert l. induction k as [|k IH]; intros [|a l] H; cbn [firstn forallb] in *; try reflexivity.
  apply andb_true_iff in H. destruct H as [H1 H2]. rewrite H1, (IH l H2). reflexivity.
Qed.

Lemma run_from_minv ops m : minv m -> minv (run_from m ops).
Proof. apply (fold_left_keeps step minv). intros s o. apply step_minv. Qed.

Theorem reachable_minv ops : minv (run ops).
Proof. rewrite run_run_from. apply run_from_minv. apply minv_empty. Qed.

Definition gap (m : pmap) : Z := (count (al m) - nentries (root m))%Z.

(** the operations that rebuild the map from scratch (statically recognisable) *)
Definition is_reset (o : op) : bool :=
  match o with
  | OClear _ _ | OCollect _ _ _ => true
  | ORemoveChildren _ _ q => (plen q =? 0)%N
  | _ => false
  end.

(** how one step moves the gap: [TrieViewMut::set] on an existing value-less node creates an
    entry the counter does not see (-1); [TrieViewMut::remove] on a stored entry removes an
    entry the counter does not see (+1); the resetting operations re-synchronise; nothing else
    moves it *)
Definition drift_step (m : pmap) (o : op) (d : Z) : Z :=
  match o with
  | OViewSet _ _ pa _ =>
    let n := subtree (root m) pa in
    if is_node n && is_none (tval n) then (d - 1)%Z else d
  | OViewRemove _ _ pa =>
    if is_some (tval (subtree (root m) pa)) then (d + 1)%Z else d
  | _ => if is_reset o then 0%Z else d
  end.

(** the accumulated drift of a history started in [m] with drift [d] *)
Fixpoint drift (ops : list op) (m : pmap) (d : Z) : Z :=
  match ops with
  | [] => d
  | o :: ops' => drift ops' (step m o) (drift_step m o d)
  end.

Lemma nentries_app_node i p (v : option V) (l r : tree) :
  nentries (Node i p v l r) = (Z.of_nat (ownn v) + nentries l + nentries r)%Z.
Proof. unfold Slots.nentries. cbn [entries]. rewrite !app_length. destruct v; cbn [length ownn]; lia. Qed.

Lemma subst_set_entries pa : forall (t : tree) (v : option V),
  nentries (subst t pa (set_tval (subtree t pa) v)) =
  (nentries t + (if is_node (subtree t pa) then Z.of_nat (ownn v) - Z.of_nat (ownn (tval (subtree t pa))) else 0))%Z.
Proof.
  induction pa as [|b pa IH]; intros t v.
  - destruct t as [|i p w l r]; cbn [subst subtree set_tval is_node tval]; [lia|].
    rewrite !nentries_app_node. lia.
  - destruct t as [|i p w l r]; [cbn; lia|]. cbn [subst subtree].
    destruct b; rewrite !nentries_app_node, IH; lia.
Qed.

Lemma occupied_get m q : occupied m q = false -> get (root m) q = None.
Proof. unfold History.occupied. destruct (get (root m) q); [discriminate | reflexivity]. Qed.
Lemma occupied_get' m q : occupied m q = true -> get (root m) q <> None.
Proof. unfold History.occupied. intros H E. rewrite E in H. discriminate H. Qed.

Lemma acct_gap m m' r : acct pfx V m m' r true -> gap m' = if r then 0%Z else gap m.
Proof.
  unfold gap. intros A.
  inversion A as [G HG (_ & C & _) | (_ & C & _) | | _ C _]; [specialize (C HG) | specialize (C I) |..]; unfold Slots.cinv in *; lia.
Qed.

Theorem step_gap m o : gap (step m o) = drift_step m o (gap m).
Proof.
  pose proof (step_acct pfx V peq contains is_bit_set plen lcp pzero m o) as A. destruct o; try exact (acct_gap _ _ _ A); clear A; unfold gap.
  - (* OViewSet *) cbn [History.step drift_step root al vm_set mvirt fst mpath vm_tree]. rewrite subst_set_entries.
    destruct (subtree (root m) pa) as [|i p v l r]; cbn [is_node tval is_none andb ownn]; [lia|].
    destruct v; cbn [is_none ownn]; lia.
  - (* OViewRemove *) cbn [History.step drift_step root al vm_remove mvirt fst mpath vm_tree]. rewrite subst_set_entries.
    destruct (subtree (root m) pa) as [|i p v l r]; cbn [is_node tval is_some is_none negb ownn]; [lia|].
    destruct v; cbn [is_some is_none negb ownn]; lia.
Qed.

Theorem run_from_gap ops : forall m, gap (run_from m ops) = drift ops m (gap m).
Proof.
  induction ops as [|o ops IH]; intros m; [reflexivity|]. cbn [run_from fold_left drift].
  rewrite <- step_gap. apply IH.
Qed.

(** after ANY history over the full alphabet,
    [len = #entries + (value removals through views) - (value insertions through views)],
    counted since the last resetting operation *)
Theorem reachable_drift ops :
  len (run ops) = (Z.of_nat (length (entries (root (run ops)))) + drift ops empty 0)%Z.
Proof.
  pose proof (run_from_gap ops empty) as G. rewrite <- run_run_from in G.
  change (gap empty) with 0%Z in G. unfold gap, Slots.nentries in G. unfold len. lia.
Qed.

Lemma drift_step_counts m o : counts o = true -> drift_step m o 0 = 0%Z.
Proof. destruct o; try discriminate; intros _; cbn [drift_step]; destruct (is_reset _); reflexivity. Qed.

Lemma drift_counts ops : forallb counts ops = true -> forall m, drift ops m 0 = 0%Z.
Proof.
  induction ops as [|o ops IH]; intros Hc m; [reflexivity|]. cbn [forallb] in Hc.
  apply andb_true_iff in Hc. destruct Hc as [H1 H2]. cbn [drift].
  rewrite (drift_step_counts m o H1). apply IH. exact H2.
Qed.

Lemma step_cinv m o : counts o = true -> cinv m -> cinv (step m o).
Proof.
  unfold Slots.cinv. intros Hc C. pose proof (step_gap m o) as G.
  replace (gap m) with 0%Z in G by (unfold gap; lia). rewrite (drift_step_counts m o Hc) in G.
  unfold gap in G. lia.
Qed.

Theorem reachable_count ops : forallb counts ops = true -> cinv (run ops).
Proof.
  intros Hc. apply (fold_left_inv step cinv _ step_cinv _ _ (forallb_Forall _ _ Hc)). apply cinv_empty.
Qed.

Lemma drift_app ops1 ops2 m d : drift (ops1 ++ ops2) m d = drift ops2 (run_from m ops1) (drift ops1 m d).
Proof.
  revert m d. induction ops1 as [|o ops1 IH]; intros m d; [reflexivity|].
  cbn [app drift run_from fold_left]. apply IH.
Qed.

Theorem drift_reset ops1 o ops2 : is_reset o = true ->
  drift (ops1 ++ o :: ops2) empty 0 = drift ops2 (run (ops1 ++ [o])) 0.
Proof.
  intros R. rewrite drift_app. cbn [drift]. rewrite run_snoc. rewrite <- run_run_from.
  replace (drift_step (run ops1) o (drift ops1 empty 0)) with 0%Z; [reflexivity|].
  destruct o; cbn [drift_step is_reset] in *; try discriminate; try reflexivity. rewrite R. reflexivity.
Qed.

Lemma cinv_len m : cinv m -> len m = Z.of_nat (length (entries (root m))).
Proof. unfold Slots.cinv, Slots.nentries, len. auto. Qed.

Lemma cinv_is_empty m : cinv m -> (is_empty m = true <-> entries (root m) = []).
Proof.
  unfold Slots.cinv, Slots.nentries, is_empty. intros ->. rewrite Z.eqb_eq. split.
  - intros H. destruct (entries (root m)); [reflexivity | cbn [length] in H; lia].
  - intros ->. reflexivity.
Qed.

(** well-formedness read at the node a path reaches ([TrieViewMut] navigation: [left]/[right] append
    a bit): its key is at least [length b + length pa] long, its children are well-formed under it *)
Lemma wf_subtree pa : forall b (t : tree) i p v l r,
  wf_under b t -> subtree t pa = Node i p v l r ->
  ok p /\ length b + length pa <= length (bits p) /\
  wf_under (bits p ++ [false]) l /\ wf_under (bits p ++ [true]) r.
Proof.
  induction pa as [|s pa IH]; intros b t i p v l r Hwf Hs.
  - destruct t as [|i0 p0 v0 l0 r0]; cbn [subtree] in Hs; [discriminate|]. inversion Hs; subst.
    destruct Hwf as [H0 [H1 [H2 H3]]]. apply prefix_of_len in H1. cbn [length]. repeat split; auto; lia.
  - destruct t as [|i0 p0 v0 l0 r0]; cbn [subtree] in Hs; [discriminate|].
    destruct Hwf as [H0 [H1 [H2 H3]]]. apply prefix_of_len in H1.
    assert (Hc : wf_under (bits p0 ++ [s]) (if s then r0 else l0)) by (destruct s; assumption).
    destruct (IH _ _ _ _ _ _ _ Hc Hs) as [A [B [C D]]]. rewrite app_length in B. cbn [length] in *.
    repeat split; auto; lia.
Qed.

(** every edge seen through views: the child's key extends the parent's key by the branch bit
    (hence: strictly longer, covered by the parent, on the side selected by its next bit) *)
Theorem wf_edges (t : tree) : wf_root t ->
  (exists i p v l r, t = Node i p v l r /\ bits p = []) /\
  forall pa i p v l r, subtree t pa = Node i p v l r ->
    ok p /\ length pa <= length (bits p) /\
    forall s ci cp cv cl cr, TrieWf.child_of pfx V l r s = Node ci cp cv cl cr ->
      ok cp /\ prefix_of (bits p ++ [s]) (bits cp).
Proof.
  intros Hr. split; [apply (root_of_wf_root pfx V bits ok); exact Hr|].
  intros pa i p v l r Hs. destruct t as [|i0 p0 v0 l0 r0]; [destruct Hr|]. destruct Hr as [E Hwf].
  destruct (wf_subtree pa [] _ _ _ _ _ _ Hwf Hs) as [A [B [C D]]]. cbn [length] in B.
  split; [exact A|]. split; [lia|]. intros s ci cp cv cl cr Hc.
  assert (Hw : wf_under (bits p ++ [s]) (Node ci cp cv cl cr)) by (rewrite <- Hc; destruct s; assumption).
  destruct Hw as [K1 [K2 _]]. split; assumption.
Qed.

Lemma edge_words (a c : list bool) s : prefix_of (a ++ [s]) c ->
  length a < length c /\ prefix_of a c /\ nth (length a) c false = s.
Proof.
  intros H. split; [|split].
  - apply prefix_of_len in H. rewrite app_length in H. cbn [length] in H. lia.
  - eapply below_prefix. exact H.
  - apply ext_bit. exact H.
Qed.

(** the number of nodes on the longest root-to-leaf path *)
Fixpoint depth (t : tree) : nat :=
  match t with Leaf => 0 | Node _ _ _ l r => S (Nat.max (depth l) (depth r)) end.

Lemma wf_depth (W : nat) : (forall p, ok p -> length (bits p) <= W) ->
  forall (t : tree) b, wf_under b t -> depth t <= S W - length b.
Proof.
  intros HW. induction t as [|i p v l IHl r IHr]; intros b Hwf; cbn [depth]; [lia|].
  destruct Hwf as [H0 [H1 [H2 H3]]]. apply prefix_of_len in H1. pose proof (HW p H0) as Hp.
  specialize (IHl _ H2). specialize (IHr _ H3). rewrite app_length in IHl, IHr. cbn [length] in *. lia.
Qed.

Theorem wf_root_depth (W : nat) (t : tree) :
  (forall p, ok p -> length (bits p) <= W) -> wf_root t -> depth t <= W + 1.
Proof.
  intros HW Hr. destruct t as [|i p v l r]; [destruct Hr|]. destruct Hr as [_ Hwf].
  pose proof (wf_depth W HW _ _ Hwf) as D. cbn [length] in D. lia.
Qed.

Theorem wf_root_path_len (W : nat) (t : tree) pa i p v l r :
  (forall p, ok p -> length (bits p) <= W) -> wf_root t -> subtree t pa = Node i p v l r -> length pa <= W.
Proof.
  intros HW Hr Hs. destruct (proj2 (wf_edges t Hr) _ _ _ _ _ _ Hs) as [A [B _]]. specialize (HW p A). lia.
Qed.

Lemma last_with_key (l : list (pfx * V)) : forall e, In e l ->
  exists e' l1 l2, l = l1 ++ e' :: l2 /\ key e' = key e /\ forall e'', In e'' l2 -> key e'' <> key e'.
Proof.
  induction l as [|a l IH]; intros e He; [destruct He|].
  destruct (Exists_dec (fun e'' => key e'' = key e) l
              (fun x => list_eq_dec Bool.bool_dec (key x) (key e))) as [Hex|Hno].
  - apply Exists_exists in Hex. destruct Hex as [e2 [H2 K2]].
    destruct (IH e2 H2) as [e' [l1 [l2 [E [K H]]]]]. exists e', (a :: l1), l2.
    split; [rewrite E; reflexivity|]. split; [congruence | exact H].
  - assert (Hall : forall e'', In e'' l -> key e'' <> key e).
    { intros e'' Hi K. apply Hno. apply Exists_exists. exists e''. split; assumption. }
    destruct He as [->|He]; [|exfalso; exact (Hall e He eq_refl)].
    exists e, [], l. split; [reflexivity|]. split; [reflexivity | exact Hall].
Qed.

Lemma from_list_keys l : (forall e, In e l -> ok (fst e)) ->
  wf_root (root (from_list l)) /\
  forall k, (exists e, In e (entries (root (from_list l))) /\ key e = k) <-> (exists e, In e l /\ key e = k).
Proof.
  intros Hok. destruct (from_list_spec pfx V _ _ _ _ _ _ _ _ _ LAWS l Hok) as [W S].
  split; [exact W|]. intros k. split.
  - intros [e [He Hk]]. apply S in He. destruct He as [l1 [l2 [E _]]]. exists e. split; [|exact Hk].
    rewrite E. apply in_or_app. right. left. reflexivity.
  - intros [e [He Hk]]. destruct (last_with_key l e He) as [e' [l1 [l2 [E [K H]]]]].
    exists e'. split; [|congruence]. apply S. exists l1, l2. split; assumption.
Qed.

(** a well-formed canonical tree has the shape of the map built by inserting, in
    ANY order (with any values, repetitions allowed), any list with the same key set *)
Theorem canonical_shape_from_list (t : tree) l :
  wf_root t -> canonical t -> (forall e, In e l -> ok (fst e)) ->
  (forall k, (exists e, In e (entries t) /\ key e = k) <-> (exists e, In e l /\ key e = k)) ->
  shape_of t = shape_of (root (from_list l)).
Proof.
  intros Hr Hc Hok HK. destruct (from_list_keys l Hok) as [W S].
  apply (canonical_unique pfx V bits ok); try assumption.
  - apply from_list_canonical.
  - intros k. rewrite HK, S. reflexivity.
Qed.

Corollary canonical_shape_rebuild (t : tree) l :
  wf_root t -> canonical t -> Permutation l (entries t) ->
  shape_of t = shape_of (root (from_list l)).
Proof.
  intros Hr Hc HP. apply canonical_shape_from_list; try assumption.
  - intros e He. eapply (wf_root_entries_ok pfx V bits ok); [exact Hr|]. eapply Permutation_in; eassumption.
  - intros k. split; intros [e [He Hk]]; exists e; (split; [|exact Hk]).
    + eapply Permutation_in; [apply Permutation_sym; exact HP | exact He].
    + eapply Permutation_in; eassumption.
Qed.

(** [remove] exactly reverts the [insert] of a key that was not stored: same
    shape, same entries *)
Theorem remove_reverts_insert_wf (m : pmap) q x :
  wf_root (root m) -> canonical (root m) -> ok q ->
  (~ exists e, In e (entries (root m)) /\ key e = bits q) ->
  let m2 := fst (remove (fst (insert m q x)) q) in
  wf_root (root m2) /\ canonical (root m2) /\
  shape_of (root m2) = shape_of (root m) /\ entries (root m2) = entries (root m).
Proof.
  intros Hr Hc Hq Hfresh. cbv zeta.
  destruct (insert m q x) as [m1 o1] eqn:I. destruct (insert_spec pfx V _ _ _ _ _ _ _ _ _ LAWS m q x m1 o1 Hr Hq I) as [R1 [E1 _]].
  cbn [fst]. destruct (remove m1 q) as [m2 o2] eqn:R.
  destruct (remove_spec pfx V _ _ _ _ _ _ _ _ _ LAWS m1 q m2 o2 R1 Hq R) as [R2 [E2 _]]. cbn [fst].
  assert (C1 : canonical (root m1)).
  { replace m1 with (fst (insert m q x)) by (rewrite I; reflexivity). apply insert_canonical; fin Hc. }
  assert (C2 : canonical (root m2)).
  { replace m2 with (fst (remove m1 q)) by (rewrite R; reflexivity). apply remove_canonical; fin C1. }
  assert (Hmem : forall e, In e (entries (root m2)) <-> In e (entries (root m))).
  { intros e. rewrite E2, E1. split.
    - intros [[->|[He _]] Hne]; [exfalso; apply Hne; reflexivity | exact He].
    - intros He. assert (Hne : key e <> bits q) by (intros K; apply Hfresh; exists e; split; assumption).
      split; [right; split; assumption | exact Hne]. }
  split; [exact R2|]. split; [exact C2|]. split.
  - apply (canonical_unique pfx V bits ok); try assumption.
    intros k. split; intros [e [He Hk]]; exists e; (split; [apply Hmem; exact He | exact Hk]).
  - apply (entries_ext pfx V pzero bits ok); [exact R2 | | exact Hmem].
    apply (TrieWf.wf_root_sorted pfx V bits ok). exact Hr.
Qed.

(** the operations that only touch values: [remove_keep_tree], [OccupiedEntry::remove],
    [get_mut]/[and_modify], writes through mutable traversals, [TrieViewMut::set]/[::remove],
    and the Entry API on an occupied entry *)
Definition value_op (m : pmap) (o : op) : bool :=
  match o with
  | OOccRemove _ _ _ | OUpdate _ _ _ _ | ORemoveKeepTree _ _ _ | OWrite _ _ _
  | OViewSet _ _ _ _ | OViewRemove _ _ _ => true
  | OEntryInsert _ _ q _ | OOrInsert _ _ q _ => occupied m q
  | _ => false
  end.
Definition replaces_prefix (o : op) : bool :=
  match o with OEntryInsert _ _ _ _ => true | _ => false end.

Theorem step_value_skel m o :
  value_op m o = true -> replaces_prefix o = false -> skel (root (step m o)) = skel (root m).
Proof.
  intros Hv Hp. destruct o; cbn [value_op replaces_prefix History.step] in *; try discriminate.
  - rewrite Hv. reflexivity.
  - destruct (occupied m q); [|reflexivity]. unfold Trie.occ_remove. cbn [fst root].
    apply skel_modify. reflexivity.
  - unfold Trie.update_value. cbn [root]. apply skel_modify. reflexivity.
  - unfold Trie.remove_keep_tree. cbn [fst root]. apply skel_modify. reflexivity.
  - cbn [root]. apply (write_ids_skel' pfx V).
  - cbn [root vm_set mvirt fst mpath vm_tree]. apply (subst_set_skel pfx V).
  - cbn [root vm_remove mvirt fst mpath vm_tree]. apply (subst_set_skel pfx V).
Qed.

(** [OccupiedEntry::insert] stores the caller's prefix (same key, possibly other host bits):
    slots, KEYS and structure are untouched *)
Theorem step_value_skelb m o :
  wf_root (root m) -> op_ok o -> value_op m o = true -> skelb (root (step m o)) = skelb (root m).
Proof.
  intros Hr Ho Hv. destruct (replaces_prefix o) eqn:Hp.
  - destruct o; cbn [replaces_prefix] in Hp; try discriminate. cbn [value_op History.step History.op_ok] in *.
    rewrite Hv. unfold Trie.occ_insert. cbn [fst root].
    destruct (root m) as [|i p v l r] eqn:Rm; [destruct Hr|]. destruct Hr as [_ Hwf].
    eapply (skelb_modify pfx V _ _ _ _ _ _ _ _ _ LAWS); [exact Hwf | exact Ho|].
    apply keeps_key_put. exact Ho.
  - apply skel_skelb. apply step_value_skel; assumption.
Qed.

(** one step: the resetting operations shrink the arena to the nodes of the new map; every other
    operation leaves the length alone unless more nodes are alive than ever before *)
Lemma acct_alen m m' r c : acct pfx V m m' r c -> minv m -> minv m' ->
  alen (al m') = if r then nnodes (root m') else N.max (alen (al m)) (nnodes (root m')).
Proof.
  intros A M M'. destruct (alen_bounded pfx V peq contains is_bit_set plen lcp pzero m' M') as [B E].
  destruct A as [G HG P | (_ & _ & L & _) | _ L | _ _ F]; [eapply acct_max; fin P | lia | rewrite L in *; lia |].
  rewrite F in E. cbn [length] in E. lia.
Qed.

Theorem step_alen m o : minv m ->
  alen (al (step m o)) =
  if is_reset o then nnodes (root (step m o)) else N.max (alen (al m)) (nnodes (root (step m o))).
Proof. intros M. apply (acct_alen _ _ _ _ (step_acct pfx V peq contains is_bit_set plen lcp pzero m o) M). apply step_minv. exact M. Qed.

(** the largest number of nodes of any state visited by the history [ops] started in [m] *)
Fixpoint hpeak (ops : list op) (m : pmap) : N :=
  match ops with
  | [] => nnodes (root m)
  | o :: ops' => N.max (nnodes (root m)) (hpeak ops' (step m o))
  end.

Lemma hpeak_ge ops m : (nnodes (root m) <= hpeak ops m)%N.
Proof. destruct ops; cbn [hpeak]; lia. Qed.

(** without a resetting operation the arena length is exactly the largest
    number of nodes alive at one time *)
Theorem high_water_noreset ops : forall m, minv m ->
  forallb (fun o => negb (is_reset o)) ops = true ->
  alen (al (run_from m ops)) = N.max (alen (al m)) (hpeak ops m).
Proof.
  induction ops as [|o ops IH]; intros m M Hn; cbn [run_from fold_left hpeak].
  - destruct (alen_bounded pfx V peq contains is_bit_set plen lcp pzero m M) as [B _]. lia.
  - cbn [forallb] in Hn. apply andb_true_iff in Hn. destruct Hn as [H1 H2].
    apply negb_true_iff in H1. fold (run_from (step m o) ops).
    rewrite (IH _ (step_minv pfx V peq contains is_bit_set plen lcp pzero m o M) H2).
    rewrite (step_alen m o M), H1.
    destruct (alen_bounded pfx V peq contains is_bit_set plen lcp pzero m M) as [B _].
    pose proof (hpeak_ge ops (step m o)). lia.
Qed.

Theorem high_water_bound ops : forall m, minv m ->
  (alen (al (run_from m ops)) <= N.max (alen (al m)) (hpeak ops m))%N.
Proof.
  induction ops as [|o ops IH]; intros m M; cbn [run_from fold_left hpeak]; [lia|].
  fold (run_from (step m o) ops).
  pose proof (IH _ (step_minv pfx V peq contains is_bit_set plen lcp pzero m o M)) as H.
  rewrite (step_alen m o M) in H. pose proof (hpeak_ge ops (step m o)).
  destruct (is_reset o); lia.
Qed.

Corollary reachable_high_water ops :
  forallb (fun o => negb (is_reset o)) ops = true -> alen (al (run ops)) = hpeak ops empty.
Proof.
  intros Hn. rewrite run_run_from, (high_water_noreset ops empty (minv_empty pfx V pzero) Hn).
  pose proof (hpeak_ge ops empty) as P. change (nnodes (root empty)) with 1%N in P.
  change (alen (al empty)) with 1%N. lia.
Qed.

Corollary reachable_high_water_bound ops : (alen (al (run ops)) <= hpeak ops empty)%N.
Proof.
  rewrite run_run_from. pose proof (high_water_bound ops empty (minv_empty pfx V pzero)) as H.
  pose proof (hpeak_ge ops empty) as P. change (nnodes (root empty)) with 1%N in P.
  change (alen (al empty)) with 1%N in H. lia.
Qed.

Corollary reachable_high_water_since_reset ops1 o ops2 :
  is_reset o = true -> forallb (fun o => negb (is_reset o)) ops2 = true ->
  alen (al (run (ops1 ++ o :: ops2))) = hpeak ops2 (run (ops1 ++ [o])).
Proof.
  intros R Hn. replace (ops1 ++ o :: ops2) with ((ops1 ++ [o]) ++ ops2) by (rewrite <- app_assoc; reflexivity).
  rewrite run_app. fold (run_from (run (ops1 ++ [o])) ops2).
  rewrite (high_water_noreset ops2 _ (reachable_minv _) Hn).
  rewrite run_snoc at 1. rewrite (step_alen _ o (reachable_minv ops1)), R, <- run_snoc.
  pose proof (hpeak_ge ops2 (run (ops1 ++ [o]))). lia.
Qed.

Lemma hpeak_le ops : forall m (B : N),
  (forall k, (nnodes (root (run_from m (firstn k ops))) <= B)%N) -> (hpeak ops m <= B)%N.
Proof.
  induction ops as [|o ops IH]; intros m B H; cbn [hpeak].
  - exact (H 0).
  - pose proof (H 0) as H0. cbn [firstn run_from fold_left] in H0.
    assert (H1 : (hpeak ops (step m o) <= B)%N).
    { apply IH. intros k. exact (H (S k)). }
    lia.
Qed.

(** between two states with the same arena length every slot of the later tree was in the
    earlier tree or in the earlier free list: growth of the tree is fed from the free list *)
Theorem no_growth_reuses (m m' : pmap) : minv m -> minv m' -> alen (al m') = alen (al m) ->
  forall i, In i (ids (root m')) -> In i (ids (root m)) \/ In i (free (al m)).
Proof.
  intros M M' E i Hi. apply (slots_range pfx V peq contains is_bit_set plen lcp pzero _ _ M).
  rewrite <- E. apply (slots_range pfx V peq contains is_bit_set plen lcp pzero _ _ M'). left. exact Hi.
Qed.

Theorem canonical_empty_root (t : tree) :
  canonical t -> entries t = [] -> exists i p, t = Node i p None Leaf Leaf.
Proof.
  destruct t as [|i p v l r]; [intros []|]. intros [Cl Cr] E. cbn [entries] in E.
  apply app_eq_nil in E. destruct E as [Ev E]. apply app_eq_nil in E. destruct E as [El Er].
  destruct v; [discriminate|].
  destruct l as [|li lp lv ll lr]; [|exfalso; exact (canon_nonempty pfx V _ Cl eq_refl El)].
  destruct r as [|ri rp rv rl rr]; [|exfalso; exact (canon_nonempty pfx V _ Cr eq_refl Er)].
  exists i, p. reflexivity.
Qed.

Corollary canonical_empty_nnodes (t : tree) : canonical t -> entries t = [] -> nnodes t = 1%N.
Proof. intros C E. destruct (canonical_empty_root t C E) as [i [p ->]]. reflexivity. Qed.

Lemma canon_below_nodes (t : tree) : canon_below t ->
  length (ids t) + (if is_node t then 1 else 0) <= 2 * length (entries t).
Proof.
  induction t as [|i p v l IHl r IHr]; intros C; [cbn; lia|].
  destruct C as [Hv [Cl Cr]]. specialize (IHl Cl). specialize (IHr Cr).
  cbn [Slots.ids entries is_node length]. rewrite !app_length.
  destruct v as [x|]; cbn [length].
  - destruct (is_node l), (is_node r); lia.
  - destruct (Hv eq_refl) as [Nl Nr]. rewrite Nl in IHl. rewrite Nr in IHr. lia.
Qed.

Theorem canonical_nodes (t : tree) : canonical t ->
  (nnodes t <= 2 * N.of_nat (length (entries t)) + 1)%N.
Proof.
  destruct t as [|i p v l r]; [intros []|]. intros [Cl Cr].
  pose proof (canon_below_nodes l Cl) as Hl. pose proof (canon_below_nodes r Cr) as Hr.
  unfold Slots.nnodes. cbn [Slots.ids entries length]. rewrite !app_length.
  clear - Hl Hr. destruct (is_node l), (is_node r); lia.
Qed.

(** over [canon_op], a history that never
    holds more than [B] entries at a time never needs more than [2B + 1] slots, however long *)
Theorem canon_churn_bound ops (B : nat) :
  forallb canon_op ops = true ->
  (forall k, length (entries (root (run (firstn k ops)))) <= B) ->
  (alen (al (run ops)) <= 2 * N.of_nat B + 1)%N.
Proof.
  intros Hc HB. pose proof (reachable_high_water_bound ops) as H.
  assert (P : (hpeak ops empty <= 2 * N.of_nat B + 1)%N).
  { apply hpeak_le. intros k. rewrite <- run_run_from.
    pose proof (canonical_nodes _ (reachable_canonical pfx V peq contains is_bit_set plen lcp pzero _
                                     (forallb_firstn _ k ops Hc))) as Cn.
    specialize (HB k). lia. }
  lia.
Qed.

(** canonicity read along view paths: every value-less node other than the root has two children *)
Lemma canon_below_subtree pa : forall t : tree, canon_below t -> canon_below (subtree t pa).
Proof.
  induction pa as [|s pa IH]; intros t C; [destruct t; exact C|].
  destruct t as [|i p v l r]; [exact I|]. cbn [subtree]. destruct C as [_ [Cl Cr]].
  apply IH. destruct s; assumption.
Qed.

Theorem canonical_words (t : tree) : canonical t ->
  forall pa i p l r, pa <> [] -> subtree t pa = Node i p None l r -> is_node l = true /\ is_node r = true.
Proof.
  intros C pa i p l r Hne Hs. destruct pa as [|s pa]; [congruence|].
  destruct t as [|i0 p0 v0 l0 r0]; [destruct C|]. destruct C as [Cl Cr]. cbn [subtree] in Hs.
  assert (Cc : canon_below (if s then r0 else l0)) by (destruct s; assumption).
  pose proof (canon_below_subtree pa _ Cc) as Cs. rewrite Hs in Cs. destruct Cs as [Hv _].
  apply Hv. reflexivity.
Qed.

End HX.

Print Assumptions reachable_minv.
Print Assumptions step_gap.
Print Assumptions reachable_drift.
Print Assumptions drift_counts.
Print Assumptions drift_reset.
Print Assumptions wf_edges.
Print Assumptions wf_root_depth.
Print Assumptions wf_root_path_len.
Print Assumptions canonical_shape_from_list.
Print Assumptions canonical_shape_rebuild.
Print Assumptions remove_reverts_insert_wf.
Print Assumptions step_value_skel.
Print Assumptions step_value_skelb.
Print Assumptions step_alen.
Print Assumptions high_water_noreset.
Print Assumptions high_water_bound.
Print Assumptions reachable_high_water.
Print Assumptions reachable_high_water_bound.
Print Assumptions reachable_high_water_since_reset.
Print Assumptions no_growth_reuses.
Print Assumptions canonical_empty_root.
Print Assumptions canonical_nodes.
Print Assumptions canon_churn_bound.
Print Assumptions canonical_words.
